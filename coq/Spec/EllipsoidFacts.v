(** The principal radii of the WGS-84 ellipsoid never fall below 6000 km: the one bound that keeps every
    "radius + altitude" denominator of the navigation equations away from zero down to 1000 km below the surface. *)
From Coq Require Import Reals Lra Psatz.
From PV Require Import Base.RealTac Spec.Ellipsoid.
Open Scope R_scope.

Lemma W2_range phi : 0 < W2 E2_ phi <= 1.
Proof. unfold W2. pose proof (W_pos phi). pose proof (sin2_le1 phi). unfold E2_ in *. nra. Qed.

Lemma sqrtW2_range phi : 0 < sqrt (W2 E2_ phi) <= 1.
Proof.
  destruct (W2_range phi) as [H0 H1]. split; [now apply sqrt_lt_R0|].
  rewrite <- sqrt_1. now apply sqrt_le_1_alt.
Qed.

(* R_N = a (1 - e2) / q^3 and R_E = a / q with q = sqrt W2 in (0, 1] *)
Lemma R_meridian_ge phi : 6000000 <= R_meridian A_ E2_ phi.
Proof.
  unfold R_meridian. destruct (sqrtW2_range phi) as [Hq Hq1].
  assert (Hqq : sqrt (W2 E2_ phi) * sqrt (W2 E2_ phi) = W2 E2_ phi)
    by (apply sqrt_sqrt; destruct (W2_range phi); lra).
  set (q := sqrt (W2 E2_ phi)) in *. rewrite <- Hqq.
  assert (0 < q * q * q) by (repeat apply Rmult_lt_0_compat; assumption).
  apply Rmult_le_reg_r with (q * q * q); [assumption|].
  replace (A_ * (1 - E2_) / (q * q * q) * (q * q * q)) with (A_ * (1 - E2_)) by (field; lra).
  assert (q * q * q <= 1) by (clear Hqq; nra). unfold A_, E2_. lra.
Qed.

Lemma R_transverse_ge phi : 6378137 <= R_transverse A_ E2_ phi.
Proof.
  unfold R_transverse. destruct (sqrtW2_range phi) as [Hq Hq1]. set (q := sqrt (W2 E2_ phi)) in *.
  apply Rmult_le_reg_r with q; [lra|]. replace (A_ / q * q) with A_ by (field; lra). unfold A_. nra.
Qed.
