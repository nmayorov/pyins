(** Facts about the hand specifications of Spec/LibSpecs.v: periodicity of sin and cos over Z, and that the
    atan2 defined there is the polar angle in (-PI, PI]. *)
From Coq Require Import Reals ZArith Lra Lia.
From PV Require Import Spec.LibSpecs.
Open Scope R_scope.

Lemma sin_period_Z x (k : Z) : sin (x + 2 * IZR k * PI) = sin x.
Proof.
  destruct (Z_le_gt_dec 0 k) as [Hk|Hk].
  - rewrite <- (Z2Nat.id k Hk), <- INR_IZR_INZ. apply sin_period.
  - rewrite <- (sin_period (x + 2 * IZR k * PI) (Z.to_nat (- k))).
    rewrite INR_IZR_INZ, Z2Nat.id by lia. rewrite opp_IZR. f_equal. ring.
Qed.

Lemma cos_period_Z x (k : Z) : cos (x + 2 * IZR k * PI) = cos x.
Proof. rewrite !cos_sin, <- Rplus_assoc. apply sin_period_Z. Qed.

Lemma wrap_180 x : exists k : Z, -180 < x + 360 * IZR k <= 180.
Proof.
  exists (Int_part ((180 - x) / 360)).
  destruct (base_Int_part ((180 - x) / 360)) as [H1 H2].
  set (m := IZR (Int_part ((180 - x) / 360))) in *. lra.
Qed.

Lemma sincos_inj a b :
  - PI < a <= PI -> - PI < b <= PI -> sin a = sin b -> cos a = cos b -> a = b.
Proof.
  intros Ha Hb Hs Hc.
  assert (S0 : sin (a - b) = 0) by (rewrite sin_minus, Hs, Hc; ring).
  assert (C1 : cos (a - b) = 1).
  { rewrite cos_minus, Hs, Hc. pose proof (sin2_cos2 b) as H. unfold Rsqr in H. lra. }
  destruct (sin_eq_0_0 _ S0) as [k Hk].
  pose proof PI_RGT_0 as Hpi.
  assert (Hlt : -2 < IZR k < 2) by (split; nra).
  assert (Hk' : (-2 < k < 2)%Z) by (split; apply lt_IZR; lra).
  assert (Hcase : k = (-1)%Z \/ k = 0%Z \/ k = 1%Z) by lia.
  destruct Hcase as [E|[E|E]]; subst k.
  - exfalso. rewrite Hk in C1. replace (-1 * PI) with (- PI) in C1 by ring.
    rewrite cos_neg, cos_PI in C1. lra.
  - lra.
  - exfalso. rewrite Hk in C1. replace (1 * PI) with PI in C1 by ring.
    rewrite cos_PI in C1. lra.
Qed.

(** ** numpy.arctan2 *)

Lemma atan2_bound y x : - PI < atan2 y x <= PI.
Proof.
  unfold atan2. pose proof PI_RGT_0 as Hpi. pose proof (atan_bound (y / x)) as Hb.
  destruct (Rlt_dec 0 x) as [Hx|Hx]; [lra|].
  destruct (Rlt_dec x 0) as [Hx'|Hx'].
  - destruct (Rle_dec 0 y) as [Hy|Hy].
    + assert (y / x <= 0).
      { unfold Rdiv. assert (/ x < 0) by (apply Rinv_lt_0_compat; lra). nra. }
      assert (atan (y / x) <= 0).
      { destruct (Req_dec (y / x) 0) as [E|E]; [rewrite E, atan_0; lra|].
        left. rewrite <- atan_0. apply atan_increasing. lra. }
      lra.
    + assert (0 < y / x).
      { unfold Rdiv. assert (/ x < 0) by (apply Rinv_lt_0_compat; lra). nra. }
      assert (0 < atan (y / x)) by (rewrite <- atan_0; apply atan_increasing; lra).
      lra.
  - destruct (Rlt_dec 0 y); [lra|]. destruct (Rlt_dec y 0); lra.
Qed.

Lemma sqrt_scale x y : x <> 0 -> sqrt (x * x + y * y) = Rabs x * sqrt (1 + (y / x)²).
Proof.
  intro Hx. rewrite <- sqrt_Rsqr_abs, <- sqrt_mult_alt by apply Rle_0_sqr.
  f_equal. unfold Rsqr. field. exact Hx.
Qed.

Lemma sincos_atan2 y x : 0 < x * x + y * y ->
  sin (atan2 y x) = y / sqrt (x * x + y * y) /\ cos (atan2 y x) = x / sqrt (x * x + y * y).
Proof.
  intro H. unfold atan2.
  assert (Hq : 0 < sqrt (1 + (y / x)²)) by (apply sqrt_lt_R0; unfold Rsqr; nra).
  destruct (Rlt_dec 0 x) as [Hx|Hx].
  { rewrite sin_atan, cos_atan, sqrt_scale, Rabs_pos_eq by lra. split; field; lra. }
  destruct (Rlt_dec x 0) as [Hx'|Hx'].
  { rewrite sqrt_scale, Rabs_left by lra.
    destruct (Rle_dec 0 y) as [Hy|Hy].
    - rewrite neg_sin, neg_cos, sin_atan, cos_atan. split; field; lra.
    - unfold Rminus. rewrite sin_plus, cos_plus, cos_neg, sin_neg, cos_PI, sin_PI, sin_atan, cos_atan.
      split; field; lra. }
  assert (x = 0) by lra. subst x.
  replace (0 * 0 + y * y) with (y * y) by ring.
  destruct (Rlt_dec 0 y) as [Hy|Hy].
  { rewrite sin_PI2, cos_PI2, sqrt_square by lra. split; field; lra. }
  destruct (Rlt_dec y 0) as [Hy'|Hy']; [|nra].
  rewrite sin_neg, cos_neg, sin_PI2, cos_PI2. replace (y * y) with (- y * - y) by ring.
  rewrite sqrt_square by lra. split; field; lra.
Qed.

Lemma sincos_atan2_scaled k s c : k <> 0 -> s * s + c * c = 1 ->
  sin (atan2 (k * s) (k * c)) = k / sqrt (k * k) * s /\
  cos (atan2 (k * s) (k * c)) = k / sqrt (k * k) * c.
Proof.
  intros Hk H. assert (Hkk : 0 < k * k) by nra.
  assert (Hn : k * c * (k * c) + k * s * (k * s) = k * k) by nra.
  assert (Ha : 0 < sqrt (k * k)) by (apply sqrt_lt_R0, Hkk).
  destruct (sincos_atan2 (k * s) (k * c)) as [S C]; [lra|].
  rewrite Hn in S, C. rewrite S, C. split; field; lra.
Qed.

Lemma atan2_sin_cos k a : 0 < k -> - PI < a <= PI -> atan2 (k * sin a) (k * cos a) = a.
Proof.
  intros Hk Ha. pose proof (sin2_cos2 a) as H. unfold Rsqr in H.
  destruct (sincos_atan2_scaled k (sin a) (cos a)) as [S C]; [lra|exact H|].
  rewrite sqrt_square in S, C by lra.
  apply sincos_inj; [apply atan2_bound|exact Ha|rewrite S|rewrite C]; field; lra.
Qed.
