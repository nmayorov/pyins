(** C02 — Integrator result is independent of call history (chunks, predict, restart);
    plus the history part of C13 (generic 2D invariant).

    All statements quantify over arbitrary row types, an arbitrary kernel step
    [kstep], arbitrary [to_pub]/[of_pub]/[zero_vd]/[inc_time], arbitrary contents
    [g] of unwritten buffer cells, any initial capacity >= 1, both altitude
    modes [b] and every finite history [ops].  The model is Model/Integrator.v. *)
From Coq Require Import List Arith Bool ZArith Lia.
From PV Require Import Model.Integrator Proofs.IntegratorProofs.
Import ListNotations.

(** (a) No history ever reads or writes outside the buffers (the model returns
    [None] on any out-of-bounds access); every reachable state has a non-empty
    trajectory, a valid buffer prefix, and [length traj <= capacity]. *)
Theorem C02_writes_in_bounds :
  forall (brow prow inc time : Type) (kstep : bool -> brow -> inc -> brow)
         (to_pub : brow -> prow) (of_pub : prow -> brow) (zero_vd : prow -> prow)
         (inc_time : inc -> time) (g : brow)
         (b : bool) (cap : nat) (t0 : time) (p : prow) (ops : list (op prow inc)),
    1 <= cap ->
    exists s os,
      run_init kstep to_pub of_pub zero_vd inc_time g b cap t0 p ops = Some (s, os) /\
      Inv to_pub of_pub s /\
      1 <= length (traj s) <= length (buf s) /\ length os = length ops.
Proof. exact writes_in_bounds. Qed.
Print Assumptions C02_writes_in_bounds.

(** ... and the invariant is inductive: any operation from any state satisfying it succeeds. *)
Theorem C02_step_total :
  forall (brow prow inc time : Type) (kstep : bool -> brow -> inc -> brow)
         (to_pub : brow -> prow) (of_pub : prow -> brow) (zero_vd : prow -> prow)
         (inc_time : inc -> time) (g : brow) (s : state brow prow time) (o : op prow inc),
    Inv to_pub of_pub s ->
    exists s' ob,
      step kstep to_pub of_pub zero_vd inc_time g s o = Some (s', ob) /\
      Inv to_pub of_pub s' /\ with_alt s' = with_alt s.
Proof. exact step_Inv. Qed.
Print Assumptions C02_step_total.

(** (b) Any history without [SetPva] — any split into chunks (empty ones
    included), any interleaving of [Predict]/[GetPva]/[GetTime], any capacities
    and garbage — ends with the trajectory of the single call
    [Integrate (all increments)], which is the closed form
    start row :: zip times (map to_pub (scanl kstep (of_pub start) incs)). *)
Theorem C02_integrate_chunks :
  forall (brow prow inc time : Type) (kstep : bool -> brow -> inc -> brow)
         (to_pub : brow -> prow) (of_pub : prow -> brow) (zero_vd : prow -> prow)
         (inc_time : inc -> time) (g g' : brow)
         (b : bool) (cap cap' : nat) (t0 : time) (p : prow) (ops : list (op prow inc)),
    1 <= cap -> 1 <= cap' -> existsb is_setpva ops = false ->
    exists s os s1 os1,
      run_init kstep to_pub of_pub zero_vd inc_time g b cap t0 p ops = Some (s, os) /\
      run_init kstep to_pub of_pub zero_vd inc_time g' b cap' t0 p [Integrate (all_incs ops)]
        = Some (s1, os1) /\
      traj s = traj s1 /\
      traj s = (t0, supplied zero_vd b p)
               :: combine (map inc_time (all_incs ops))
                          (map to_pub (scanl (kstep b) (of_pub (supplied zero_vd b p))
                                             (all_incs ops))).
Proof. exact integrate_chunks. Qed.
Print Assumptions C02_integrate_chunks.

(** (b, general) With [SetPva]: the part of the trajectory from the most recent
    supply on depends only on the supplied pva and the increments integrated since. *)
Theorem C02_since_last_supply :
  forall (brow prow inc time : Type) (kstep : bool -> brow -> inc -> brow)
         (to_pub : brow -> prow) (of_pub : prow -> brow) (zero_vd : prow -> prow)
         (inc_time : inc -> time) (g : brow)
         (b : bool) (cap : nat) (t0 : time) (p : prow) (ops : list (op prow inc)),
    1 <= cap ->
    exists s os pre t,
      run_init kstep to_pub of_pub zero_vd inc_time g b cap t0 p ops = Some (s, os) /\
      traj s = pre ++ (t, supplied zero_vd b (latest_pva p ops))
                   :: combine (map inc_time (incs_since [] ops))
                        (map to_pub (scanl (kstep b)
                                       (of_pub (supplied zero_vd b (latest_pva p ops)))
                                       (incs_since [] ops))).
Proof. exact since_last_supply. Qed.
Print Assumptions C02_since_last_supply.

(** (f) The time index is the start time followed by the time of every
    integrated increment exactly once, in order (for every history). *)
Theorem C02_times_exactly_once :
  forall (brow prow inc time : Type) (kstep : bool -> brow -> inc -> brow)
         (to_pub : brow -> prow) (of_pub : prow -> brow) (zero_vd : prow -> prow)
         (inc_time : inc -> time) (g : brow)
         (b : bool) (cap : nat) (t0 : time) (p : prow) (ops : list (op prow inc)),
    1 <= cap ->
    exists s os,
      run_init kstep to_pub of_pub zero_vd inc_time g b cap t0 p ops = Some (s, os) /\
      map fst (traj s) = t0 :: map inc_time (all_incs ops).
Proof. exact times_exactly_once. Qed.
Print Assumptions C02_times_exactly_once.

(** (c) In every reachable state [predict i] returns exactly the row that
    [integrate [i]] appends — whether issued instead of or after the predict —
    and leaves the trajectory unchanged. *)
Theorem C02_predict_is_next_row :
  forall (brow prow inc time : Type) (kstep : bool -> brow -> inc -> brow)
         (to_pub : brow -> prow) (of_pub : prow -> brow) (zero_vd : prow -> prow)
         (inc_time : inc -> time) (g : brow)
         (b : bool) (cap : nat) (t0 : time) (p : prow) (ops : list (op prow inc)) (i : inc),
    1 <= cap ->
    exists s os s1 r s2 fr s3,
      run_init kstep to_pub of_pub zero_vd inc_time g b cap t0 p ops = Some (s, os) /\
      step kstep to_pub of_pub zero_vd inc_time g s (Predict i) = Some (s1, ORow r) /\
      fst r = inc_time i /\ traj s1 = traj s /\
      step kstep to_pub of_pub zero_vd inc_time g s (Integrate [i]) = Some (s2, fr) /\
      traj s2 = traj s ++ [r] /\
      step kstep to_pub of_pub zero_vd inc_time g s1 (Integrate [i]) = Some (s3, fr) /\
      traj s3 = traj s ++ [r].
Proof. exact predict_is_next_row. Qed.
Print Assumptions C02_predict_is_next_row.

(** (c) Deleting every [Predict] from a history (and changing capacity and
    garbage at will) changes neither the trajectory, nor the valid buffer
    prefix, nor the result of any remaining operation. *)
Theorem C02_predict_unobservable :
  forall (brow prow inc time : Type) (kstep : bool -> brow -> inc -> brow)
         (to_pub : brow -> prow) (of_pub : prow -> brow) (zero_vd : prow -> prow)
         (inc_time : inc -> time) (g g' : brow)
         (b : bool) (cap cap' : nat) (t0 : time) (p : prow) (ops : list (op prow inc))
         (s : state brow prow time) (os : list (obs prow time)),
    1 <= cap' ->
    run_init kstep to_pub of_pub zero_vd inc_time g b cap t0 p ops = Some (s, os) ->
    exists s2,
      run_init kstep to_pub of_pub zero_vd inc_time g' b cap' t0 p
               (filter (fun o => negb (is_predict o)) ops)
      = Some (s2, obs_without_predict ops os) /\
      traj s2 = traj s /\ equiv s s2.
Proof. exact predict_unobservable. Qed.
Print Assumptions C02_predict_unobservable.

(** (c) [step] respects the equivalence that ignores cells beyond the valid
    prefix, the capacity and the garbage value: same result, equivalent states. *)
Theorem C02_step_respects_equiv :
  forall (brow prow inc time : Type) (kstep : bool -> brow -> inc -> brow)
         (to_pub : brow -> prow) (of_pub : prow -> brow) (zero_vd : prow -> prow)
         (inc_time : inc -> time) (g1 g2 : brow)
         (s1 s2 : state brow prow time) (o : op prow inc),
    Inv to_pub of_pub s1 -> Inv to_pub of_pub s2 -> equiv s1 s2 ->
    exists s1' s2' ob,
      step kstep to_pub of_pub zero_vd inc_time g1 s1 o = Some (s1', ob) /\
      step kstep to_pub of_pub zero_vd inc_time g2 s2 o = Some (s2', ob) /\
      equiv s1' s2'.
Proof. exact step_equiv. Qed.
Print Assumptions C02_step_respects_equiv.

(** Initial capacity (hence every buffer-growth boundary) and garbage are unobservable. *)
Theorem C02_capacity_irrelevant :
  forall (brow prow inc time : Type) (kstep : bool -> brow -> inc -> brow)
         (to_pub : brow -> prow) (of_pub : prow -> brow) (zero_vd : prow -> prow)
         (inc_time : inc -> time) (g g' : brow)
         (b : bool) (cap cap' : nat) (t0 : time) (p : prow) (ops : list (op prow inc))
         (s : state brow prow time) (os : list (obs prow time)),
    1 <= cap' ->
    run_init kstep to_pub of_pub zero_vd inc_time g b cap t0 p ops = Some (s, os) ->
    exists s2,
      run_init kstep to_pub of_pub zero_vd inc_time g' b cap' t0 p ops = Some (s2, os) /\
      traj s2 = traj s /\ equiv s s2.
Proof. exact capacity_garbage_irrelevant. Qed.
Print Assumptions C02_capacity_irrelevant.

(** (d) After [SetPva p] at time [t] the continuation — appended rows and every
    result — is that of a fresh integrator constructed from [p] at [t]
    (any capacities, any garbage). *)
Theorem C02_set_pva_restart :
  forall (brow prow inc time : Type) (kstep : bool -> brow -> inc -> brow)
         (to_pub : brow -> prow) (of_pub : prow -> brow) (zero_vd : prow -> prow)
         (inc_time : inc -> time) (g g' : brow)
         (b : bool) (cap cap' : nat) (t0 : time) (p0 : prow)
         (ops1 : list (op prow inc)) (p : prow) (ops2 : list (op prow inc)),
    1 <= cap -> 1 <= cap' ->
    exists s1 os1 s os tpre tl f osf,
      run_init kstep to_pub of_pub zero_vd inc_time g b cap t0 p0 ops1 = Some (s1, os1) /\
      traj s1 = tpre ++ [tl] /\
      run_init kstep to_pub of_pub zero_vd inc_time g b cap t0 p0 (ops1 ++ SetPva p :: ops2)
        = Some (s, os) /\
      run_init kstep to_pub of_pub zero_vd inc_time g' b cap' (fst tl) p ops2 = Some (f, osf) /\
      traj s = tpre ++ traj f /\ os = os1 ++ OUnit :: osf.
Proof. exact set_pva_restart. Qed.
Print Assumptions C02_set_pva_restart.

(** (e) In every reachable state [integrate chunk] returns the previous last
    row followed by exactly the rows it appended (one per increment, stamped
    with the increment times). *)
Theorem C02_integrate_returns_tail :
  forall (brow prow inc time : Type) (kstep : bool -> brow -> inc -> brow)
         (to_pub : brow -> prow) (of_pub : prow -> brow) (zero_vd : prow -> prow)
         (inc_time : inc -> time) (g : brow)
         (b : bool) (cap : nat) (t0 : time) (p : prow) (ops : list (op prow inc))
         (c : list inc),
    1 <= cap ->
    exists s os s' tpre tl new,
      run_init kstep to_pub of_pub zero_vd inc_time g b cap t0 p ops = Some (s, os) /\
      traj s = tpre ++ [tl] /\
      step kstep to_pub of_pub zero_vd inc_time g s (Integrate c) = Some (s', OFrame (tl :: new)) /\
      traj s' = traj s ++ new /\ length new = length c /\ map fst new = map inc_time c.
Proof. exact integrate_returns_tail. Qed.
Print Assumptions C02_integrate_returns_tail.

(** (g, for C13) Generic invariant of the no-altitude mode.  If one 2D kernel
    step preserves [P] and [key], and every stored supply satisfies [P], then in
    every reachable 2D state the rows since the latest supply [q], and the
    buffer row every later step starts from, satisfy [P] and carry the key of
    [of_pub (zero_vd q)]. *)
Theorem C13_inv2d_since_supply :
  forall (brow prow inc time : Type) (kstep : bool -> brow -> inc -> brow)
         (to_pub : brow -> prow) (of_pub : prow -> brow) (zero_vd : prow -> prow)
         (inc_time : inc -> time)
         (K : Type) (P : brow -> Prop) (key : brow -> K),
    (forall r i, P r -> P (kstep false r i) /\ key (kstep false r i) = key r) ->
    (forall p, P (of_pub (zero_vd p))) ->
    forall (g : brow) (cap : nat) (t0 : time) (p : prow) (ops : list (op prow inc)),
    1 <= cap ->
    exists s os pre t rs cur,
      run_init kstep to_pub of_pub zero_vd inc_time g false cap t0 p ops = Some (s, os) /\
      traj s = pre ++ (t, zero_vd (latest_pva p ops))
                   :: combine (map inc_time (incs_since [] ops)) (map to_pub rs) /\
      rs = scanl (kstep false) (of_pub (zero_vd (latest_pva p ops))) (incs_since [] ops) /\
      Forall (fun r => P r /\ key r = key (of_pub (zero_vd (latest_pva p ops)))) rs /\
      nth_error (buf s) (length (traj s) - 1) = Some cur /\
      P cur /\ key cur = key (of_pub (zero_vd (latest_pva p ops))).
Proof. exact inv2d_since_supply. Qed.
Print Assumptions C13_inv2d_since_supply.

(** (g, step form) every row appended by [Integrate] and every row returned by
    [Predict] in a reachable 2D state is [to_pub] of such a row. *)
Theorem C13_inv2d_step :
  forall (brow prow inc time : Type) (kstep : bool -> brow -> inc -> brow)
         (to_pub : brow -> prow) (of_pub : prow -> brow) (zero_vd : prow -> prow)
         (inc_time : inc -> time)
         (K : Type) (P : brow -> Prop) (key : brow -> K),
    (forall r i, P r -> P (kstep false r i) /\ key (kstep false r i) = key r) ->
    (forall p, P (of_pub (zero_vd p))) ->
    forall (g : brow) (cap : nat) (t0 : time) (p : prow) (ops : list (op prow inc))
           (s : state brow prow time) (os : list (obs prow time)),
    run_init kstep to_pub of_pub zero_vd inc_time g false cap t0 p ops = Some (s, os) ->
    (forall g' c s' ob,
        step kstep to_pub of_pub zero_vd inc_time g' s (Integrate c) = Some (s', ob) ->
        exists rs, traj s' = traj s ++ combine (map inc_time c) (map to_pub rs) /\
                   length rs = length c /\
                   Forall (fun r => P r /\ key r = key (of_pub (zero_vd (latest_pva p ops)))) rs) /\
    (forall g' i s' ob,
        step kstep to_pub of_pub zero_vd inc_time g' s (Predict i) = Some (s', ob) ->
        exists r, ob = ORow (inc_time i, to_pub r) /\ traj s' = traj s /\
                  P r /\ key r = key (of_pub (zero_vd (latest_pva p ops)))).
Proof. exact inv2d_step. Qed.
Print Assumptions C13_inv2d_step.

(** The provenance terms of the correspondence instance have a correct decidable equality. *)
Theorem C02_term_eqb_correct :
  (forall a b, bterm_eqb a b = true <-> a = b) /\ (forall a b, pterm_eqb a b = true <-> a = b).
Proof. exact bterm_pterm_eqb_spec. Qed.
Print Assumptions C02_term_eqb_correct.

(** * Non-vacuity: concrete histories on the free-algebra instance, capacities 1 and 2
      (so the buffers grow several times) *)

(** a history with chunks (one empty), two predicts (the next and a foreign
    increment), getters; increments are (id, time) *)
Example ex_history_runs_cap1 :
  exists s os,
    t_run_init true 1 0%Z (PGiven 0)
      [Integrate [(0, 1%Z)]; Predict (1, 2%Z); Integrate []; GetPva; Predict (9, 77%Z);
       Integrate [(1, 2%Z); (2, 3%Z)]; GetTime] = Some (s, os) /\
    length (traj s) = 4 /\ length (buf s) = 4 /\ length os = 7.
Proof. eexists _, _. vm_compute. repeat split. Qed.

(** chunked + predicts at capacity 1 = one call at capacity 2 = the closed form *)
Example ex_integrate_chunks :
  let ops := [Integrate [(0, 1%Z)]; Predict (1, 2%Z); Integrate []; GetPva; Predict (9, 77%Z);
              Integrate [(1, 2%Z); (2, 3%Z)]; GetTime] in
  existsb is_setpva ops = false /\
  all_incs ops = [(0, 1%Z); (1, 2%Z); (2, 3%Z)] /\
  option_map (fun x => traj (fst x)) (t_run_init true 1 0%Z (PGiven 0) ops) =
  option_map (fun x => traj (fst x))
             (t_run_init true 2 0%Z (PGiven 0) [Integrate (all_incs ops)]) /\
  option_map (fun x => traj (fst x)) (t_run_init true 1 0%Z (PGiven 0) ops) =
  Some [(0%Z, PGiven 0);
        (1%Z, PToPub (BStep true (BOfPub (PGiven 0)) 0));
        (2%Z, PToPub (BStep true (BStep true (BOfPub (PGiven 0)) 0) 1));
        (3%Z, PToPub (BStep true (BStep true (BStep true (BOfPub (PGiven 0)) 0) 1) 2))].
Proof. vm_compute. repeat split. Qed.

(** predict returns the row the next integrate appends; the buffer is dirtied beyond the prefix *)
Example ex_predict_is_next_row :
  exists s os s1 s2 fr,
    t_run_init false 1 0%Z (PGiven 0) [Integrate [(0, 1%Z)]] = Some (s, os) /\
    t_step s (Predict (1, 2%Z)) =
      Some (s1, ORow (2%Z, PToPub (BStep false (BStep false (BOfPub (PZeroVd (PGiven 0))) 0) 1))) /\
    t_step s (Integrate [(1, 2%Z)]) = Some (s2, fr) /\
    traj s2 = traj s ++ [(2%Z, PToPub (BStep false (BStep false (BOfPub (PZeroVd (PGiven 0))) 0) 1))] /\
    traj s1 = traj s /\ buf s1 <> buf s /\ length (buf s) = 2 /\ length (buf s1) = 4.
Proof.
  eexists _, _, _, _, _. vm_compute. repeat split. discriminate.
Qed.

(** restart: after SetPva (2D mode, capacity 2, growth on the way) the
    continuation equals a fresh integrator at capacity 1 *)
Example ex_set_pva_restart :
  exists s os f osf,
    t_run_init false 2 0%Z (PGiven 0)
      ([Integrate [(0, 1%Z); (1, 2%Z)]; Predict (2, 3%Z)] ++ SetPva (PGiven 1)
         :: [Integrate [(2, 3%Z)]; GetPva; Integrate [(3, 4%Z); (4, 5%Z)]]) = Some (s, os) /\
    t_run_init false 1 2%Z (PGiven 1)
      [Integrate [(2, 3%Z)]; GetPva; Integrate [(3, 4%Z); (4, 5%Z)]] = Some (f, osf) /\
    traj s = [(0%Z, PZeroVd (PGiven 0));
              (1%Z, PToPub (BStep false (BOfPub (PZeroVd (PGiven 0))) 0))] ++ traj f /\
    skipn 3 os = osf /\ length (traj f) = 4 /\ length (buf s) = 8 /\ length (buf f) = 4.
Proof. eexists _, _, _, _. vm_compute. repeat split. Qed.

(** times: start time, then each increment time once *)
Example ex_times :
  option_map (fun x => map fst (traj (fst x)))
    (t_run_init true 1 0%Z (PGiven 0)
       [Integrate [(0, 1%Z)]; SetPva (PGiven 1); Integrate []; Integrate [(1, 2%Z); (2, 3%Z)]])
  = Some [0%Z; 1%Z; 2%Z; 3%Z].
Proof. vm_compute. reflexivity. Qed.

(** the error value is reachable in the model, so totality is a real statement:
    capacity 0 fails in the constructor, and a state violating the invariant
    (trajectory longer than the buffer allows) makes the kernel write out of bounds *)
Example ex_error_reachable :
  t_run_init true 0 0%Z (PGiven 0) [] = None /\
  t_step (mkState true [] [BGarbage]) GetPva = None /\
  t_step (mkState true [] [BGarbage]) (Integrate [(0, 1%Z)]) = None /\
  kernel t_kstep true [BGarbage; BGarbage] 1 [(0, 1%Z)] = None /\
  kernel t_kstep true [BGarbage; BGarbage] 0 [(0, 1%Z)] =
    Some [BGarbage; BStep true BGarbage 0].
Proof. vm_compute. repeat split. Qed.

(** states that differ beyond the valid prefix, in capacity and in garbage are equivalent
    but not equal *)
Example ex_equiv_nontrivial :
  exists s1 os1 s2 os2,
    t_run_init true 1 0%Z (PGiven 0) [Predict (5, 9%Z); Integrate [(0, 1%Z)]; Predict (6, 9%Z)]
      = Some (s1, os1) /\
    t_run_init true 5 0%Z (PGiven 0) [Integrate [(0, 1%Z)]] = Some (s2, os2) /\
    equiv s1 s2 /\ s1 <> s2 /\ Inv PToPub BOfPub s1 /\ Inv PToPub BOfPub s2.
Proof.
  eexists _, _, _, _. split; [vm_compute; reflexivity|]. split; [vm_compute; reflexivity|].
  split; [repeat split|]. split; [discriminate|].
  split; (split; [cbn; lia|]); unfold valid_prefix; cbn;
    repeat constructor; (left; reflexivity) || (right; reflexivity).
Qed.

(** the hypotheses of the 2D invariant are satisfiable by a non-trivial numeric
    instance (rows = (altitude, VD); P := VD = 0; key := altitude), and the
    conclusion is visible on a concrete history with a non-zero supplied VD *)
Example ex_inv2d_hypotheses :
  (forall (r : toy_row) (i : Z),
      snd r = 0%Z -> snd (toy_kstep false r i) = 0%Z /\ fst (toy_kstep false r i) = fst r) /\
  (forall p : toy_row, snd (toy_zero_vd p) = 0%Z) /\
  option_map (fun x => traj (fst x))
    (toy_run_init false 1 0%Z (100, 5)%Z
       [Integrate [2%Z; 3%Z]; SetPva (777, 5)%Z; Predict 9%Z; Integrate [4%Z]]) =
  Some [(0, (100, 0)); (2, (100, 0)); (3, (777, 0)); (4, (777, 0))]%Z /\
  (* with altitude the same history moves *)
  option_map (fun x => traj (fst x))
    (toy_run_init true 1 0%Z (100, 5)%Z
       [Integrate [2%Z; 3%Z]; SetPva (777, 5)%Z; Predict 9%Z; Integrate [4%Z]]) =
  Some [(0, (100, 5)); (2, (90, 7)); (3, (777, 5)); (4, (757, 9))]%Z.
Proof.
  split; [|split; [|split]].
  - intros [a v] i H. cbn in *. subst v. split; [reflexivity|lia].
  - intros p. reflexivity.
  - vm_compute. reflexivity.
  - vm_compute. reflexivity.
Qed.
