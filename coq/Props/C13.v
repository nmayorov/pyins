(** C13 — No-altitude mode keeps altitude frozen and vertical velocity zero.

    Real-number statements about the GENERATED formulas (Gen/NumbaIntegrate.v, Gen/C13Gen.v) and,
    for every call history, about the Integrator model (Model/Integrator.v) instantiated with the
    generated kernel step.  Rows: [krow] = one row of (lla, velocity_n, mat_nb), [pva] = one public
    row; mat_to_rph / mat_from_rph are ARBITRARY functions [rph_of] / [mat_of]; [g] = arbitrary content
    of unwritten buffer cells; any initial capacity >= 1.  binary64 rounding is not modelled: that
    [alt - (0.5 * (0 + 0)) * dt] returns [alt] bit-exactly is checked on the implementation by
    tools/props/C13.py. *)
From Coq Require Import List Arith Bool ZArith Lia Reals Lra.
From PV Require Import Model.Integrator Proofs.IntegratorProofs Gen.NumbaIntegrate Gen.C13Gen
  Proofs.C13Proofs.
Import ListNotations.
Local Close Scope R_scope.

(** 1. One kernel step with with_altitude = False, for EVERY row, increment and dt:
       the new vertical velocity is 0 and the new altitude is alt - (1/2 (VD + 0)) dt;
       hence a row with VD = 0 keeps its altitude. *)
Theorem C13_step2d_row :
  forall dt lat lon alt VN VE VD C00 C01 C02 C10 C11 C12 C20 C21 C22 th0 th1 th2 dv0 dv1 dv2 : R,
    step2d_VD dt lat lon alt VN VE VD C00 C01 C02 C10 C11 C12 C20 C21 C22 th0 th1 th2 dv0 dv1 dv2 = 0%R /\
    step2d_alt dt lat lon alt VN VE VD C00 C01 C02 C10 C11 C12 C20 C21 C22 th0 th1 th2 dv0 dv1 dv2
      = (alt - (1 / 2 * (VD + 0)) * dt)%R /\
    (VD = 0%R ->
     step2d_alt dt lat lon alt VN VE VD C00 C01 C02 C10 C11 C12 C20 C21 C22 th0 th1 th2 dv0 dv1 dv2 = alt).
Proof. exact step2d_row. Qed.
Print Assumptions C13_step2d_row.

(** 1'. The same step traced into buffers whose row j+1 held arbitrary garbage (the translator
        rejects any dependence on it) gives the same altitude / vertical-velocity functions. *)
Theorem C13_step2d_ignores_old_row :
  forall dt lat lon alt VN VE VD C00 C01 C02 C10 C11 C12 C20 C21 C22 th0 th1 th2 dv0 dv1 dv2 : R,
    c13_kstep2d_fresh_alt dt lat lon alt VN VE VD C00 C01 C02 C10 C11 C12 C20 C21 C22 th0 th1 th2 dv0 dv1 dv2 =
    step2d_alt dt lat lon alt VN VE VD C00 C01 C02 C10 C11 C12 C20 C21 C22 th0 th1 th2 dv0 dv1 dv2 /\
    c13_kstep2d_fresh_VD dt lat lon alt VN VE VD C00 C01 C02 C10 C11 C12 C20 C21 C22 th0 th1 th2 dv0 dv1 dv2 =
    step2d_VD dt lat lon alt VN VE VD C00 C01 C02 C10 C11 C12 C20 C21 C22 th0 th1 th2 dv0 dv1 dv2.
Proof. intros. split; [apply fresh2d_alt_same|apply fresh2d_VD_same]. Qed.
Print Assumptions C13_step2d_ignores_old_row.

(** 2a. For EVERY call history of a 2D integrator: the altitude column of the whole trajectory is
        the specification [k_alt_run] — each [Integrate c] appends |c| copies of the altitude most
        recently supplied, [SetPva q] replaces the last entry by the altitude of [q] — that latest
        altitude is the one of [latest_pva], there is one row per integrated increment plus the start
        row, and EVERY row has vertical velocity 0 (also rows supplied with VD <> 0). *)
Theorem C13_integrator2d_whole_trajectory :
  forall (time : Type) (rph_of : mat9 -> R * R * R) (mat_of : R -> R -> R -> mat9)
         (g : krow) (cap : nat) (t0 : time) (p : pva) (ops : list (op pva (kinc_t time))),
    1 <= cap ->
    exists s os,
      k_run_init time rph_of mat_of g false cap t0 p ops = Some (s, os) /\
      map (fun tp => p_alt (snd tp)) (traj s) = fst (k_alt_run time (p_alt p) ops) /\
      snd (k_alt_run time (p_alt p) ops) = p_alt (latest_pva p ops) /\
      length (traj s) = S (length (all_incs ops)) /\
      Forall (fun tp => p_VD (snd tp) = 0%R) (traj s).
Proof. exact integrator2d_whole. Qed.
Print Assumptions C13_integrator2d_whole_trajectory.

(** 2b. ... the rows since the most recent supply, and the buffer row from which every later
        step starts, have VD = 0 and the altitude most recently supplied. *)
Theorem C13_integrator2d_since_supply :
  forall (time : Type) (rph_of : mat9 -> R * R * R) (mat_of : R -> R -> R -> mat9)
         (g : krow) (cap : nat) (t0 : time) (p : pva) (ops : list (op pva (kinc_t time))),
    1 <= cap ->
    exists s os pre t rs cur,
      k_run_init time rph_of mat_of g false cap t0 p ops = Some (s, os) /\
      traj s = pre ++ (t, pva_zero_vd (latest_pva p ops))
                   :: combine (map (fun i : kinc_t time => snd i) (incs_since [] ops))
                              (map (k_to_pub rph_of) rs) /\
      length rs = length (incs_since [] ops) /\
      Forall (fun r => p_VD (k_to_pub rph_of r) = 0%R /\
                       p_alt (k_to_pub rph_of r) = p_alt (latest_pva p ops)) rs /\
      nth_error (buf s) (length (traj s) - 1) = Some cur /\
      k_VD cur = 0%R /\ k_alt cur = p_alt (latest_pva p ops).
Proof. exact integrator2d_since_supply. Qed.
Print Assumptions C13_integrator2d_since_supply.

(** 2c. ... and in every reachable state every row appended by [integrate] and every row
        returned by [predict] has VD = 0 and the altitude most recently supplied. *)
Theorem C13_integrator2d_produced_rows :
  forall (time : Type) (rph_of : mat9 -> R * R * R) (mat_of : R -> R -> R -> mat9)
         (g : krow) (cap : nat) (t0 : time) (p : pva) (ops : list (op pva (kinc_t time)))
         (s : state krow pva time) (os : list (obs pva time)),
    k_run_init time rph_of mat_of g false cap t0 p ops = Some (s, os) ->
    (forall g' c s' ob,
        k_step time rph_of mat_of g' s (Integrate c) = Some (s', ob) ->
        exists new, traj s' = traj s ++ new /\ length new = length c /\
                    Forall (fun tp => p_VD (snd tp) = 0%R /\
                                      p_alt (snd tp) = p_alt (latest_pva p ops)) new) /\
    (forall g' i s' ob,
        k_step time rph_of mat_of g' s (Predict i) = Some (s', ob) ->
        exists row, ob = ORow (snd i, row) /\ traj s' = traj s /\
                    p_VD row = 0%R /\ p_alt row = p_alt (latest_pva p ops)).
Proof. exact integrator2d_produced. Qed.
Print Assumptions C13_integrator2d_produced_rows.

(** 3a. correct_pva in 2D returns altitude and vertical velocity unchanged, for every error vector. *)
Theorem C13_correct2d_keeps_vertical :
  forall (p : pva) (x : err7),
    p_alt (correct2d p x) = p_alt p /\ p_VD (correct2d p x) = p_VD p.
Proof. exact correct2d_keeps_vertical. Qed.
Print Assumptions C13_correct2d_keeps_vertical.

(** 3b. _transform_3d_2d: the DR3 (down) row is zero and the DV3 row is (0,0,0,0,VE,-VN,0). *)
Theorem C13_transform_3d_2d_rows :
  forall VN VE : R,
    t3d2d_row_DR3 VN VE = [0; 0; 0; 0; 0; 0; 0]%R /\
    t3d2d_row_DV3 VN VE = [0; 0; 0; 0; VE; - VN; 0]%R.
Proof.
  intros VN VE.
  unfold t3d2d_row_DR3, t3d2d_row_DV3, c13_t3d2d_t20, c13_t3d2d_t21, c13_t3d2d_t22, c13_t3d2d_t23, c13_t3d2d_t24,
    c13_t3d2d_t25, c13_t3d2d_t26, c13_t3d2d_t50, c13_t3d2d_t51, c13_t3d2d_t52, c13_t3d2d_t53, c13_t3d2d_t54, c13_t3d2d_t55, c13_t3d2d_t56.
  autounfold with c13_t3d2d_db. split; repeat f_equal; ring.
Qed.
Print Assumptions C13_transform_3d_2d_rows.

(** 3c. transform_to_output in 2D: rows "down" and "VD" are zero, hence the reported standard
        deviation sqrt ((T P T^T)_kk) of both components is 0 for EVERY covariance matrix P
        (both filters compute trajectory_sd this way). *)
Theorem C13_sd2d_zero :
  forall (lat lon alt VN VE VD roll pitch heading : R) (P : list (list R)),
    (out2d_row_down lat lon alt VN VE VD roll pitch heading = repeat 0%R 7 /\
     out2d_row_VD lat lon alt VN VE VD roll pitch heading = repeat 0%R 7) /\
    sqrt (quad (out2d_row_down lat lon alt VN VE VD roll pitch heading) P) = 0%R /\
    sqrt (quad (out2d_row_VD lat lon alt VN VE VD roll pitch heading) P) = 0%R.
Proof. intros. split; [apply out2d_rows_zero|apply sd2d_zero]. Qed.
Print Assumptions C13_sd2d_zero.

(** 3d. position / NED-velocity error Jacobians in 2D: exactly the two horizontal rows. *)
Theorem C13_meas2d_rows :
  forall lat lon alt VN VE VD roll pitch heading : R,
    poserr2d_matrix lat lon alt VN VE VD roll pitch heading =
      [[1; 0; 0; 0; 0; 0; 0]; [0; 1; 0; 0; 0; 0; 0]]%R /\
    velerr2d_matrix lat lon alt VN VE VD roll pitch heading =
      [[0; 0; 1; 0; 0; - VD; VE]; [0; 0; 0; 1; VD; 0; - VN]]%R.
Proof.
  intros lat lon alt VN VE VD roll pitch heading.
  unfold poserr2d_matrix, velerr2d_matrix,
    c13_poserr2d_h00, c13_poserr2d_h01, c13_poserr2d_h02, c13_poserr2d_h03, c13_poserr2d_h04, c13_poserr2d_h05, c13_poserr2d_h06,
    c13_poserr2d_h10, c13_poserr2d_h11, c13_poserr2d_h12, c13_poserr2d_h13, c13_poserr2d_h14, c13_poserr2d_h15, c13_poserr2d_h16,
    c13_velerr2d_h00, c13_velerr2d_h01, c13_velerr2d_h02, c13_velerr2d_h03, c13_velerr2d_h04, c13_velerr2d_h05, c13_velerr2d_h06,
    c13_velerr2d_h10, c13_velerr2d_h11, c13_velerr2d_h12, c13_velerr2d_h13, c13_velerr2d_h14, c13_velerr2d_h15, c13_velerr2d_h16.
  autounfold with c13_poserr2d_db c13_velerr2d_db. split; repeat f_equal; ring.
Qed.
Print Assumptions C13_meas2d_rows.

(** 4. Feedback filter: for EVERY history in which each overwrite is
       [set_pva (correct_pva (last row) x)] for some error vector [x] (any measurements), every row
       of the returned trajectory has the INITIAL altitude and vertical velocity 0. *)
Theorem C13_feedback2d_invariant :
  forall (time : Type) (rph_of : mat9 -> R * R * R) (mat_of : R -> R -> R -> mat9)
         (g : krow) (cap : nat) (t0 : time) (p : pva) (ops : list (op pva (kinc_t time)))
         (s0 : state krow pva time),
    init (k_of_pub mat_of) pva_zero_vd g false cap t0 p = Some s0 ->
    k_fb_hist time rph_of mat_of g s0 ops ->
    exists s os,
      k_run_init time rph_of mat_of g false cap t0 p ops = Some (s, os) /\
      Forall (fun tp => p_alt (snd tp) = p_alt p /\ p_VD (snd tp) = 0%R) (traj s).
Proof. exact feedback2d. Qed.
Print Assumptions C13_feedback2d_invariant.

(** * Non-vacuity *)

(** the hypothesis VD = 0 of theorem 1 is needed: a row with VD = 2 loses 1 m in 1 s *)
Example ex_step2d_moves_with_VD :
  step2d_alt 1 0 0 10 0 0 2 1 0 0 0 1 0 0 0 1 0 0 0 0 0 0 = 9%R.
Proof. rewrite step2d_alt_formula. lra. Qed.

Definition ex_p0 : pva := mkP 50 30 100 3 4 5 1 2 3.
Definition ex_q : pva := mkP 51 31 777 6 7 8 4 5 6.
Definition ex_i (k : nat) : kinc_t nat := (mkI 1 0 0 0 0 0 0, k).

(** the altitude specification on a history with a mid-stream overwrite (VD = 8 supplied) *)
Example ex_alt_run :
  k_alt_run nat (p_alt ex_p0)
    [Integrate [ex_i 1; ex_i 2]; Predict (ex_i 9); SetPva ex_q; Integrate []; Integrate [ex_i 3]; GetPva]
  = ([100; 100; 777; 777]%R, 777%R).
Proof. reflexivity. Qed.

(** a feedback-style history exists from the constructor state (so theorem 4 is not vacuous):
    integrate, overwrite with correct_pva of the last row for an arbitrary error vector, integrate *)
Example ex_feedback_history :
  let rph_of := fun _ : mat9 => (0%R, 0%R, 0%R) in
  let mat_of := fun _ _ _ : R => mkM 1 0 0 0 1 0 0 0 1 in
  let g := k_of_pub mat_of ex_q in
  let r1 := kstep_t nat false (k_of_pub mat_of (pva_zero_vd ex_p0)) (ex_i 1) in
  let x := mkE 1 2 3 4 5 6 7 in
  exists s0,
    init (k_of_pub mat_of) pva_zero_vd g false 1 0 ex_p0 = Some s0 /\
    k_fb_hist nat rph_of mat_of g s0
      [Integrate [ex_i 1]; GetPva; SetPva (correct2d (k_to_pub rph_of r1) x); Integrate [ex_i 2]].
Proof.
  intros rph_of mat_of g r1 x. eexists. split; [reflexivity|].
  unfold k_fb_hist. cbn -[kstep_t k_to_pub k_of_pub correct2d pva_zero_vd].
  repeat split. exists x. eexists. split; reflexivity.
Qed.

(** the generic invariant's hypotheses hold for the small computable instance of the model
    (rows = (altitude, VD) over Z), and the conclusion is visible on a history that supplies
    VD <> 0 twice and overwrites with a "corrected" row that keeps the altitude *)
Example ex_toy_feedback :
  (forall (r : toy_row) (i : Z),
      snd r = 0%Z -> snd (toy_kstep false r i) = 0%Z /\ fst (toy_kstep false r i) = fst r) /\
  option_map (fun x => traj (fst x))
    (toy_run_init false 1 0%Z (100, 5)%Z
       [Integrate [2%Z; 3%Z]; Predict 9%Z; SetPva (100, 7)%Z; Integrate [4%Z]]) =
  Some [(0, (100, 0)); (2, (100, 0)); (3, (100, 0)); (4, (100, 0))]%Z.
Proof.
  split.
  - intros [a v] i H. cbn in *. subst v. split; [reflexivity|lia].
  - vm_compute. reflexivity.
Qed.
