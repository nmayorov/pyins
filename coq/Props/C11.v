(* C11 — Feedforward filter equals the exact linear-Gaussian estimator of its model.

   Model: Model/FilterFlow.v on top of Model/FeedforwardSched.v.  Proofs: Proofs/FilterFlowProofs.v
   (which uses Proofs/SchedProofs.v for the schedule and Proofs/KalmanProofs.v for kalman.correct).

   Part 1 (reals): the compensation formulas of _compute_feedforward_result, traced from the code, are
   the exact inverse of the error definition sim.perturb_pva.
   Part 2 (any state type, any operations corr / prop):  the data flow of the loop of
   run_feedforward_filter IS the textbook recursion on the filter's time grid.
   Part 3 (MathComp, any real field, any dimensions): with corr = the GENERATED kalman.correct applied
   to H_full = [H | 0 | 0] and prop = (Phi x, Phi P Phi^T + Qd), every correction along every trace is
   the conditional-Gaussian update of Spec/Gaussian.v and every covariance is symmetric PSD; block
   layout of _initialize_covariance and _compute_error_propagation_matrices.
   Part 4 (Tier B): for positive-definite P0, R_k, Qd_k the recursion equals the one-shot weighted
   least squares (Gauss-Markov) solution of the stacked linear system, any number of stages.
   Part 5 (Tier B, singular noise): the same for Qd_k = Gam_k Gam_k^T with ARBITRARY Gam_k (any rank) and
   invertible Phi_k -- the class of the real system -- through the noise-parametrised batch problem.

   NOT proved: that scipy's expm returns an invertible Phi and that the Van Loan Qd is a
   Gram matrix Gam Gam^T (PSD) -- both are hypotheses here, properties of the exact exponential (C08) --
   and the floating-point agreement of the recursion with a batch solver: examined on every run by the
   independent one-shot solution of tools/props/C11.py (square-root parametrisation of exactly this
   noise-parametrised problem, no inverse of a singular matrix). *)
From Coq Require Import Reals.
From PV Require Import Spec.LibSpecs Gen.Earth Gen.ErrState Gen.C11Gen Proofs.FilterFlowProofs.

(* ---- Part 1.  Result compensation: formulas TRACED from pyins.filters._compute_feedforward_result
   (Gen/C11Gen.v).  error_nav = T x with T = transform_to_output(nominal) (rows: north east down [m],
   VN VE VD [m/s], roll pitch heading [deg]); lat -= north / rn * (180/pi); lon -= east / rp * (180/pi);
   alt += down; velocity and roll/pitch/heading minus their errors; radii of the NOMINAL row; the sensor
   estimates are the state entries. *)
Theorem C11_compensation_formulas :
  forall lat lon alt VN VE VD roll pitch heading nlat nalt t00 t01 t02 t03 t04 t05 t06 t07 t08 t10 t11 t12 t13 t14 t15 t16 t17 t18 t20 t21 t22 t23 t24 t25 t26 t27 t28 t30 t31 t32 t33 t34 t35 t36 t37 t38 t40 t41 t42 t43 t44 t45 t46 t47 t48 t50 t51 t52 t53 t54 t55 t56 t57 t58 t60 t61 t62 t63 t64 t65 t66 t67 t68 t70 t71 t72 t73 t74 t75 t76 t77 t78 t80 t81 t82 t83 t84 t85 t86 t87 t88 x0 x1 x2 x3 x4 x5 x6 x7 x8 xg xa : R, ffres_lat lat lon alt VN VE VD roll pitch heading nlat nalt t00 t01 t02 t03 t04 t05 t06 t07 t08 t10 t11 t12 t13 t14 t15 t16 t17 t18 t20 t21 t22 t23 t24 t25 t26 t27 t28 t30 t31 t32 t33 t34 t35 t36 t37 t38 t40 t41 t42 t43 t44 t45 t46 t47 t48 t50 t51 t52 t53 t54 t55 t56 t57 t58 t60 t61 t62 t63 t64 t65 t66 t67 t68 t70 t71 t72 t73 t74 t75 t76 t77 t78 t80 t81 t82 t83 t84 t85 t86 t87 t88 x0 x1 x2 x3 x4 x5 x6 x7 x8 xg xa = lat - (t00 * x0 + t01 * x1 + t02 * x2 + t03 * x3 + t04 * x4 + t05 * x5 + t06 * x6 + t07 * x7 + t08 * x8) / principal_radii_rn nlat nalt * (180 / PI) /\ ffres_lon lat lon alt VN VE VD roll pitch heading nlat nalt t00 t01 t02 t03 t04 t05 t06 t07 t08 t10 t11 t12 t13 t14 t15 t16 t17 t18 t20 t21 t22 t23 t24 t25 t26 t27 t28 t30 t31 t32 t33 t34 t35 t36 t37 t38 t40 t41 t42 t43 t44 t45 t46 t47 t48 t50 t51 t52 t53 t54 t55 t56 t57 t58 t60 t61 t62 t63 t64 t65 t66 t67 t68 t70 t71 t72 t73 t74 t75 t76 t77 t78 t80 t81 t82 t83 t84 t85 t86 t87 t88 x0 x1 x2 x3 x4 x5 x6 x7 x8 xg xa = lon - (t10 * x0 + t11 * x1 + t12 * x2 + t13 * x3 + t14 * x4 + t15 * x5 + t16 * x6 + t17 * x7 + t18 * x8) / principal_radii_rp nlat nalt * (180 / PI) /\ ffres_alt lat lon alt VN VE VD roll pitch heading nlat nalt t00 t01 t02 t03 t04 t05 t06 t07 t08 t10 t11 t12 t13 t14 t15 t16 t17 t18 t20 t21 t22 t23 t24 t25 t26 t27 t28 t30 t31 t32 t33 t34 t35 t36 t37 t38 t40 t41 t42 t43 t44 t45 t46 t47 t48 t50 t51 t52 t53 t54 t55 t56 t57 t58 t60 t61 t62 t63 t64 t65 t66 t67 t68 t70 t71 t72 t73 t74 t75 t76 t77 t78 t80 t81 t82 t83 t84 t85 t86 t87 t88 x0 x1 x2 x3 x4 x5 x6 x7 x8 xg xa = alt + (t20 * x0 + t21 * x1 + t22 * x2 + t23 * x3 + t24 * x4 + t25 * x5 + t26 * x6 + t27 * x7 + t28 * x8) /\ ffres_VN lat lon alt VN VE VD roll pitch heading nlat nalt t00 t01 t02 t03 t04 t05 t06 t07 t08 t10 t11 t12 t13 t14 t15 t16 t17 t18 t20 t21 t22 t23 t24 t25 t26 t27 t28 t30 t31 t32 t33 t34 t35 t36 t37 t38 t40 t41 t42 t43 t44 t45 t46 t47 t48 t50 t51 t52 t53 t54 t55 t56 t57 t58 t60 t61 t62 t63 t64 t65 t66 t67 t68 t70 t71 t72 t73 t74 t75 t76 t77 t78 t80 t81 t82 t83 t84 t85 t86 t87 t88 x0 x1 x2 x3 x4 x5 x6 x7 x8 xg xa = VN - (t30 * x0 + t31 * x1 + t32 * x2 + t33 * x3 + t34 * x4 + t35 * x5 + t36 * x6 + t37 * x7 + t38 * x8) /\ ffres_VE lat lon alt VN VE VD roll pitch heading nlat nalt t00 t01 t02 t03 t04 t05 t06 t07 t08 t10 t11 t12 t13 t14 t15 t16 t17 t18 t20 t21 t22 t23 t24 t25 t26 t27 t28 t30 t31 t32 t33 t34 t35 t36 t37 t38 t40 t41 t42 t43 t44 t45 t46 t47 t48 t50 t51 t52 t53 t54 t55 t56 t57 t58 t60 t61 t62 t63 t64 t65 t66 t67 t68 t70 t71 t72 t73 t74 t75 t76 t77 t78 t80 t81 t82 t83 t84 t85 t86 t87 t88 x0 x1 x2 x3 x4 x5 x6 x7 x8 xg xa = VE - (t40 * x0 + t41 * x1 + t42 * x2 + t43 * x3 + t44 * x4 + t45 * x5 + t46 * x6 + t47 * x7 + t48 * x8) /\ ffres_VD lat lon alt VN VE VD roll pitch heading nlat nalt t00 t01 t02 t03 t04 t05 t06 t07 t08 t10 t11 t12 t13 t14 t15 t16 t17 t18 t20 t21 t22 t23 t24 t25 t26 t27 t28 t30 t31 t32 t33 t34 t35 t36 t37 t38 t40 t41 t42 t43 t44 t45 t46 t47 t48 t50 t51 t52 t53 t54 t55 t56 t57 t58 t60 t61 t62 t63 t64 t65 t66 t67 t68 t70 t71 t72 t73 t74 t75 t76 t77 t78 t80 t81 t82 t83 t84 t85 t86 t87 t88 x0 x1 x2 x3 x4 x5 x6 x7 x8 xg xa = VD - (t50 * x0 + t51 * x1 + t52 * x2 + t53 * x3 + t54 * x4 + t55 * x5 + t56 * x6 + t57 * x7 + t58 * x8) /\ ffres_roll lat lon alt VN VE VD roll pitch heading nlat nalt t00 t01 t02 t03 t04 t05 t06 t07 t08 t10 t11 t12 t13 t14 t15 t16 t17 t18 t20 t21 t22 t23 t24 t25 t26 t27 t28 t30 t31 t32 t33 t34 t35 t36 t37 t38 t40 t41 t42 t43 t44 t45 t46 t47 t48 t50 t51 t52 t53 t54 t55 t56 t57 t58 t60 t61 t62 t63 t64 t65 t66 t67 t68 t70 t71 t72 t73 t74 t75 t76 t77 t78 t80 t81 t82 t83 t84 t85 t86 t87 t88 x0 x1 x2 x3 x4 x5 x6 x7 x8 xg xa = roll - (t60 * x0 + t61 * x1 + t62 * x2 + t63 * x3 + t64 * x4 + t65 * x5 + t66 * x6 + t67 * x7 + t68 * x8) /\ ffres_pitch lat lon alt VN VE VD roll pitch heading nlat nalt t00 t01 t02 t03 t04 t05 t06 t07 t08 t10 t11 t12 t13 t14 t15 t16 t17 t18 t20 t21 t22 t23 t24 t25 t26 t27 t28 t30 t31 t32 t33 t34 t35 t36 t37 t38 t40 t41 t42 t43 t44 t45 t46 t47 t48 t50 t51 t52 t53 t54 t55 t56 t57 t58 t60 t61 t62 t63 t64 t65 t66 t67 t68 t70 t71 t72 t73 t74 t75 t76 t77 t78 t80 t81 t82 t83 t84 t85 t86 t87 t88 x0 x1 x2 x3 x4 x5 x6 x7 x8 xg xa = pitch - (t70 * x0 + t71 * x1 + t72 * x2 + t73 * x3 + t74 * x4 + t75 * x5 + t76 * x6 + t77 * x7 + t78 * x8) /\ ffres_heading lat lon alt VN VE VD roll pitch heading nlat nalt t00 t01 t02 t03 t04 t05 t06 t07 t08 t10 t11 t12 t13 t14 t15 t16 t17 t18 t20 t21 t22 t23 t24 t25 t26 t27 t28 t30 t31 t32 t33 t34 t35 t36 t37 t38 t40 t41 t42 t43 t44 t45 t46 t47 t48 t50 t51 t52 t53 t54 t55 t56 t57 t58 t60 t61 t62 t63 t64 t65 t66 t67 t68 t70 t71 t72 t73 t74 t75 t76 t77 t78 t80 t81 t82 t83 t84 t85 t86 t87 t88 x0 x1 x2 x3 x4 x5 x6 x7 x8 xg xa = heading - (t80 * x0 + t81 * x1 + t82 * x2 + t83 * x3 + t84 * x4 + t85 * x5 + t86 * x6 + t87 * x7 + t88 * x8) /\ ffres_gyro lat lon alt VN VE VD roll pitch heading nlat nalt t00 t01 t02 t03 t04 t05 t06 t07 t08 t10 t11 t12 t13 t14 t15 t16 t17 t18 t20 t21 t22 t23 t24 t25 t26 t27 t28 t30 t31 t32 t33 t34 t35 t36 t37 t38 t40 t41 t42 t43 t44 t45 t46 t47 t48 t50 t51 t52 t53 t54 t55 t56 t57 t58 t60 t61 t62 t63 t64 t65 t66 t67 t68 t70 t71 t72 t73 t74 t75 t76 t77 t78 t80 t81 t82 t83 t84 t85 t86 t87 t88 x0 x1 x2 x3 x4 x5 x6 x7 x8 xg xa = xg /\ ffres_accel lat lon alt VN VE VD roll pitch heading nlat nalt t00 t01 t02 t03 t04 t05 t06 t07 t08 t10 t11 t12 t13 t14 t15 t16 t17 t18 t20 t21 t22 t23 t24 t25 t26 t27 t28 t30 t31 t32 t33 t34 t35 t36 t37 t38 t40 t41 t42 t43 t44 t45 t46 t47 t48 t50 t51 t52 t53 t54 t55 t56 t57 t58 t60 t61 t62 t63 t64 t65 t66 t67 t68 t70 t71 t72 t73 t74 t75 t76 t77 t78 t80 t81 t82 t83 t84 t85 t86 t87 t88 x0 x1 x2 x3 x4 x5 x6 x7 x8 xg xa = xa.
Proof.
  intros.
  unfold ffres_lat, ffres_lon, ffres_alt, ffres_VN, ffres_VE, ffres_VD, ffres_roll, ffres_pitch, ffres_heading,
    ffres_gyro, ffres_accel, principal_radii_rn, principal_radii_rp.
  autounfold with ffres_db principal_radii_db.
  repeat split; first [reflexivity | ring].
Qed.
Print Assumptions C11_compensation_formulas.

(* the error definition of the library is sim.perturb_pva (Gen/ErrState.v): computed = perturb_pva(true, e).
   With the true row as nominal row and error_nav = e (T = identity) the compensation returns the true
   row EXACTLY: it is the inverse of the error definition, same units and signs (with the computed row
   as nominal row the radii are taken at the perturbed point: inverse to first order in e). *)
Theorem C11_compensation_consistent :
  forall lat lon alt VN VE VD roll pitch heading e0 e1 e2 e3 e4 e5 e6 e7 e8 xg xa : R, principal_radii_rn lat alt <> 0 -> principal_radii_rp lat alt <> 0 -> ffres_lat (perturb_pva_lat lat lon alt VN VE VD roll pitch heading e0 e1 e2 e3 e4 e5 e6 e7 e8) (perturb_pva_lon lat lon alt VN VE VD roll pitch heading e0 e1 e2 e3 e4 e5 e6 e7 e8) (perturb_pva_alt lat lon alt VN VE VD roll pitch heading e0 e1 e2 e3 e4 e5 e6 e7 e8) (perturb_pva_VN lat lon alt VN VE VD roll pitch heading e0 e1 e2 e3 e4 e5 e6 e7 e8) (perturb_pva_VE lat lon alt VN VE VD roll pitch heading e0 e1 e2 e3 e4 e5 e6 e7 e8) (perturb_pva_VD lat lon alt VN VE VD roll pitch heading e0 e1 e2 e3 e4 e5 e6 e7 e8) (perturb_pva_roll lat lon alt VN VE VD roll pitch heading e0 e1 e2 e3 e4 e5 e6 e7 e8) (perturb_pva_pitch lat lon alt VN VE VD roll pitch heading e0 e1 e2 e3 e4 e5 e6 e7 e8) (perturb_pva_heading lat lon alt VN VE VD roll pitch heading e0 e1 e2 e3 e4 e5 e6 e7 e8) lat alt 1 0 0 0 0 0 0 0 0 0 1 0 0 0 0 0 0 0 0 0 1 0 0 0 0 0 0 0 0 0 1 0 0 0 0 0 0 0 0 0 1 0 0 0 0 0 0 0 0 0 1 0 0 0 0 0 0 0 0 0 1 0 0 0 0 0 0 0 0 0 1 0 0 0 0 0 0 0 0 0 1 e0 e1 e2 e3 e4 e5 e6 e7 e8 xg xa = lat /\ ffres_lon (perturb_pva_lat lat lon alt VN VE VD roll pitch heading e0 e1 e2 e3 e4 e5 e6 e7 e8) (perturb_pva_lon lat lon alt VN VE VD roll pitch heading e0 e1 e2 e3 e4 e5 e6 e7 e8) (perturb_pva_alt lat lon alt VN VE VD roll pitch heading e0 e1 e2 e3 e4 e5 e6 e7 e8) (perturb_pva_VN lat lon alt VN VE VD roll pitch heading e0 e1 e2 e3 e4 e5 e6 e7 e8) (perturb_pva_VE lat lon alt VN VE VD roll pitch heading e0 e1 e2 e3 e4 e5 e6 e7 e8) (perturb_pva_VD lat lon alt VN VE VD roll pitch heading e0 e1 e2 e3 e4 e5 e6 e7 e8) (perturb_pva_roll lat lon alt VN VE VD roll pitch heading e0 e1 e2 e3 e4 e5 e6 e7 e8) (perturb_pva_pitch lat lon alt VN VE VD roll pitch heading e0 e1 e2 e3 e4 e5 e6 e7 e8) (perturb_pva_heading lat lon alt VN VE VD roll pitch heading e0 e1 e2 e3 e4 e5 e6 e7 e8) lat alt 1 0 0 0 0 0 0 0 0 0 1 0 0 0 0 0 0 0 0 0 1 0 0 0 0 0 0 0 0 0 1 0 0 0 0 0 0 0 0 0 1 0 0 0 0 0 0 0 0 0 1 0 0 0 0 0 0 0 0 0 1 0 0 0 0 0 0 0 0 0 1 0 0 0 0 0 0 0 0 0 1 e0 e1 e2 e3 e4 e5 e6 e7 e8 xg xa = lon /\ ffres_alt (perturb_pva_lat lat lon alt VN VE VD roll pitch heading e0 e1 e2 e3 e4 e5 e6 e7 e8) (perturb_pva_lon lat lon alt VN VE VD roll pitch heading e0 e1 e2 e3 e4 e5 e6 e7 e8) (perturb_pva_alt lat lon alt VN VE VD roll pitch heading e0 e1 e2 e3 e4 e5 e6 e7 e8) (perturb_pva_VN lat lon alt VN VE VD roll pitch heading e0 e1 e2 e3 e4 e5 e6 e7 e8) (perturb_pva_VE lat lon alt VN VE VD roll pitch heading e0 e1 e2 e3 e4 e5 e6 e7 e8) (perturb_pva_VD lat lon alt VN VE VD roll pitch heading e0 e1 e2 e3 e4 e5 e6 e7 e8) (perturb_pva_roll lat lon alt VN VE VD roll pitch heading e0 e1 e2 e3 e4 e5 e6 e7 e8) (perturb_pva_pitch lat lon alt VN VE VD roll pitch heading e0 e1 e2 e3 e4 e5 e6 e7 e8) (perturb_pva_heading lat lon alt VN VE VD roll pitch heading e0 e1 e2 e3 e4 e5 e6 e7 e8) lat alt 1 0 0 0 0 0 0 0 0 0 1 0 0 0 0 0 0 0 0 0 1 0 0 0 0 0 0 0 0 0 1 0 0 0 0 0 0 0 0 0 1 0 0 0 0 0 0 0 0 0 1 0 0 0 0 0 0 0 0 0 1 0 0 0 0 0 0 0 0 0 1 0 0 0 0 0 0 0 0 0 1 e0 e1 e2 e3 e4 e5 e6 e7 e8 xg xa = alt /\ ffres_VN (perturb_pva_lat lat lon alt VN VE VD roll pitch heading e0 e1 e2 e3 e4 e5 e6 e7 e8) (perturb_pva_lon lat lon alt VN VE VD roll pitch heading e0 e1 e2 e3 e4 e5 e6 e7 e8) (perturb_pva_alt lat lon alt VN VE VD roll pitch heading e0 e1 e2 e3 e4 e5 e6 e7 e8) (perturb_pva_VN lat lon alt VN VE VD roll pitch heading e0 e1 e2 e3 e4 e5 e6 e7 e8) (perturb_pva_VE lat lon alt VN VE VD roll pitch heading e0 e1 e2 e3 e4 e5 e6 e7 e8) (perturb_pva_VD lat lon alt VN VE VD roll pitch heading e0 e1 e2 e3 e4 e5 e6 e7 e8) (perturb_pva_roll lat lon alt VN VE VD roll pitch heading e0 e1 e2 e3 e4 e5 e6 e7 e8) (perturb_pva_pitch lat lon alt VN VE VD roll pitch heading e0 e1 e2 e3 e4 e5 e6 e7 e8) (perturb_pva_heading lat lon alt VN VE VD roll pitch heading e0 e1 e2 e3 e4 e5 e6 e7 e8) lat alt 1 0 0 0 0 0 0 0 0 0 1 0 0 0 0 0 0 0 0 0 1 0 0 0 0 0 0 0 0 0 1 0 0 0 0 0 0 0 0 0 1 0 0 0 0 0 0 0 0 0 1 0 0 0 0 0 0 0 0 0 1 0 0 0 0 0 0 0 0 0 1 0 0 0 0 0 0 0 0 0 1 e0 e1 e2 e3 e4 e5 e6 e7 e8 xg xa = VN /\ ffres_VE (perturb_pva_lat lat lon alt VN VE VD roll pitch heading e0 e1 e2 e3 e4 e5 e6 e7 e8) (perturb_pva_lon lat lon alt VN VE VD roll pitch heading e0 e1 e2 e3 e4 e5 e6 e7 e8) (perturb_pva_alt lat lon alt VN VE VD roll pitch heading e0 e1 e2 e3 e4 e5 e6 e7 e8) (perturb_pva_VN lat lon alt VN VE VD roll pitch heading e0 e1 e2 e3 e4 e5 e6 e7 e8) (perturb_pva_VE lat lon alt VN VE VD roll pitch heading e0 e1 e2 e3 e4 e5 e6 e7 e8) (perturb_pva_VD lat lon alt VN VE VD roll pitch heading e0 e1 e2 e3 e4 e5 e6 e7 e8) (perturb_pva_roll lat lon alt VN VE VD roll pitch heading e0 e1 e2 e3 e4 e5 e6 e7 e8) (perturb_pva_pitch lat lon alt VN VE VD roll pitch heading e0 e1 e2 e3 e4 e5 e6 e7 e8) (perturb_pva_heading lat lon alt VN VE VD roll pitch heading e0 e1 e2 e3 e4 e5 e6 e7 e8) lat alt 1 0 0 0 0 0 0 0 0 0 1 0 0 0 0 0 0 0 0 0 1 0 0 0 0 0 0 0 0 0 1 0 0 0 0 0 0 0 0 0 1 0 0 0 0 0 0 0 0 0 1 0 0 0 0 0 0 0 0 0 1 0 0 0 0 0 0 0 0 0 1 0 0 0 0 0 0 0 0 0 1 e0 e1 e2 e3 e4 e5 e6 e7 e8 xg xa = VE /\ ffres_VD (perturb_pva_lat lat lon alt VN VE VD roll pitch heading e0 e1 e2 e3 e4 e5 e6 e7 e8) (perturb_pva_lon lat lon alt VN VE VD roll pitch heading e0 e1 e2 e3 e4 e5 e6 e7 e8) (perturb_pva_alt lat lon alt VN VE VD roll pitch heading e0 e1 e2 e3 e4 e5 e6 e7 e8) (perturb_pva_VN lat lon alt VN VE VD roll pitch heading e0 e1 e2 e3 e4 e5 e6 e7 e8) (perturb_pva_VE lat lon alt VN VE VD roll pitch heading e0 e1 e2 e3 e4 e5 e6 e7 e8) (perturb_pva_VD lat lon alt VN VE VD roll pitch heading e0 e1 e2 e3 e4 e5 e6 e7 e8) (perturb_pva_roll lat lon alt VN VE VD roll pitch heading e0 e1 e2 e3 e4 e5 e6 e7 e8) (perturb_pva_pitch lat lon alt VN VE VD roll pitch heading e0 e1 e2 e3 e4 e5 e6 e7 e8) (perturb_pva_heading lat lon alt VN VE VD roll pitch heading e0 e1 e2 e3 e4 e5 e6 e7 e8) lat alt 1 0 0 0 0 0 0 0 0 0 1 0 0 0 0 0 0 0 0 0 1 0 0 0 0 0 0 0 0 0 1 0 0 0 0 0 0 0 0 0 1 0 0 0 0 0 0 0 0 0 1 0 0 0 0 0 0 0 0 0 1 0 0 0 0 0 0 0 0 0 1 0 0 0 0 0 0 0 0 0 1 e0 e1 e2 e3 e4 e5 e6 e7 e8 xg xa = VD /\ ffres_roll (perturb_pva_lat lat lon alt VN VE VD roll pitch heading e0 e1 e2 e3 e4 e5 e6 e7 e8) (perturb_pva_lon lat lon alt VN VE VD roll pitch heading e0 e1 e2 e3 e4 e5 e6 e7 e8) (perturb_pva_alt lat lon alt VN VE VD roll pitch heading e0 e1 e2 e3 e4 e5 e6 e7 e8) (perturb_pva_VN lat lon alt VN VE VD roll pitch heading e0 e1 e2 e3 e4 e5 e6 e7 e8) (perturb_pva_VE lat lon alt VN VE VD roll pitch heading e0 e1 e2 e3 e4 e5 e6 e7 e8) (perturb_pva_VD lat lon alt VN VE VD roll pitch heading e0 e1 e2 e3 e4 e5 e6 e7 e8) (perturb_pva_roll lat lon alt VN VE VD roll pitch heading e0 e1 e2 e3 e4 e5 e6 e7 e8) (perturb_pva_pitch lat lon alt VN VE VD roll pitch heading e0 e1 e2 e3 e4 e5 e6 e7 e8) (perturb_pva_heading lat lon alt VN VE VD roll pitch heading e0 e1 e2 e3 e4 e5 e6 e7 e8) lat alt 1 0 0 0 0 0 0 0 0 0 1 0 0 0 0 0 0 0 0 0 1 0 0 0 0 0 0 0 0 0 1 0 0 0 0 0 0 0 0 0 1 0 0 0 0 0 0 0 0 0 1 0 0 0 0 0 0 0 0 0 1 0 0 0 0 0 0 0 0 0 1 0 0 0 0 0 0 0 0 0 1 e0 e1 e2 e3 e4 e5 e6 e7 e8 xg xa = roll /\ ffres_pitch (perturb_pva_lat lat lon alt VN VE VD roll pitch heading e0 e1 e2 e3 e4 e5 e6 e7 e8) (perturb_pva_lon lat lon alt VN VE VD roll pitch heading e0 e1 e2 e3 e4 e5 e6 e7 e8) (perturb_pva_alt lat lon alt VN VE VD roll pitch heading e0 e1 e2 e3 e4 e5 e6 e7 e8) (perturb_pva_VN lat lon alt VN VE VD roll pitch heading e0 e1 e2 e3 e4 e5 e6 e7 e8) (perturb_pva_VE lat lon alt VN VE VD roll pitch heading e0 e1 e2 e3 e4 e5 e6 e7 e8) (perturb_pva_VD lat lon alt VN VE VD roll pitch heading e0 e1 e2 e3 e4 e5 e6 e7 e8) (perturb_pva_roll lat lon alt VN VE VD roll pitch heading e0 e1 e2 e3 e4 e5 e6 e7 e8) (perturb_pva_pitch lat lon alt VN VE VD roll pitch heading e0 e1 e2 e3 e4 e5 e6 e7 e8) (perturb_pva_heading lat lon alt VN VE VD roll pitch heading e0 e1 e2 e3 e4 e5 e6 e7 e8) lat alt 1 0 0 0 0 0 0 0 0 0 1 0 0 0 0 0 0 0 0 0 1 0 0 0 0 0 0 0 0 0 1 0 0 0 0 0 0 0 0 0 1 0 0 0 0 0 0 0 0 0 1 0 0 0 0 0 0 0 0 0 1 0 0 0 0 0 0 0 0 0 1 0 0 0 0 0 0 0 0 0 1 e0 e1 e2 e3 e4 e5 e6 e7 e8 xg xa = pitch /\ ffres_heading (perturb_pva_lat lat lon alt VN VE VD roll pitch heading e0 e1 e2 e3 e4 e5 e6 e7 e8) (perturb_pva_lon lat lon alt VN VE VD roll pitch heading e0 e1 e2 e3 e4 e5 e6 e7 e8) (perturb_pva_alt lat lon alt VN VE VD roll pitch heading e0 e1 e2 e3 e4 e5 e6 e7 e8) (perturb_pva_VN lat lon alt VN VE VD roll pitch heading e0 e1 e2 e3 e4 e5 e6 e7 e8) (perturb_pva_VE lat lon alt VN VE VD roll pitch heading e0 e1 e2 e3 e4 e5 e6 e7 e8) (perturb_pva_VD lat lon alt VN VE VD roll pitch heading e0 e1 e2 e3 e4 e5 e6 e7 e8) (perturb_pva_roll lat lon alt VN VE VD roll pitch heading e0 e1 e2 e3 e4 e5 e6 e7 e8) (perturb_pva_pitch lat lon alt VN VE VD roll pitch heading e0 e1 e2 e3 e4 e5 e6 e7 e8) (perturb_pva_heading lat lon alt VN VE VD roll pitch heading e0 e1 e2 e3 e4 e5 e6 e7 e8) lat alt 1 0 0 0 0 0 0 0 0 0 1 0 0 0 0 0 0 0 0 0 1 0 0 0 0 0 0 0 0 0 1 0 0 0 0 0 0 0 0 0 1 0 0 0 0 0 0 0 0 0 1 0 0 0 0 0 0 0 0 0 1 0 0 0 0 0 0 0 0 0 1 0 0 0 0 0 0 0 0 0 1 e0 e1 e2 e3 e4 e5 e6 e7 e8 xg xa = heading.
Proof.
  intros lat lon alt VN VE VD roll pitch heading e0 e1 e2 e3 e4 e5 e6 e7 e8 xg xa Hrn Hrp.
  unfold ffres_lat, ffres_lon, ffres_alt, ffres_VN, ffres_VE, ffres_VD, ffres_roll, ffres_pitch, ffres_heading.
  unfold perturb_pva_lat, perturb_pva_lon, perturb_pva_alt, perturb_pva_VN, perturb_pva_VE, perturb_pva_VD,
    perturb_pva_roll, perturb_pva_pitch, perturb_pva_heading.
  unfold principal_radii_rn, principal_radii_rp in Hrn, Hrp.
  autounfold with ffres_db perturb_pva_db principal_radii_db in *.
  assert (HPI : PI <> 0) by (apply Rgt_not_eq, PI_RGT_0).
  split; [|split; [|repeat split; ring]].
  - match goal with |- context [e0 / ?d] => set (D := d) in * end. field. split; assumption.
  - match goal with |- context [e1 / ?d] => set (D := d) in * end. field. split; assumption.
Qed.
Print Assumptions C11_compensation_consistent.

(* trajectory_sd[k] = sqrt((T P_ins T^T)[k,k]); gyro_sd, accel_sd = sqrt of the diagonal of P
   (traced with 2 inertial states, 1 gyro and 1 accel parameter) *)
Theorem C11_sd_formulas :
  forall t00 t01 t10 t11 t20 t21 t30 t31 t40 t41 t50 t51 t60 t61 t70 t71 t80 t81 p00 p01 p02 p03 p10 p11 p12 p13 p20 p21 p22 p23 p30 p31 p32 p33 : R, ffsd_sd_north t00 t01 t10 t11 t20 t21 t30 t31 t40 t41 t50 t51 t60 t61 t70 t71 t80 t81 p00 p01 p02 p03 p10 p11 p12 p13 p20 p21 p22 p23 p30 p31 p32 p33 = sqrt (t00 * p00 * t00 + t00 * p01 * t01 + t01 * p10 * t00 + t01 * p11 * t01) /\ ffsd_sd_east t00 t01 t10 t11 t20 t21 t30 t31 t40 t41 t50 t51 t60 t61 t70 t71 t80 t81 p00 p01 p02 p03 p10 p11 p12 p13 p20 p21 p22 p23 p30 p31 p32 p33 = sqrt (t10 * p00 * t10 + t10 * p01 * t11 + t11 * p10 * t10 + t11 * p11 * t11) /\ ffsd_sd_down t00 t01 t10 t11 t20 t21 t30 t31 t40 t41 t50 t51 t60 t61 t70 t71 t80 t81 p00 p01 p02 p03 p10 p11 p12 p13 p20 p21 p22 p23 p30 p31 p32 p33 = sqrt (t20 * p00 * t20 + t20 * p01 * t21 + t21 * p10 * t20 + t21 * p11 * t21) /\ ffsd_sd_eVN t00 t01 t10 t11 t20 t21 t30 t31 t40 t41 t50 t51 t60 t61 t70 t71 t80 t81 p00 p01 p02 p03 p10 p11 p12 p13 p20 p21 p22 p23 p30 p31 p32 p33 = sqrt (t30 * p00 * t30 + t30 * p01 * t31 + t31 * p10 * t30 + t31 * p11 * t31) /\ ffsd_sd_eVE t00 t01 t10 t11 t20 t21 t30 t31 t40 t41 t50 t51 t60 t61 t70 t71 t80 t81 p00 p01 p02 p03 p10 p11 p12 p13 p20 p21 p22 p23 p30 p31 p32 p33 = sqrt (t40 * p00 * t40 + t40 * p01 * t41 + t41 * p10 * t40 + t41 * p11 * t41) /\ ffsd_sd_eVD t00 t01 t10 t11 t20 t21 t30 t31 t40 t41 t50 t51 t60 t61 t70 t71 t80 t81 p00 p01 p02 p03 p10 p11 p12 p13 p20 p21 p22 p23 p30 p31 p32 p33 = sqrt (t50 * p00 * t50 + t50 * p01 * t51 + t51 * p10 * t50 + t51 * p11 * t51) /\ ffsd_sd_roll t00 t01 t10 t11 t20 t21 t30 t31 t40 t41 t50 t51 t60 t61 t70 t71 t80 t81 p00 p01 p02 p03 p10 p11 p12 p13 p20 p21 p22 p23 p30 p31 p32 p33 = sqrt (t60 * p00 * t60 + t60 * p01 * t61 + t61 * p10 * t60 + t61 * p11 * t61) /\ ffsd_sd_pitch t00 t01 t10 t11 t20 t21 t30 t31 t40 t41 t50 t51 t60 t61 t70 t71 t80 t81 p00 p01 p02 p03 p10 p11 p12 p13 p20 p21 p22 p23 p30 p31 p32 p33 = sqrt (t70 * p00 * t70 + t70 * p01 * t71 + t71 * p10 * t70 + t71 * p11 * t71) /\ ffsd_sd_heading t00 t01 t10 t11 t20 t21 t30 t31 t40 t41 t50 t51 t60 t61 t70 t71 t80 t81 p00 p01 p02 p03 p10 p11 p12 p13 p20 p21 p22 p23 p30 p31 p32 p33 = sqrt (t80 * p00 * t80 + t80 * p01 * t81 + t81 * p10 * t80 + t81 * p11 * t81) /\ ffsd_sd_gyro t00 t01 t10 t11 t20 t21 t30 t31 t40 t41 t50 t51 t60 t61 t70 t71 t80 t81 p00 p01 p02 p03 p10 p11 p12 p13 p20 p21 p22 p23 p30 p31 p32 p33 = sqrt p22 /\ ffsd_sd_accel t00 t01 t10 t11 t20 t21 t30 t31 t40 t41 t50 t51 t60 t61 t70 t71 t80 t81 p00 p01 p02 p03 p10 p11 p12 p13 p20 p21 p22 p23 p30 p31 p32 p33 = sqrt p33.
Proof.
  intros.
  unfold ffsd_sd_north, ffsd_sd_east, ffsd_sd_down, ffsd_sd_eVN, ffsd_sd_eVE, ffsd_sd_eVD, ffsd_sd_roll, ffsd_sd_pitch, ffsd_sd_heading, ffsd_sd_gyro, ffsd_sd_accel.
  repeat split; try reflexivity; f_equal; ring.
Qed.
Print Assumptions C11_sd_formulas.

From Coq Require Import List QArith Sorted.
From PV Require Import Model.FeedbackSched Model.FeedforwardSched Model.FilterFlow
                       Proofs.SchedProofs Proofs.FilterFlowProofs.
Import ListNotations.
Open Scope Q_scope.

(* ---- Part 2.  The fold of the event trace is the textbook recursion.
   times = trajectory index; sensors = stamps of every measurement object; steps = the grid
   0 = i_0 < i_1 < ... = len - 1 of the propagation steps.  At every grid row i all epochs m with
   times[i] <= m < times[i+1] are corrected (ascending; sensors in list order; the correction is
   applied to the state AT times[i]), the row (times[i], state) is recorded AFTER these corrections
   and BEFORE the propagation i -> j; every epoch in [start, end) belongs to exactly one grid row.
   `_oracle`: `time + time_step` replaced by an arbitrary function (any rounding). *)
Theorem C11_ff_is_kalman_recursion :
  forall (state : Type) (corr : nat -> Q -> Q -> state -> state) (prop : nat -> nat -> state -> state)
         time_step times sensors fuel (s0 : state),
  StronglySorted Qlt times -> (2 <= length times)%nat -> (length times - 1 <= fuel)%nat ->
  let tr := ff_run_exact fuel time_step times sensors in
  let tstart := nth 0 times 0 in
  let tend := nth (length times - 1) times 0 in
  let epochs := clip tstart tend (merge_times sensors) in
  let steps := propagations tr in
  ff_flow corr prop tr s0 = kalman_grid corr prop times sensors epochs steps s0 /\
  chain 0 steps (length times - 1) /\
  (forall i j, In (i, j) steps -> (i < j)%nat /\ (j < length times)%nat) /\
  flat_map (row_epochs times epochs) (map fst steps) = filter (in_range tstart tend) (merge_times sensors) /\
  map fst (snd (ff_flow corr prop tr s0)) = record_times tr.
Proof. exact ff_is_kalman_recursion. Qed.
Print Assumptions C11_ff_is_kalman_recursion.

Theorem C11_ff_is_kalman_recursion_oracle :
  forall (state : Type) (corr : nat -> Q -> Q -> state -> state) (prop : nat -> nat -> state -> state)
         add_step times sensors fuel (s0 : state),
  StronglySorted Qlt times -> (2 <= length times)%nat -> (length times - 1 <= fuel)%nat ->
  let tr := ff_run fuel add_step times sensors in
  let tstart := nth 0 times 0 in
  let tend := nth (length times - 1) times 0 in
  let epochs := clip tstart tend (merge_times sensors) in
  let steps := propagations tr in
  ff_flow corr prop tr s0 = kalman_grid corr prop times sensors epochs steps s0 /\
  chain 0 steps (length times - 1) /\
  (forall i j, In (i, j) steps -> (i < j)%nat /\ (j < length times)%nat) /\
  flat_map (row_epochs times epochs) (map fst steps) = filter (in_range tstart tend) (merge_times sensors) /\
  map fst (snd (ff_flow corr prop tr s0)) = record_times tr.
Proof. exact ff_is_kalman_recursion_oracle. Qed.
Print Assumptions C11_ff_is_kalman_recursion_oracle.

(* an invariant of both operations holds for every recorded state and the final state, and two
   families of operations that agree on invariant states have the same flow (any trace) *)
Theorem C11_flow_invariant :
  forall (state : Type) (corr : nat -> Q -> Q -> state -> state) (prop : nat -> nat -> state -> state)
         (Inv : state -> Prop) (corr' : nat -> Q -> Q -> state -> state) (prop' : nat -> nat -> state -> state),
  (forall k m t s, Inv s -> Inv (corr k m t s) /\ corr' k m t s = corr k m t s) ->
  (forall i j s, Inv s -> Inv (prop i j s) /\ prop' i j s = prop i j s) ->
  forall tr s0, Inv s0 ->
  Inv (fst (ff_flow corr prop tr s0)) /\
  Forall (fun r => Inv (snd r)) (snd (ff_flow corr prop tr s0)) /\
  ff_flow corr' prop' tr s0 = ff_flow corr prop tr s0.
Proof. exact ff_flow_inv. Qed.
Print Assumptions C11_flow_invariant.

(* non-vacuity: the schedule of Props/C10.v (three sensors clustered in the first interval, two epochs in
   the last, a shared stamp, stamps outside the span), step larger than the span, on the free algebra *)
Example C11_ex_hypotheses :
  StronglySorted Qlt ex_times /\ (2 <= length ex_times)%nat /\ (length ex_times - 1 <= 5)%nat.
Proof. split; [repeat constructor|]. vm_compute. split; repeat constructor. Qed.

Example C11_ex_flow :
  let tr := ff_run_exact 5 1 ex_times ex_sensors in
  propagations tr = [(0, 2); (2, 4); (4, 5)]%nat /\
  snd (t_flow tr) =
    [ (1, TCorr 2 (103#100) 1 (TCorr 1 (102#100) 1 (TCorr 0 (101#100) 1 (TCorr 1 1 1 TInit))));
      (12#10, TCorr 1 (12#10) (12#10) (TCorr 0 (12#10) (12#10)
                (TProp 0 2 (TCorr 2 (103#100) 1 (TCorr 1 (102#100) 1 (TCorr 0 (101#100) 1 (TCorr 1 1 1 TInit)))))));
      (14#10, TCorr 1 (147#100) (14#10) (TCorr 0 (143#100) (14#10)
                (TProp 2 4 (TCorr 1 (12#10) (12#10) (TCorr 0 (12#10) (12#10)
                (TProp 0 2 (TCorr 2 (103#100) 1 (TCorr 1 (102#100) 1 (TCorr 0 (101#100) 1 (TCorr 1 1 1 TInit)))))))))) ] /\
  t_flow tr = kalman_grid TCorr TProp ex_times ex_sensors
                (clip 1 (15#10) (merge_times ex_sensors)) (propagations tr) TInit.
Proof. vm_compute. repeat split. Qed.

From mathcomp Require Import all_ssreflect all_algebra.
From PV Require Import Spec.LibSpecsMx Spec.Gaussian Gen.Kalman Gen.C11Mx Proofs.KalmanProofs.
Set Implicit Arguments.
Unset Strict Implicit.
Import GRing.Theory Num.Theory.
Local Open Scope ring_scope.

(* ---- Part 3.  Along EVERY event trace the operations of the generated code are the
   conditional-Gaussian updates of Spec/Gaussian.v, and every covariance is symmetric PSD.
   Hypotheses (library / data): R_k symmetric positive definite; scipy's cholesky returns a lower factor
   of every innovation covariance it is handed; Qd symmetric PSD (the PSD-ness of the Van Loan Qd is
   the unproved part of C08). *)
Theorem C11_kalman_flow_spec :
  forall (F : realFieldType) (ni ng na : nat) (mdim : nat -> nat)
         (zf : forall k : nat, Q -> 'cV[F]_(mdim k)) (Hf : forall k : nat, Q -> 'M[F]_(mdim k, ni))
         (Rf : forall k : nat, 'M[F]_(mdim k)) (chol : forall k : nat, 'M[F]_(mdim k) -> 'M[F]_(mdim k))
         (Phi Qd : nat -> nat -> 'M[F]_(ni + (ng + na))),
  (forall k : nat, (Rf k)^T = Rf k) ->
  (forall k : nat, pd (Rf k)) ->
  (forall (k : nat) (m : Q) (P : 'M[F]_(ni + (ng + na))), P^T = P -> psd P ->
     cholesky_factor (@chol k) (correct_S P (@h_full F ni ng na mdim Hf k m) (Rf k))) ->
  (forall i j : nat, (Qd i j)^T = Qd i j) ->
  (forall i j : nat, psd (Qd i j)) ->
  forall (tr : list event) (s0 : kstate F ni ng na),
  cov_ok s0 ->
  [/\ cov_ok (ff_flow (@k_corr F ni ng na mdim zf Hf Rf chol) (@k_prop F ni ng na Phi Qd) tr s0).1,
      List.Forall (fun r : Q * kstate F ni ng na => cov_ok r.2)
        (ff_flow (@k_corr F ni ng na mdim zf Hf Rf chol) (@k_prop F ni ng na Phi Qd) tr s0).2
    & ff_flow (@k_corr_spec F ni ng na mdim zf Hf Rf) (@k_prop F ni ng na Phi Qd) tr s0 =
      ff_flow (@k_corr F ni ng na mdim zf Hf Rf chol) (@k_prop F ni ng na Phi Qd) tr s0].
Proof. exact kalman_flow_spec. Qed.
Print Assumptions C11_kalman_flow_spec.

(* H_full = [H | 0 | 0]: the predicted measurement and the innovation covariance see the
   inertial block only; the sensor parameters are corrected only through their cross-covariance *)
Theorem C11_h_full_embedding :
  forall (F : fieldType) (ni ns m : nat) (H : 'M[F]_(m, ni)) (R : 'M[F]_m) (P : 'M[F]_(ni + ns))
         (x : 'cV[F]_(ni + ns)),
  [/\ row_mx H 0 *m x = H *m usubmx x,
      row_mx H 0 *m P *m (row_mx H 0)^T = H *m ulsubmx P *m H^T,
      correct_S P (row_mx H 0) R = H *m ulsubmx P *m H^T + R
    & P *m (row_mx H 0)^T = col_mx (ulsubmx P *m H^T) (dlsubmx P *m H^T)].
Proof. exact h_full_embedding. Qed.
Print Assumptions C11_h_full_embedding.

(* P0 = T P_pva T^T (+) P_gyro (+) P_accel, for every triple of block sizes; symmetric PSD *)
Theorem C11_init_cov_blocks :
  forall (F : realFieldType) (ni ng na : nat) (T : 'M[F]_(ni, 9)) (Ppva : 'M[F]_9) (Pg : 'M[F]_ng)
         (Pa : 'M[F]_na),
  [/\ ulsubmx (init_cov T Ppva Pg Pa) = T *m Ppva *m T^T,
      ursubmx (init_cov T Ppva Pg Pa) = 0, dlsubmx (init_cov T Ppva Pg Pa) = 0
    & drsubmx (init_cov T Ppva Pg Pa) = block_mx Pg 0 0 Pa].
Proof. exact init_cov_blocks. Qed.
Print Assumptions C11_init_cov_blocks.

Theorem C11_init_cov_ok :
  forall (F : realFieldType) (ni ng na : nat) (T : 'M[F]_(ni, 9)) (Ppva : 'M[F]_9) (Pg : 'M[F]_ng)
         (Pa : 'M[F]_na),
  Ppva^T = Ppva -> psd Ppva -> Pg^T = Pg -> psd Pg -> Pa^T = Pa -> psd Pa ->
  (init_cov T Ppva Pg Pa)^T = init_cov T Ppva Pg Pa /\ psd (init_cov T Ppva Pg Pa).
Proof. exact init_cov_ok. Qed.
Print Assumptions C11_init_cov_ok.

(* the joint F, G, q: index ranges (ins | gyro | accel) x (ins | gyro | accel) and
   (ins | gyro | accel) x (gyro output noise | accel output noise | gyro noise | accel noise) tile the
   matrices for every choice of the seven block sizes (the types carry the sizes) *)
Theorem C11_asm_F_blocks :
  forall (F : realFieldType) (ni ng na : nat) (Fii : 'M[F]_ni) (Fig Fia : 'M[F]_(ni, 3))
         (Hg : 'M[F]_(3, ng)) (Ha : 'M[F]_(3, na)) (Fg : 'M[F]_ng) (Fa : 'M[F]_na),
  [/\ ulsubmx (asm_F Fii Fig Fia Hg Ha Fg Fa) = Fii,
      ursubmx (asm_F Fii Fig Fia Hg Ha Fg Fa) = row_mx (Fig *m Hg) (Fia *m Ha),
      dlsubmx (asm_F Fii Fig Fia Hg Ha Fg Fa) = 0
    & drsubmx (asm_F Fii Fig Fia Hg Ha Fg Fa) = block_mx Fg 0 0 Fa].
Proof. exact asm_F_blocks. Qed.
Print Assumptions C11_asm_F_blocks.

Theorem C11_asm_G_rows :
  forall (F : realFieldType) (ni ng na vg va qg qa : nat) (Fig Fia : 'M[F]_(ni, 3))
         (Jg : 'M[F]_(3, vg)) (Ja : 'M[F]_(3, va)) (Gg : 'M[F]_(ng, qg)) (Ga : 'M[F]_(na, qa)),
  [/\ usubmx (asm_G Fig Fia Jg Ja Gg Ga) = row_mx (Fig *m Jg) (row_mx (Fia *m Ja) 0),
      usubmx (dsubmx (asm_G Fig Fia Jg Ja Gg Ga)) = row_mx 0 (row_mx 0 (row_mx Gg 0))
    & dsubmx (dsubmx (asm_G Fig Fia Jg Ja Gg Ga)) = row_mx 0 (row_mx 0 (row_mx 0 Ga))].
Proof. exact asm_G_rows. Qed.
Print Assumptions C11_asm_G_rows.

(* q = (v_g, v_a, q_g, q_a): diag(q^2) is block diagonal; Q = G diag(q^2) G^T is symmetric PSD *)
Theorem C11_diag_sq_col :
  forall (F : realFieldType) (k1 k2 : nat) (a : 'cV[F]_k1) (b : 'cV[F]_k2),
  diag_sq (col_mx a b) = block_mx (diag_sq a) 0 0 (diag_sq b).
Proof. exact diag_sq_col. Qed.
Print Assumptions C11_diag_sq_col.

(* ... and written out: output noises enter the inertial block through Fig Jg / Fia Ja, every parameter
   block has its own driving noise, no cross terms *)
Theorem C11_asm_Q_blocks :
  forall (F : realFieldType) (ni ng na vg va qg qa : nat) (Fig Fia : 'M[F]_(ni, 3))
         (Jg : 'M[F]_(3, vg)) (Ja : 'M[F]_(3, va)) (Gg : 'M[F]_(ng, qg)) (Ga : 'M[F]_(na, qa))
         (v_g : 'cV[F]_vg) (v_a : 'cV[F]_va) (q_g : 'cV[F]_qg) (q_a : 'cV[F]_qa),
  asm_Q Fig Fia Jg Ja Gg Ga v_g v_a q_g q_a =
  block_mx (Fig *m Jg *m diag_sq v_g *m (Fig *m Jg)^T + Fia *m Ja *m diag_sq v_a *m (Fia *m Ja)^T) 0
           0 (block_mx (Gg *m diag_sq q_g *m Gg^T) 0 0 (Ga *m diag_sq q_a *m Ga^T)).
Proof. exact asm_Q_blocks. Qed.
Print Assumptions C11_asm_Q_blocks.

Theorem C11_asm_Q_ok :
  forall (F : realFieldType) (ni ng na vg va qg qa : nat) (Fig Fia : 'M[F]_(ni, 3))
         (Jg : 'M[F]_(3, vg)) (Ja : 'M[F]_(3, va)) (Gg : 'M[F]_(ng, qg)) (Ga : 'M[F]_(na, qa))
         (v_g : 'cV[F]_vg) (v_a : 'cV[F]_va) (q_g : 'cV[F]_qg) (q_a : 'cV[F]_qa),
  (asm_Q Fig Fia Jg Ja Gg Ga v_g v_a q_g q_a)^T = asm_Q Fig Fia Jg Ja Gg Ga v_g v_a q_g q_a /\
  psd (asm_Q Fig Fia Jg Ja Gg Ga v_g v_a q_g q_a).
Proof. exact asm_Q_ok. Qed.
Print Assumptions C11_asm_Q_ok.

(* the hand-written block terms ARE the terms GENERATED from the live functions
   _initialize_covariance and _compute_error_propagation_matrices (Gen/C11Mx.v: matrix-granularity trace
   by tools/reg/c11.py on every run, validated numerically on real model objects of all sizes):
   icov_ret0 = the returned P0; epm_ret0, epm_ret1 = the F and Q = G diag(q^2) G^T handed to
   kalman.compute_process_matrices; 3 sensor axes, 9 output states. *)
Theorem C11_generated_assembly :
  forall (F : realFieldType) (ni ng na vg va qg qa : nat)
         (T : 'M[F]_(ni, 9)) (Ppva : 'M[F]_9) (Pg : 'M[F]_ng) (Pa : 'M[F]_na)
         (Fii : 'M[F]_ni) (Fig Fia : 'M[F]_(ni, 3)) (Hg : 'M[F]_(3, ng)) (Ha : 'M[F]_(3, na))
         (Fg : 'M[F]_ng) (Fa : 'M[F]_na) (Jg : 'M[F]_(3, vg)) (Ja : 'M[F]_(3, va))
         (Gg : 'M[F]_(ng, qg)) (Ga : 'M[F]_(na, qa))
         (v_g : 'cV[F]_vg) (v_a : 'cV[F]_va) (q_g : 'cV[F]_qg) (q_a : 'cV[F]_qa),
  [/\ icov_ret0 T Ppva Pg Pa = init_cov T Ppva Pg Pa,
      epm_ret0 Fii Fig Fia Hg Ha Fg Fa = asm_F Fii Fig Fia Hg Ha Fg Fa
    & epm_ret1 Fig Fia Jg Ja Gg Ga v_g v_a q_g q_a = asm_Q Fig Fia Jg Ja Gg Ga v_g v_a q_g q_a].
Proof. exact generated_assembly. Qed.
Print Assumptions C11_generated_assembly.

(* ---- Part 4.  Tier B.
   One stage, completing the square: for EVERY x
     |x - xb|^2_{P^-1} + |z - H x|^2_{R^-1} = |z - H xb|^2_{S^-1} + |x - x+|^2_{P^-1 + H^T R^-1 H} *)
Theorem C11_key_identity :
  forall (F : realFieldType) (n m : nat) (xb : 'cV[F]_n) (P : 'M[F]_n) (z : 'cV[F]_m)
         (H : 'M[F]_(m, n)) (R : 'M[F]_m),
  P^T = P -> pd P -> R^T = R -> pd R ->
  forall x : 'cV[F]_n,
  wls_cost xb P z H R x =
  qform (invmx (innov_cov P H R)) (z - H *m xb) + qform (info_mx P H R) (x - cond_mean xb P z H R).
Proof. exact key_identity. Qed.
Print Assumptions C11_key_identity.

(* one stage: prior + one measurement block = weighted least squares of the stacked system
   [I; H] x = [xb; z], weight diag(P^-1, R^-1): estimate, covariance, unique minimiser *)
Theorem C11_single_stage_wls :
  forall (F : realFieldType) (n m : nat) (xb : 'cV[F]_n) (P : 'M[F]_n) (z : 'cV[F]_m)
         (H : 'M[F]_(m, n)) (R : 'M[F]_m),
  P^T = P -> pd P -> R^T = R -> pd R ->
  [/\ wls_est xb P z H R = cond_mean xb P z H R,
      wls_cov P H R = cond_cov P H R,
      forall x : 'cV[F]_n, wls_cost xb P z H R (cond_mean xb P z H R) <= wls_cost xb P z H R x
    & forall x : 'cV[F]_n,
        wls_cost xb P z H R x = wls_cost xb P z H R (cond_mean xb P z H R) -> x = cond_mean xb P z H R].
Proof. exact single_stage_wls. Qed.
Print Assumptions C11_single_stage_wls.

(* N stages (any N, any dimensions, ANY Phi_k and H_k; P0, R_k, Qd_k symmetric positive definite):
   traj_cost N x is the weighted least squares objective of the stacked system in x_0 .. x_N
   (prior, N measurement blocks, N transition pseudo-measurements); the state (xN, PN) of the
   recursion of the GENERATED code satisfies: min over x_0..x_{N-1} of the objective, as a function of
   x_N = y, is  (sum of squared normalised innovations) + |y - xN|^2_{PN^-1}.  Hence xN is the last
   block of every minimiser of the stacked problem and PN^-1 its information matrix. *)
Theorem C11_kalman_eq_batch_pd :
  forall (F : realFieldType) (n : nat) (md : nat -> nat) (zs : forall k : nat, 'cV[F]_(md k))
         (Hs : forall k : nat, 'M[F]_(md k, n)) (Rs : forall k : nat, 'M[F]_(md k))
         (Phis Qds : nat -> 'M[F]_n) (chols : forall k : nat, 'M[F]_(md k) -> 'M[F]_(md k))
         (xb : 'cV[F]_n) (P0 : 'M[F]_n),
  P0^T = P0 -> pd P0 ->
  (forall k : nat, (Rs k)^T = Rs k) -> (forall k : nat, pd (Rs k)) ->
  (forall k : nat, (Qds k)^T = Qds k) -> (forall k : nat, pd (Qds k)) ->
  forall N : nat,
  (forall k : nat, (k < N)%N -> chol_ok zs Hs Rs Phis Qds chols xb P0 k) ->
  let xN := (kf_run zs Hs Rs Phis Qds chols N (xb, P0)).1 in
  let PN := (kf_run zs Hs Rs Phis Qds chols N (xb, P0)).2 in
  [/\ PN^T = PN /\ pd PN,
      forall x : nat -> 'cV[F]_n,
        innov_cost zs Hs Rs Phis Qds chols xb P0 N + qform (invmx PN) (x N - xN)
        <= traj_cost zs Hs Rs Phis Qds xb P0 N x,
      forall y : 'cV[F]_n, exists x : nat -> 'cV[F]_n,
        x N = y /\
        traj_cost zs Hs Rs Phis Qds xb P0 N x =
        innov_cost zs Hs Rs Phis Qds chols xb P0 N + qform (invmx PN) (y - xN),
      (forall x : nat -> 'cV[F]_n,
         innov_cost zs Hs Rs Phis Qds chols xb P0 N <= traj_cost zs Hs Rs Phis Qds xb P0 N x) /\
      (exists x : nat -> 'cV[F]_n,
         x N = xN /\ traj_cost zs Hs Rs Phis Qds xb P0 N x = innov_cost zs Hs Rs Phis Qds chols xb P0 N)
    & forall x : nat -> 'cV[F]_n,
        traj_cost zs Hs Rs Phis Qds xb P0 N x = innov_cost zs Hs Rs Phis Qds chols xb P0 N -> x N = xN].
Proof. exact kalman_eq_batch_pd. Qed.
Print Assumptions C11_kalman_eq_batch_pd.

(* ---- Part 5.  Tier B for SINGULAR process noise: the class of the real system.
   Qd_k = Gam_k Gam_k^T with ARBITRARY Gam_k (any rank, also 0), Phi_k invertible (a matrix exponential
   always is), P0 and R_k symmetric positive definite, any N, any dimensions.  The batch problem is
   noise-parametrised: free variables (x_0, w_0 .. w_{N-1}), states generated by
   x_{k+1} = Phi_k x_k + Gam_k w_k (nstate), objective
       |x_0 - xb|^2_{P0^-1} + sum_k |w_k|^2 + sum_k |z_k - H_k x_k|^2_{R_k^-1}      (noise_cost)
   -- no inverse of Qd anywhere. *)

(* the propagation step: S = Phi P Phi^T + Gam Gam^T is positive definite, and for every (d, w) with
   Phi d + Gam w = r:  |d|^2_{P^-1} + |w|^2 = r^T S^-1 r + |d - P Phi^T S^-1 r|^2_{P^-1} + |w - Gam^T S^-1 r|^2,
   the optimum (prop_dopt, prop_wopt) being feasible *)
Theorem C11_prop_identity :
  forall (F : realFieldType) (n p : nat) (P Phi : 'M[F]_n) (Gam : 'M[F]_(n, p)),
  P^T = P -> pd P -> Phi \in unitmx ->
  pd (Phi *m P *m Phi^T + Gam *m Gam^T) /\
  (forall r : 'cV[F]_n, Phi *m prop_dopt P Phi Gam r + Gam *m prop_wopt P Phi Gam r = r) /\
  forall (d : 'cV[F]_n) (w : 'cV[F]_p) (r : 'cV[F]_n),
  Phi *m d + Gam *m w = r ->
  qform (invmx P) d + qform 1%:M w =
  qform (invmx (Phi *m P *m Phi^T + Gam *m Gam^T)) r +
  (qform (invmx P) (d - prop_dopt P Phi Gam r) + qform 1%:M (w - prop_wopt P Phi Gam r)).
Proof.
move=> F n p P Phi Gam sP pP uPhi; split; first exact: prop_S_pd.
split; first exact: prop_opt_feasible.
exact: prop_identity.
Qed.
Print Assumptions C11_prop_identity.

(* any N: the cost-to-arrive at x_N = y (minimum of the objective over all (x_0, w) whose generated state
   at N is y) is (sum of squared normalised innovations) + |y - xN|^2_{PN^-1}, (xN, PN) = the state of the
   recursion of the GENERATED code with P <- Phi P Phi^T + Gam Gam^T.  Hence xN is the final state of
   every minimiser of the batch problem and PN^-1 its information matrix. *)
Theorem C11_kalman_eq_batch_singular_noise :
  forall (F : realFieldType) (n p : nat) (md : nat -> nat) (zs : forall k : nat, 'cV[F]_(md k))
         (Hs : forall k : nat, 'M[F]_(md k, n)) (Rs : forall k : nat, 'M[F]_(md k))
         (Phis : nat -> 'M[F]_n) (Gams : nat -> 'M[F]_(n, p))
         (chols : forall k : nat, 'M[F]_(md k) -> 'M[F]_(md k)) (xb : 'cV[F]_n) (P0 : 'M[F]_n),
  P0^T = P0 -> pd P0 ->
  (forall k : nat, (Rs k)^T = Rs k) -> (forall k : nat, pd (Rs k)) ->
  (forall k : nat, Phis k \in unitmx) ->
  forall N : nat,
  (forall k : nat, (k < N)%N -> chol_ok zs Hs Rs Phis (gram_Qd Gams) chols xb P0 k) ->
  let xN := (kf_run zs Hs Rs Phis (gram_Qd Gams) chols N (xb, P0)).1 in
  let PN := (kf_run zs Hs Rs Phis (gram_Qd Gams) chols N (xb, P0)).2 in
  let icost := innov_cost zs Hs Rs Phis (gram_Qd Gams) chols xb P0 in
  let J := noise_cost zs Hs Rs Phis Gams xb P0 in
  let xs := nstate Phis Gams in
  [/\ PN^T = PN /\ pd PN,
      forall (x0 : 'cV[F]_n) (w : nat -> 'cV[F]_p), icost N + qform (invmx PN) (xs x0 w N - xN) <= J N x0 w,
      forall y : 'cV[F]_n, exists (x0 : 'cV[F]_n) (w : nat -> 'cV[F]_p),
        xs x0 w N = y /\ J N x0 w = icost N + qform (invmx PN) (y - xN),
      (forall (x0 : 'cV[F]_n) (w : nat -> 'cV[F]_p), icost N <= J N x0 w) /\
      (exists (x0 : 'cV[F]_n) (w : nat -> 'cV[F]_p), xs x0 w N = xN /\ J N x0 w = icost N)
    & forall (x0 : 'cV[F]_n) (w : nat -> 'cV[F]_p), J N x0 w = icost N -> xs x0 w N = xN].
Proof. exact kalman_eq_batch_singular_noise. Qed.
Print Assumptions C11_kalman_eq_batch_singular_noise.

(* non-vacuity with a singular Qd: two states, the noise drives only the first (Gam = (1; 0), rank 1 < 2),
   P0 = 3 I, H = (1 0), R = 1 (S = 4, L = 2), Phi = I *)
Example C11_ex_batch_singular_hypotheses :
  forall F : realFieldType,
  let md := fun _ : nat => 1%N in
  let zs := fun _ : nat => (0 : 'cV[F]_1) in
  let Hs := fun _ : nat => (row_mx 1%:M 0 : 'M[F]_(1, 1 + 1)) in
  let Rs := fun _ : nat => (1%:M : 'M[F]_1) in
  let Phis := fun _ : nat => (1%:M : 'M[F]_(1 + 1)) in
  let Gams := fun _ : nat => (col_mx 1%:M 0 : 'M[F]_(1 + 1, 1)) in
  let chols := fun (_ : nat) (_ : 'M[F]_1) => (2%:R%:M : 'M[F]_1) in
  let P0 : 'M[F]_(1 + 1) := 3%:R%:M in
  [/\ P0^T = P0 /\ pd P0, (forall k, (Rs k)^T = Rs k) /\ (forall k, pd (Rs k)),
      forall k, Phis k \in unitmx,
      forall k, (\rank (Gams k) < 1 + 1)%N /\ (\rank (gram_Qd Gams k) < 1 + 1)%N
    & forall k, (k < 1)%N -> @chol_ok F (1 + 1) md zs Hs Rs Phis (gram_Qd Gams) chols 0 P0 k].
Proof. exact example_batch_singular. Qed.

(* non-vacuity of Tier B: one stage, 1 x 1: P0 = 3, H = 1, R = 1 (S = 4, L = 2), Phi = 1, Qd = 1 *)
Example C11_ex_batch_hypotheses :
  forall F : realFieldType,
  let md := fun _ : nat => 1%N in
  let zs := fun _ : nat => (0 : 'cV[F]_1) in
  let Hs := fun _ : nat => (1%:M : 'M[F]_1) in
  let Rs := fun _ : nat => (1%:M : 'M[F]_1) in
  let Phis := fun _ : nat => (1%:M : 'M[F]_1) in
  let Qds := fun _ : nat => (1%:M : 'M[F]_1) in
  let chols := fun (_ : nat) (_ : 'M[F]_1) => (2%:R%:M : 'M[F]_1) in
  let P0 : 'M[F]_1 := 3%:R%:M in
  [/\ P0^T = P0 /\ pd P0, (forall k, (Rs k)^T = Rs k) /\ (forall k, pd (Rs k)),
      (forall k, (Qds k)^T = Qds k) /\ (forall k, pd (Qds k))
    & forall k, (k < 1)%N -> @chol_ok F 1 md zs Hs Rs Phis Qds chols 0 P0 k].
Proof.
move=> F md zs Hs Rs Phis Qds chols P0.
have [[sP _] [sR pR] cF _] := example_correct F.
split.
- by split; [exact: sP | apply: pd_scalar; rewrite ltr0n].
- by split=> k; [rewrite trmx1 | exact: pd1].
- by split=> k; [rewrite trmx1 | exact: pd1].
- by case=> // _; exact: cF.
Qed.

(* non-vacuity of the hypotheses of C11_kalman_flow_spec over ANY real field (no square roots needed):
   a measurement block that observes nothing (H = 0), R = 1: every innovation covariance is 1.
   (Over a field with square roots -- the reals -- the Cholesky hypothesis holds for every H.) *)
Example C11_ex_flow_hypotheses :
  forall (F : realFieldType) (ni ng na : nat),
  let mdim := fun _ : nat => 1%N in
  let Hf := fun (_ : nat) (_ : Q) => (0 : 'M[F]_(1, ni)) in
  let Rf := fun _ : nat => (1%:M : 'M[F]_1) in
  let chol := fun (_ : nat) (_ : 'M[F]_1) => (1%:M : 'M[F]_1) in
  [/\ forall k, (Rf k)^T = Rf k, forall k, pd (Rf k)
    & forall k m (P : 'M[F]_(ni + (ng + na))), P^T = P -> psd P ->
        cholesky_factor (chol k) (correct_S P (@h_full F ni ng na mdim Hf k m) (Rf k))].
Proof.
move=> F ni ng na mdim Hf Rf chol; split=> [k|k|k m P _ _]; [by rewrite trmx1 | exact: pd1 |].
rewrite /h_full row_mx0 /correct_S /innov_cov !mul0mx add0r.
by split; [exact: is_lower_scalar | rewrite mul1mx trmx1].
Qed.
