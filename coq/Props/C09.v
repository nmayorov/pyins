(* C09 — Feedback filter handles every IMU/measurement interleaving exactly once.

   Model: Model/FeedbackSched.v (run_feedback_filter at the level of cursors and
   events, times in Q).  Proofs: Proofs/SchedProofs.v.

   t0      = initial_pva.name            incs    = increments.index
   sensors = one list of stamps per element of `measurements` (None / [] = [])
   Hypotheses: t0 < incs[0] < incs[1] < ... (StronglySorted Qlt (t0 :: incs)),
   at least one increment, fuel >= number of increments.
   - theorems `C09_fb_*`        : exact arithmetic, add_step t = t + time_step, 0 <= time_step
   - theorems `C09_fb_*_oracle` : `time + time_step` replaced by ANY add_step with
                                  t <= add_step t (covers binary64 rounding of the sum);
                                  innov_sound is stated in this form only *)
From Coq Require Import List QArith Sorted.
From PV Require Import Model.FeedbackSched Proofs.SchedProofs.
Import ListNotations.
Open Scope Q_scope.

(* ---- termination: the fuel #increments is never exhausted, no index error ---- *)
Theorem C09_fb_terminates : forall time_step t0 incs sensors fuel,
  0 <= time_step -> StronglySorted Qlt (t0 :: incs) -> incs <> [] ->
  (length incs <= fuel)%nat ->
  completed (fb_run_exact fuel time_step t0 incs sensors) = true.
Proof. exact fb_terminates. Qed.
Print Assumptions C09_fb_terminates.

Theorem C09_fb_terminates_oracle : forall add_step t0 incs sensors fuel,
  (forall t, t <= add_step t) -> StronglySorted Qlt (t0 :: incs) -> incs <> [] ->
  (length incs <= fuel)%nat ->
  completed (fb_run fuel add_step t0 incs sensors) = true.
Proof. exact fb_terminates_oracle. Qed.
Print Assumptions C09_fb_terminates_oracle.

(* ---- every increment is integrated exactly once, in order; no batch is empty;
        the trajectory index is t0 followed by every increment time ---- *)
Theorem C09_fb_imu_exactly_once : forall time_step t0 incs sensors fuel,
  0 <= time_step -> StronglySorted Qlt (t0 :: incs) -> incs <> [] ->
  (length incs <= fuel)%nat ->
  let tr := fb_run_exact fuel time_step t0 incs sensors in
  integrated tr = seq 0 (length incs) /\
  (forall a b, In (Integrate a b) tr -> (a < b)%nat /\ (b <= length incs)%nat) /\
  fb_trajectory_index t0 incs tr = t0 :: incs.
Proof. exact fb_imu_exactly_once. Qed.
Print Assumptions C09_fb_imu_exactly_once.

Theorem C09_fb_imu_exactly_once_oracle : forall add_step t0 incs sensors fuel,
  (forall t, t <= add_step t) -> StronglySorted Qlt (t0 :: incs) -> incs <> [] ->
  (length incs <= fuel)%nat ->
  let tr := fb_run fuel add_step t0 incs sensors in
  integrated tr = seq 0 (length incs) /\
  (forall a b, In (Integrate a b) tr -> (a < b)%nat /\ (b <= length incs)%nat) /\
  fb_trajectory_index t0 incs tr = t0 :: incs.
Proof. exact fb_imu_exactly_once_oracle. Qed.
Print Assumptions C09_fb_imu_exactly_once_oracle.

(* ---- for every sensor the innovation rows are exactly its stamps in
        [t0, t_end), ascending, each once; stamps outside produce none ---- *)
Theorem C09_fb_meas_exactly_once : forall time_step t0 incs sensors fuel,
  0 <= time_step -> StronglySorted Qlt (t0 :: incs) -> incs <> [] ->
  (length incs <= fuel)%nat ->
  let tr := fb_run_exact fuel time_step t0 incs sensors in
  let tend := last incs t0 in
  (forall k s, nth_error sensors k = Some s ->
     StronglySorted Qlt (innov_epochs k tr) /\
     (forall x, InQ x (innov_epochs k tr) <-> InQ x s /\ t0 <= x /\ x < tend) /\
     Forall2 Qeq (innov_epochs k tr) (sort_unique (filter (in_range t0 tend) s))) /\
  (forall k, nth_error sensors k = None -> innov_epochs k tr = []).
Proof. exact fb_meas_exactly_once. Qed.
Print Assumptions C09_fb_meas_exactly_once.

Theorem C09_fb_meas_exactly_once_oracle : forall add_step t0 incs sensors fuel,
  (forall t, t <= add_step t) -> StronglySorted Qlt (t0 :: incs) -> incs <> [] ->
  (length incs <= fuel)%nat ->
  let tr := fb_run fuel add_step t0 incs sensors in
  let tend := last incs t0 in
  (forall k s, nth_error sensors k = Some s ->
     StronglySorted Qlt (innov_epochs k tr) /\
     (forall x, InQ x (innov_epochs k tr) <-> InQ x s /\ t0 <= x /\ x < tend) /\
     Forall2 Qeq (innov_epochs k tr) (sort_unique (filter (in_range t0 tend) s))) /\
  (forall k, nth_error sensors k = None -> innov_epochs k tr = []).
Proof. exact fb_meas_exactly_once_oracle. Qed.
Print Assumptions C09_fb_meas_exactly_once_oracle.

(* ---- every innovation event belongs to a stamp of its sensor in [t0, t_end)
        and is processed at the integrator time t = tmf t0 incs i (trajectory time i:
        t0, incs[0], ...) with t <= m < tmf t0 incs (i + 1): forward extrapolation
        by a fraction in [0, 1) of the next increment ---- *)
Theorem C09_fb_innov_sound_oracle : forall add_step t0 incs sensors fuel,
  (forall t, t <= add_step t) -> StronglySorted Qlt (t0 :: incs) -> incs <> [] ->
  (length incs <= fuel)%nat ->
  forall k m t, In (Innov k m t) (fb_run fuel add_step t0 incs sensors) ->
  t0 <= m /\ m < last incs t0 /\
  (exists s, nth_error sensors k = Some s /\ InQ m s) /\
  exists i, (i < length incs)%nat /\ t = tmf t0 incs i /\ t <= m /\ m < tmf t0 incs (S i).
Proof. exact fb_innov_sound_oracle. Qed.
Print Assumptions C09_fb_innov_sound_oracle.

(* ---- the sd / estimate tables: strictly increasing subset of the trajectory
        times, starting at t0 ---- *)
Theorem C09_fb_records_increasing : forall time_step t0 incs sensors fuel,
  0 <= time_step -> StronglySorted Qlt (t0 :: incs) -> incs <> [] ->
  (length incs <= fuel)%nat ->
  let tr := fb_run_exact fuel time_step t0 incs sensors in
  StronglySorted Qlt (record_times tr) /\
  (forall t, In t (record_times tr) -> In t (t0 :: incs) /\ t < last incs t0) /\
  exists r, record_times tr = t0 :: r.
Proof. exact fb_records_increasing. Qed.
Print Assumptions C09_fb_records_increasing.

Theorem C09_fb_records_increasing_oracle : forall add_step t0 incs sensors fuel,
  (forall t, t <= add_step t) -> StronglySorted Qlt (t0 :: incs) -> incs <> [] ->
  (length incs <= fuel)%nat ->
  let tr := fb_run fuel add_step t0 incs sensors in
  StronglySorted Qlt (record_times tr) /\
  (forall t, In t (record_times tr) -> In t (t0 :: incs) /\ t < last incs t0) /\
  exists r, record_times tr = t0 :: r.
Proof. exact fb_records_increasing_oracle. Qed.
Print Assumptions C09_fb_records_increasing_oracle.

(* ---- no stamp in [t0, t_end) (in particular measurements=None): no correction ---- *)
Theorem C09_fb_no_meas_single_pass : forall time_step t0 incs sensors fuel,
  0 <= time_step -> StronglySorted Qlt (t0 :: incs) -> incs <> [] ->
  (length incs <= fuel)%nat ->
  (forall s x, In s sensors -> In x s -> ~ (t0 <= x /\ x < last incs t0)) ->
  forall k m t, ~ In (Innov k m t) (fb_run_exact fuel time_step t0 incs sensors).
Proof.
  intros ts t0 incs sensors fuel H.
  exact (fb_no_meas_no_innov_oracle _ t0 incs sensors fuel (exact_step ts H)).
Qed.
Print Assumptions C09_fb_no_meas_single_pass.

Theorem C09_fb_no_meas_single_pass_oracle : forall add_step t0 incs sensors fuel,
  (forall t, t <= add_step t) -> StronglySorted Qlt (t0 :: incs) -> incs <> [] ->
  (length incs <= fuel)%nat ->
  (forall s x, In s sensors -> In x s -> ~ (t0 <= x /\ x < last incs t0)) ->
  forall k m t, ~ In (Innov k m t) (fb_run fuel add_step t0 incs sensors).
Proof. exact fb_no_meas_no_innov_oracle. Qed.
Print Assumptions C09_fb_no_meas_single_pass_oracle.

(* ---- the inner `while` is necessary: `fb_run_pinned` (Proofs/SchedProofs.v) has a
        single `if` in its place and processes at most one epoch per iteration.
        Three sensors stamped at three distinct times inside one IMU interval: the
        `== -> += 1` guard is not enough, a batch is empty (iloc[1:0]), the cursor
        moves back and increment 0 is integrated twice ---- *)
Theorem C09_fb_pinned_refuted_cluster : exists t0 incs sensors step,
  StronglySorted Qlt (t0 :: incs) /\ 0 < step /\
  let tr := fb_run_pinned 10 step t0 incs sensors in
  completed tr = true /\ In (Integrate 1 0) tr /\
  integrated tr = [0; 0; 1; 2]%nat.
Proof.
  exists 1, [9#8; 10#8; 11#8], [[129#128]; [130#128]; [131#128]], (1#8).
  split; [repeat constructor|]. split; [reflexivity|].
  vm_compute. repeat split. right; right; right; right; right; now left.
Qed.
Print Assumptions C09_fb_pinned_refuted_cluster.

(* ---- two epochs inside the last IMU interval: the second one is in [t0, t_end)
        and produces no innovation row ---- *)
Theorem C09_fb_pinned_refuted_last_interval : exists t0 incs sensors step,
  StronglySorted Qlt (t0 :: incs) /\ 0 < step /\
  let tr := fb_run_pinned 10 step t0 incs sensors in
  completed tr = true /\ innov_epochs 0 tr = [149#128] /\ innov_epochs 1 tr = [].
Proof.
  exists 1, [9#8; 10#8], [[149#128]; [153#128]], (1#8).
  split; [repeat constructor|]. split; [reflexivity|].
  vm_compute. repeat split.
Qed.
Print Assumptions C09_fb_pinned_refuted_last_interval.

(* ---- non-vacuity ------------------------------------------------------------
   IMU at 1/10 s from t0 = 1 to 3/2; three sensors stamped 1.01, 1.02, 1.03 inside
   the first interval; two epochs (1.43, 1.47) inside the last interval; a stamp
   shared by two sensors (1.2, on an IMU epoch); stamps before the start, exactly
   at the start, exactly at the end and after the end. *)
Definition ex_t0 : Q := 1.
Definition ex_incs : list Q := [11#10; 12#10; 13#10; 14#10; 15#10].
Definition ex_sensors : list (list Q) :=
  [ [99#100; 101#100; 12#10; 143#100; 15#10];
    [1; 102#100; 12#10; 147#100; 2];
    [103#100] ].
Definition ex_step : Q := 1#10.

Example C09_ex_hypotheses :
  0 <= ex_step /\ StronglySorted Qlt (ex_t0 :: ex_incs) /\ ex_incs <> [] /\
  (length ex_incs <= 5)%nat.
Proof.
  split; [discriminate|]. split; [repeat constructor|]. split; [discriminate|].
  vm_compute. repeat constructor.
Qed.

Example C09_ex_trace :
  let tr := fb_run_exact 5 ex_step ex_t0 ex_incs ex_sensors in
  completed tr = true /\
  integrated tr = [0; 1; 2; 3; 4]%nat /\
  fb_trajectory_index ex_t0 ex_incs tr = ex_t0 :: ex_incs /\
  innov_epochs 0 tr = [101#100; 12#10; 143#100] /\
  innov_epochs 1 tr = [1; 102#100; 12#10; 147#100] /\
  innov_epochs 2 tr = [103#100] /\
  record_times tr = [1; 11#10; 12#10; 13#10; 14#10].
Proof. vm_compute. repeat split. Qed.

(* irregular sampling with a gap, a large step (one batch per measurement epoch)
   and the default of no measurements *)
Example C09_ex_gap_no_measurements :
  let incs := [1#8; 3#16; 1#4; 2; 33#16] in
  StronglySorted Qlt (0 :: incs) /\
  fb_run_exact 5 10 0 incs [] =
    [Record 0; Integrate 0 5] /\
  fb_run_exact 5 (1#64) 0 incs [[1]] =
    [Record 0; Integrate 0 1; Record (1#8); Integrate 1 2; Record (3#16); Integrate 2 3;
     Innov 0 1 (1#4); Record (1#4); Integrate 3 4; Record 2; Integrate 4 5].
Proof. split; [repeat constructor|]. vm_compute. repeat split. Qed.
