(* C14 — Sensor error simulation and estimation models are exact mutual inverses.

   Model: Model/SensorModel.v (EstimationModel.__init__ = [build], output_matrix, the estimate
   state machine reset/update/get_estimates/correct_increments, and the simulator side
   apply = [sim_full] with the two random streams as explicit arrays, data_frame = [columns],
   [sim_df], from_EstimationModel = [from_model]).  Numbers are canonical rationals (Qc).
   Proofs: Proofs/SensorModelProofs.v.

   Every theorem quantifies over ALL parameter values bias_sd, noise, bias_walk : V3 Qc and
   sm_sd : M3, hence over all 2^18 enable masks (an entry is enabled iff it is > 0); the
   constructor loops are characterised by induction (on the loop counter and on the list of
   indices they run over), not by enumeration.

   Vocabulary:  enb / enw / enn / ensm = enabled bias axes / walking bias axes / noisy axes /
   scale-misalignment entries in loop order;  targets = what each state was created for, in
   state order;  state_vector b E = the entries of b and E = T - I listed in state order;
   bias_supported / sm_supported = zero outside the enabled entries. *)
From Coq Require Import List String Arith Bool ZArith QArith Qcanon Sorted Lia.
From PV Require Import Model.SensorModel Proofs.SensorModelProofs.
Import ListNotations.
Open Scope Qc_scope.

(* 1. walk_requires_bias: the constructor raises exactly in the documented case *)

Theorem C14_walk_requires_bias : forall bias_sd noise bias_walk sm_sd,
  build bias_sd noise bias_walk sm_sd = None <->
  exists a, (a < 3)%nat /\ 0 < get3 a bias_walk /\ get3 a bias_sd <= 0.
Proof. exact walk_requires_bias. Qed.
Print Assumptions C14_walk_requires_bias.

(* 2. layout_consistent *)

(* complete characterisation of the constructor's result *)
Theorem C14_layout_characterised : forall bias_sd noise bias_walk sm_sd m,
  build bias_sd noise bias_walk sm_sd = Some m ->
  states m = map bias_name (enb bias_sd)
             ++ map (fun oi => sm_name (fst oi) (snd oi)) (ensm sm_sd) /\
  n_states m = (List.length (enb bias_sd) + List.length (ensm sm_sd))%nat /\
  n_noises m = List.length (enw bias_sd bias_walk) /\
  n_output_noises m = List.length (enn noise) /\
  P m = map (fun a => sq (get3 a bias_sd)) (enb bias_sd)
        ++ map (fun oi => sq (get33 (fst oi) (snd oi) sm_sd)) (ensm sm_sd) /\
  q m = map (fun a => get3 a bias_walk) (enw bias_sd bias_walk) /\
  v m = map (fun a => get3 a noise) (enn noise) /\
  G m = indexed 0 (map (bias_rank bias_sd) (enw bias_sd bias_walk)) /\
  H m = indexed 0 (enb bias_sd) /\
  J m = indexed 0 (enn noise) /\
  scale_misal_data m = indexed (List.length (enb bias_sd)) (ensm sm_sd).
Proof.
  intros * Hb. rewrite (built _ _ _ _ _ Hb).
  cbn [states n_states n_noises n_output_noises P q v G H J scale_misal_data layout].
  rewrite !targets_map, targets_length. repeat split; reflexivity.
Qed.
Print Assumptions C14_layout_characterised.

(* which axes / entries are enabled *)
Theorem C14_enabled_bias : forall bias_sd a,
  In a (enb bias_sd) <-> (a < 3)%nat /\ 0 < get3 a bias_sd.
Proof. exact enb_In. Qed.
Print Assumptions C14_enabled_bias.

Theorem C14_enabled_walk : forall bias_sd bias_walk a,
  In a (enw bias_sd bias_walk) <-> (a < 3)%nat /\ 0 < get3 a bias_sd /\ 0 < get3 a bias_walk.
Proof. exact enw_In. Qed.
Print Assumptions C14_enabled_walk.

Theorem C14_enabled_noise : forall noise a,
  In a (enn noise) <-> (a < 3)%nat /\ 0 < get3 a noise.
Proof. exact enn_In. Qed.
Print Assumptions C14_enabled_noise.

Theorem C14_enabled_sm : forall sm_sd o i,
  In (o, i) (ensm sm_sd) <-> (o < 3 /\ i < 3)%nat /\ 0 < get33 o i sm_sd.
Proof. exact ensm_In. Qed.
Print Assumptions C14_enabled_sm.

(* names, vectors and counters have consistent lengths within the documented maxima *)
Theorem C14_layout_dimensions : forall bias_sd noise bias_walk sm_sd m,
  build bias_sd noise bias_walk sm_sd = Some m ->
  List.length (states m) = n_states m /\ List.length (P m) = n_states m /\
  List.length (q m) = n_noises m /\ List.length (v m) = n_output_noises m /\
  List.length (G m) = n_noises m /\ List.length (J m) = n_output_noises m /\
  (n_states m <= 12)%nat /\ (n_noises m <= 3)%nat /\ (n_output_noises m <= 3)%nat /\
  (n_noises m <= n_states m)%nat.
Proof.
  intros * Hb. rewrite (built _ _ _ _ _ Hb).
  cbn [states P q v G J n_states n_noises n_output_noises layout].
  rewrite !indexed_length, !map_length, targets_length.
  pose proof (enb_length bias_sd). pose proof (enw_length bias_sd bias_walk).
  pose proof (enn_length noise). pose proof (ensm_length sm_sd). repeat split; lia.
Qed.
Print Assumptions C14_layout_dimensions.

(* G is n_states x n_noises, H 3 x n_states, J 3 x n_output_noises, P and F n_states^2, F = 0 *)
Theorem C14_matrix_shapes : forall bias_sd noise bias_walk sm_sd m,
  build bias_sd noise bias_walk sm_sd = Some m ->
  (List.length (G_dense m) = n_states m /\ Forall (fun r => List.length r = n_noises m) (G_dense m)) /\
  (List.length (H_dense m) = 3%nat /\ Forall (fun r => List.length r = n_states m) (H_dense m)) /\
  (List.length (J_dense m) = 3%nat /\ Forall (fun r => List.length r = n_output_noises m) (J_dense m)) /\
  (List.length (P_dense m) = n_states m /\ Forall (fun r => List.length r = n_states m) (P_dense m)) /\
  (List.length (F_dense m) = n_states m /\ Forall (fun r => List.length r = n_states m) (F_dense m)) /\
  Forall (Forall (fun x => x = 0)) (F_dense m).
Proof.
  intros * Hb. rewrite (built _ _ _ _ _ Hb).
  unfold G_dense, H_dense, J_dense, P_dense, F_dense, dense, diag.
  replace (List.length (P _)) with (List.length (targets bias_sd sm_sd)) by (symmetry; apply map_length).
  repeat (split; [apply grid_shape|]).
  apply Forall_map, Forall_forall. intros r _. now apply Forall_map, Forall_forall.
Qed.
Print Assumptions C14_matrix_shapes.

(* state names are pairwise distinct *)
Theorem C14_states_NoDup : forall bias_sd noise bias_walk sm_sd m,
  build bias_sd noise bias_walk sm_sd = Some m -> NoDup (states m).
Proof. intros * Hb. rewrite (built _ _ _ _ _ Hb). apply states_NoDup. Qed.
Print Assumptions C14_states_NoDup.

(* order: the states are the enabled terms in the fixed order bias_x, bias_y, bias_z,
   sm_xx, sm_xy, sm_xz, sm_yx, ..., sm_zz  (bias first, then row-major sm_<out><in>) *)
Theorem C14_states_order : forall bias_sd noise bias_walk sm_sd m,
  build bias_sd noise bias_walk sm_sd = Some m ->
  states m = map name_of (targets bias_sd sm_sd) /\
  targets bias_sd sm_sd = filter (target_en bias_sd sm_sd) all_targets /\
  StronglySorted lt (map key (targets bias_sd sm_sd)) /\
  Forall valid_target (targets bias_sd sm_sd).
Proof.
  intros * Hb. rewrite (built _ _ _ _ _ Hb).
  repeat split; [apply targets_filter|apply targets_sorted|apply targets_valid].
Qed.
Print Assumptions C14_states_order.

Theorem C14_all_names :
  map name_of all_targets =
  ["bias_x"; "bias_y"; "bias_z"; "sm_xx"; "sm_xy"; "sm_xz"; "sm_yx"; "sm_yy"; "sm_yz";
   "sm_zx"; "sm_zy"; "sm_zz"]%string.
Proof. reflexivity. Qed.
Print Assumptions C14_all_names.

(* P: the initial variance of state k is the squared sd of the term it was created for *)
Theorem C14_P_entries : forall bias_sd noise bias_walk sm_sd m,
  build bias_sd noise bias_walk sm_sd = Some m ->
  P m = map (sd_sq bias_sd sm_sd) (targets bias_sd sm_sd) /\
  Forall (fun x => 0 < x) (P m).
Proof. intros * Hb. rewrite (built _ _ _ _ _ Hb). apply P_entries. Qed.
Print Assumptions C14_P_entries.

(* G: one unit entry per walking bias, in the row of that bias's state; q in column order *)
Theorem C14_G_entries : forall bias_sd noise bias_walk sm_sd m,
  build bias_sd noise bias_walk sm_sd = Some m ->
  (forall r c, In (r, c) (G m) <->
     exists a, nth_error (enw bias_sd bias_walk) c = Some a /\ r = bias_rank bias_sd a) /\
  (forall r c, In (r, c) (G m) ->
     exists a, nth_error (states m) r = Some (bias_name a) /\ 0 < get3 a bias_walk /\
               nth_error (q m) c = Some (get3 a bias_walk) /\
               (r < n_states m)%nat /\ (c < n_noises m)%nat) /\
  q m = map (fun a => get3 a bias_walk) (enw bias_sd bias_walk).
Proof. intros * Hb. rewrite (built _ _ _ _ _ Hb). apply G_entries. Qed.
Print Assumptions C14_G_entries.

(* H: a unit at (axis, state) exactly when the state is named bias_<axis> *)
Theorem C14_H_entries : forall bias_sd noise bias_walk sm_sd m,
  build bias_sd noise bias_walk sm_sd = Some m ->
  (forall a s, In (a, s) (H m) <-> nth_error (states m) s = Some (bias_name a)) /\
  (forall a s, In (a, s) (H m) -> (a < 3)%nat /\ 0 < get3 a bias_sd /\ (s < n_states m)%nat).
Proof. intros * Hb. rewrite (built _ _ _ _ _ Hb). apply H_entries. Qed.
Print Assumptions C14_H_entries.

(* _scale_misal_data: (out, in, state) exactly when the state is named sm_<out><in> *)
Theorem C14_sm_entries : forall bias_sd noise bias_walk sm_sd m o i s,
  build bias_sd noise bias_walk sm_sd = Some m ->
  In (o, i, s) (scale_misal_data m) <-> nth_error (states m) s = Some (sm_name o i).
Proof. intros * Hb. rewrite (built _ _ _ _ _ Hb). apply sm_positions. Qed.
Print Assumptions C14_sm_entries.

(* J: one unit entry per noisy axis; v in column order *)
Theorem C14_J_entries : forall bias_sd noise bias_walk sm_sd m,
  build bias_sd noise bias_walk sm_sd = Some m ->
  (forall a c, In (a, c) (J m) <-> nth_error (enn noise) c = Some a) /\
  (forall a c, In (a, c) (J m) ->
     (a < 3)%nat /\ 0 < get3 a noise /\ nth_error (v m) c = Some (get3 a noise) /\
     (c < n_output_noises m)%nat) /\
  v m = map (fun a => get3 a noise) (enn noise).
Proof. intros * Hb. rewrite (built _ _ _ _ _ Hb). apply J_entries. Qed.
Print Assumptions C14_J_entries.

(* decoding a state's NAME (as update_estimates / get_estimates do) gives exactly the term
   which the constructor's MATRICES attach to that index *)
Theorem C14_update_decodes_layout : forall bias_sd noise bias_walk sm_sd m,
  build bias_sd noise bias_walk sm_sd = Some m ->
  forall k, (k < n_states m)%nat ->
  exists t name, created_for m k = Some t /\ valid_target t /\
                 nth_error (states m) k = Some name /\ decode name = DTarget t.
Proof. intros * Hb. rewrite (built _ _ _ _ _ Hb). apply update_decodes_layout. Qed.
Print Assumptions C14_update_decodes_layout.

(* 3. names_agree: the estimator's states and the simulator's data_frame columns *)

(* whenever the simulator's non-trivial terms are the estimator's enabled terms, the column
   list IS the state list (same names, same order) and the data_frame row is the state vector *)
Theorem C14_names_agree : forall bias_sd noise bias_walk sm_sd m p,
  build bias_sd noise bias_walk sm_sd = Some m ->
  (forall a, (a < 3)%nat -> col_bias_en p a = Qcpos (get3 a bias_sd)) ->
  (forall o i, (o < 3)%nat -> (i < 3)%nat -> col_sm_en p (o, i) = Qcpos (get33 o i sm_sd)) ->
  columns p = states m /\
  df_row p = state_vector bias_sd sm_sd (p_b p) (msub (p_T p) ident3).
Proof. intros * Hb. rewrite (built _ _ _ _ _ Hb). apply columns_states. Qed.
Print Assumptions C14_names_agree.

(* ... in particular for parameters drawn by from_EstimationModel (non-zero draws zT, zb),
   when disabling is expressed by 0 (not by a negative number) *)
Theorem C14_names_agree_from_model : forall bias_sd noise bias_walk sm_sd m zT zb,
  build bias_sd noise bias_walk sm_sd = Some m ->
  nonneg3 bias_sd -> nonneg3 bias_walk -> nonneg33 sm_sd -> nonzero3 zb -> nonzero33 zT ->
  let p := from_model bias_sd noise bias_walk sm_sd zT zb in
  columns p = states m /\
  df_row p = state_vector bias_sd sm_sd (p_b p) (msub (p_T p) ident3) /\
  bias_supported bias_sd (p_b p) /\ sm_supported sm_sd (msub (p_T p) ident3).
Proof. exact names_agree_from_model. Qed.
Print Assumptions C14_names_agree_from_model.

(* 4. output_matrix_is_error: H(r) x = (T - I) r + b = simulated noise-free reading error *)

Theorem C14_output_matrix_state_vector : forall bias_sd noise bias_walk sm_sd m r b E,
  build bias_sd noise bias_walk sm_sd = Some m ->
  bias_supported bias_sd b -> sm_supported sm_sd E ->
  mat_vec (output_matrix m r) (state_vector bias_sd sm_sd b E) = v3_list (add3 (mv3 E r) b).
Proof. intros * Hb. rewrite (built _ _ _ _ _ Hb). apply output_matrix_state_vector. Qed.
Print Assumptions C14_output_matrix_state_vector.

(* rate sensors: reading error; increment sensors: (rate error) * dt = increment error *)
Theorem C14_output_matrix_is_error : forall bias_sd noise bias_walk sm_sd m p dt r,
  build bias_sd noise bias_walk sm_sd = Some m ->
  bias_supported bias_sd (p_b p) -> sm_supported sm_sd (msub (p_T p) ident3) ->
  let x := state_vector bias_sd sm_sd (p_b p) (msub (p_T p) ident3) in
  mat_vec (output_matrix m r) x = v3_list (sub3 (sim_row p Rate dt r) r) /\
  map (fun e => e * dt) (mat_vec (output_matrix m r) x)
    = v3_list (sub3 (sim_row p Increment dt (scale3 r dt)) (scale3 r dt)).
Proof. exact output_matrix_is_error. Qed.
Print Assumptions C14_output_matrix_is_error.

(* 5. correct_undoes_apply *)

(* one update with the simulator's parameter vector makes the estimates EQUAL the parameters *)
Theorem C14_estimates_equal_parameters : forall bias_sd noise bias_walk sm_sd m T b,
  build bias_sd noise bias_walk sm_sd = Some m ->
  bias_supported bias_sd b -> sm_supported sm_sd (msub T ident3) ->
  update m (state_vector bias_sd sm_sd b (msub T ident3)) reset = Some (mk_est T b).
Proof. intros * Hb. rewrite (built _ _ _ _ _ Hb). apply estimates_equal_parameters. Qed.
Print Assumptions C14_estimates_equal_parameters.

Theorem C14_correct_undoes_apply : forall bias_sd noise bias_walk sm_sd m p dt theta,
  build bias_sd noise bias_walk sm_sd = Some m ->
  bias_supported bias_sd (p_b p) -> sm_supported sm_sd (msub (p_T p) ident3) ->
  det3 (p_T p) <> 0 ->
  exists st, update m (state_vector bias_sd sm_sd (p_b p) (msub (p_T p) ident3)) reset = Some st /\
             get_estimates m st = Some (state_vector bias_sd sm_sd (p_b p) (msub (p_T p) ident3)) /\
             correct_increments st dt (sim_row p Increment dt theta) = Some theta.
Proof. exact correct_undoes_apply. Qed.
Print Assumptions C14_correct_undoes_apply.

(* a whole record, arbitrary (irregular) time stamps: every row is recovered *)
Theorem C14_correct_undoes_apply_series : forall T b n w ts rs dts out,
  det3 T <> 0 ->
  dt_used ts = Some dts -> List.length rs = List.length ts ->
  sim_apply (mk_params T b n w) Increment ts rs = Some out ->
  map (fun d_o => correct_increments (mk_est T b) (fst d_o) (snd d_o)) (combine dts out)
  = map Some rs.
Proof. exact correct_undoes_apply_series. Qed.
Print Assumptions C14_correct_undoes_apply_series.

(* the noise-free simulator above is the complete simulator (the one compared with the code,
   streams as arrays) with both streams identically zero *)
Theorem C14_noise_free_is_full : forall p ty ts rs W N,
  sqrt_raw ts <> None ->
  Forall (fun x => x = zero3) W -> Forall (fun x => x = zero3) N ->
  List.length W = List.length ts -> List.length N = List.length ts ->
  sim_full p ty ts rs W N = sim_apply p ty ts rs.
Proof. exact sim_full_noise_free. Qed.
Print Assumptions C14_noise_free_is_full.

(* rate reading * dt = increment of the rate * dt *)
Theorem C14_rate_times_dt : forall p dt r,
  scale3 (sim_row p Rate dt r) dt = sim_row p Increment dt (scale3 r dt).
Proof. exact sim_rate_times_dt. Qed.
Print Assumptions C14_rate_times_dt.

(* the model's 3x3 solve is a solve: defined iff det <> 0, and M x = r *)
Theorem C14_solve_sound : forall M r x, solve3 M r = Some x -> mv3 M x = r.
Proof. exact solve3_sound. Qed.
Print Assumptions C14_solve_sound.

Theorem C14_solve_complete : forall M x, det3 M <> 0 -> solve3 M (mv3 M x) = Some x.
Proof. exact solve3_mv3. Qed.
Print Assumptions C14_solve_complete.

(* 6. accumulate / get_after_update *)

(* update adds x[k] to the term state k was created for; fails exactly on a length mismatch *)
Theorem C14_update_spec : forall bias_sd noise bias_walk sm_sd m x st,
  build bias_sd noise bias_walk sm_sd = Some m ->
  update m x st = if Nat.eqb (List.length x) (n_states m)
                  then Some (add_all (targets bias_sd sm_sd) x st) else None.
Proof. intros * Hb. rewrite (built _ _ _ _ _ Hb). apply update_spec. Qed.
Print Assumptions C14_update_spec.

Theorem C14_accumulate : forall bias_sd noise bias_walk sm_sd m x1 x2 st st1 st2,
  build bias_sd noise bias_walk sm_sd = Some m ->
  update m x1 st = Some st1 -> update m x2 st1 = Some st2 ->
  update m (vadd x1 x2) st = Some st2.
Proof. exact accumulate. Qed.
Print Assumptions C14_accumulate.

Theorem C14_get_update : forall bias_sd noise bias_walk sm_sd m x st st' g,
  build bias_sd noise bias_walk sm_sd = Some m ->
  get_estimates m st = Some g -> update m x st = Some st' ->
  get_estimates m st' = Some (vadd g x).
Proof. intros * Hb. rewrite (built _ _ _ _ _ Hb). apply get_update. Qed.
Print Assumptions C14_get_update.

Theorem C14_get_reset : forall bias_sd noise bias_walk sm_sd m,
  build bias_sd noise bias_walk sm_sd = Some m ->
  get_estimates m reset = Some (repeat 0 (n_states m)).
Proof. intros * Hb. rewrite (built _ _ _ _ _ Hb). apply get_reset. Qed.
Print Assumptions C14_get_reset.

Theorem C14_get_after_update : forall bias_sd noise bias_walk sm_sd m xs st',
  build bias_sd noise bias_walk sm_sd = Some m ->
  updates m xs reset = Some st' ->
  get_estimates m st' = Some (vsum (n_states m) xs).
Proof. exact get_after_update. Qed.
Print Assumptions C14_get_after_update.

Theorem C14_updates_defined : forall bias_sd noise bias_walk sm_sd m xs st,
  build bias_sd noise bias_walk sm_sd = Some m ->
  Forall (fun x => List.length x = n_states m) xs -> exists st', updates m xs st = Some st'.
Proof. intros * Hb. rewrite (built _ _ _ _ _ Hb). apply updates_defined. Qed.
Print Assumptions C14_updates_defined.

(* histories in which some updates are REJECTED (wrong length: the full 9+n filter state, a truncated
   slice, an empty vector), the caller catching the ValueError and continuing to use the model:
   a rejected update raises exactly on a length mismatch and changes nothing ... *)
Theorem C14_update_rejected : forall bias_sd noise bias_walk sm_sd m x st,
  build bias_sd noise bias_walk sm_sd = Some m ->
  (update m x st = None <-> List.length x <> n_states m) /\
  (List.length x <> n_states m -> update_or_keep m st x = st).
Proof. intros * Hb. rewrite (built _ _ _ _ _ Hb). apply update_rejected. Qed.
Print Assumptions C14_update_rejected.

(* ... so the history equals the history of the accepted calls alone ... *)
Theorem C14_history_accepted : forall bias_sd noise bias_walk sm_sd m xs st,
  build bias_sd noise bias_walk sm_sd = Some m ->
  updates m (accepted m xs) st = Some (run_history m xs st).
Proof. intros * Hb. rewrite (built _ _ _ _ _ Hb). apply run_history_accepted. Qed.
Print Assumptions C14_history_accepted.

(* ... and the estimates are the sum of the accepted vectors = ONE update with that sum *)
Theorem C14_history_accumulates : forall bias_sd noise bias_walk sm_sd m xs,
  build bias_sd noise bias_walk sm_sd = Some m ->
  get_estimates m (run_history m xs reset) = Some (vsum (n_states m) (accepted m xs)) /\
  update m (vsum (n_states m) (accepted m xs)) reset = Some (run_history m xs reset).
Proof. intros * Hb. rewrite (built _ _ _ _ _ Hb). apply history_accumulates. Qed.
Print Assumptions C14_history_accumulates.

(* 7. variances_agree *)

(* the square root used for dt ** 0.5 *)
Theorem C14_qsqrt : forall x s, qsqrt x = Some s -> s * s = x /\ 0 <= s.
Proof. exact qsqrt_spec. Qed.
Print Assumptions C14_qsqrt.

Theorem C14_sqrt_raw : forall ts sraw,
  sqrt_raw ts = Some sraw -> Forall2 (fun d s => s * s = d /\ 0 <= s) (dt_raw ts) sraw.
Proof. exact sqrt_raw_spec. Qed.
Print Assumptions C14_sqrt_raw.

(* how the two streams enter the simulated output: the k-th noise sample linearly with
   coefficient noise * noise_coef (= dt**-0.5 for rate, dt**0.5 for increment sensors) ... *)
Theorem C14_noise_enters_linearly : forall p ty dt s r bias n,
  sim_full_row p ty dt s r bias n
  = add3 (sim_full_row p ty dt s r bias zero3) (mul3 (scale3 (p_noise p) (noise_coef ty s)) n).
Proof. exact sim_full_row_noise. Qed.
Print Assumptions C14_noise_enters_linearly.

(* ... the bias with gain 1 (rate) or dt (increment) ... *)
Theorem C14_bias_enters : forall p ty dt s r bias bias' n,
  sub3 (sim_full_row p ty dt s r bias' n) (sim_full_row p ty dt s r bias n)
  = bias_term ty dt (sub3 bias' bias).
Proof. exact sim_full_row_bias. Qed.
Print Assumptions C14_bias_enters.

(* ... and the bias is a random walk: bias[0] = b, bias[k+1] - bias[k] = walk * sqrt(dt) * W[k+1]
   (the cumulative sum is present: every later sample carries all earlier steps) *)
Theorem C14_bias_walk_first : forall p ts sraw W b0,
  sqrt_raw ts = Some sraw -> nth_error (bias_series p sraw W) 0 = Some b0 -> b0 = p_b p.
Proof. exact bias_series_first. Qed.
Print Assumptions C14_bias_walk_first.

Theorem C14_bias_walk_step : forall p sraw W k b0 b1 w s,
  nth_error (bias_series p sraw W) k = Some b0 ->
  nth_error (bias_series p sraw W) (S k) = Some b1 ->
  nth_error W (S k) = Some w -> nth_error sraw (S k) = Some s ->
  sub3 b1 b0 = mul3 (p_walk p) (scale3 w s).
Proof. exact bias_series_step. Qed.
Print Assumptions C14_bias_walk_step.

(* squared coefficients of the unit-variance samples (s = sqrt dt) *)
Theorem C14_sim_variances : forall (noise_a walk_a : Qc) dt s,
  s * s = dt -> dt <> 0 ->
  sq (noise_a * noise_coef Rate s * dt) = sq noise_a * dt /\
  sq (noise_a * noise_coef Increment s) = sq noise_a * dt /\
  sq (noise_a * noise_coef Rate s) = sq noise_a / dt /\
  sq (walk_a * s) = sq walk_a * dt.
Proof. exact sim_variances. Qed.
Print Assumptions C14_sim_variances.

(* the covariance rates of the estimator: J v^2 J^T and G q^2 G^T *)
Theorem C14_JvJ : forall bias_sd noise bias_walk sm_sd m,
  build bias_sd noise bias_walk sm_sd = Some m ->
  (forall a, (a < 3)%nat -> 0 < get3 a noise -> JvJ m a a = sq (get3 a noise)) /\
  (forall a a', a <> a' -> JvJ m a a' = 0) /\
  (forall a a', ~ ((a < 3)%nat /\ 0 < get3 a noise) -> JvJ m a a' = 0).
Proof. intros * Hb. rewrite (built _ _ _ _ _ Hb). apply JvJ_spec. Qed.
Print Assumptions C14_JvJ.

Theorem C14_GqG : forall bias_sd noise bias_walk sm_sd m,
  build bias_sd noise bias_walk sm_sd = Some m ->
  (forall a, (a < 3)%nat -> 0 < get3 a bias_sd -> 0 < get3 a bias_walk ->
     nth_error (states m) (bias_rank bias_sd a) = Some (bias_name a) /\
     GqG m (bias_rank bias_sd a) (bias_rank bias_sd a) = sq (get3 a bias_walk)) /\
  (forall k k', k <> k' -> GqG m k k' = 0) /\
  (forall k k', (forall a, nth_error (states m) k = Some (bias_name a) -> ~ 0 < get3 a bias_walk) ->
     GqG m k k' = 0).
Proof. intros * Hb. rewrite (built _ _ _ _ _ Hb). apply GqG_spec. Qed.
Print Assumptions C14_GqG.

(* simulated white noise integrated over dt (both sensor types) and the simulated bias increment
   over dt have exactly the variances J v^2 J^T dt and G q^2 G^T dt the estimator assumes, when
   the simulator is given the model's noise and bias_walk (as from_EstimationModel does) *)
Theorem C14_variances_agree : forall bias_sd noise bias_walk sm_sd m dt s a,
  build bias_sd noise bias_walk sm_sd = Some m ->
  nonneg3 noise -> nonneg3 bias_walk ->
  s * s = dt -> dt <> 0 -> (a < 3)%nat ->
  sq (get3 a noise * noise_coef Rate s * dt) = JvJ m a a * dt /\
  sq (get3 a noise * noise_coef Increment s) = JvJ m a a * dt /\
  (0 < get3 a bias_sd ->
   sq (get3 a bias_walk * s) = GqG m (bias_rank bias_sd a) (bias_rank bias_sd a) * dt).
Proof. exact variances_agree. Qed.
Print Assumptions C14_variances_agree.

(* Non-vacuity: one concrete non-trivial configuration satisfying every hypothesis above.
   bias on x, z (walk on z), noise on y, z, scale/misalignment xy, yx, zz; negative entries
   disable like zeros. *)

Definition ex_bias_sd : V3 Qc := dy3 8 4 (-1) 2.
Definition ex_noise : V3 Qc := dy3 8 0 1 3.
Definition ex_walk : V3 Qc := dy3 8 0 0 5.
Definition ex_sm_sd : M3 := dy33 16 0 1 0 2 0 (-3) 0 0 4.
(* simulator parameters supported on the enabled entries *)
Definition ex_b : V3 Qc := dy3 8 3 0 (-2).
Definition ex_T : M3 := dy33 16 16 3 0 (-2) 16 0 0 0 20.
Definition ex_p : params := mk_params ex_T ex_b ex_noise ex_walk.
Definition ex_ts : list Qc := [dy 16 0; dy 16 4; dy 16 5; dy 16 21].     (* dt = 1/4, 1/16, 1 *)
Definition ex_rs : list (V3 Qc) := [dy3 8 1 2 3; dy3 8 (-4) 5 6; dy3 8 7 (-8) 9; dy3 8 1 1 1].

Example C14_ex_build :
  exists m, build ex_bias_sd ex_noise ex_walk ex_sm_sd = Some m /\
    states m = ["bias_x"; "bias_z"; "sm_xy"; "sm_yx"; "sm_zz"]%string /\
    n_states m = 5%nat /\ n_noises m = 1%nat /\ n_output_noises m = 2%nat /\
    G m = [(1, 0)]%nat /\ H m = [(0, 0); (2, 1)]%nat /\ J m = [(1, 0); (2, 1)]%nat /\
    scale_misal_data m = [(0, 1, 2); (1, 0, 3); (2, 2, 4)]%nat.
Proof. eexists. split; [vm_compute; reflexivity|]. vm_compute. repeat split. Qed.

Example C14_ex_walk_rejected :
  build (dy3 8 4 0 2) ex_noise (dy3 8 0 1 0) ex_sm_sd = None /\
  build (dy3 8 4 (-1) 2) ex_noise (dy3 8 0 0 (-1)) ex_sm_sd <> None.
Proof. split; [vm_compute; reflexivity|vm_compute; discriminate]. Qed.

Example C14_ex_supported :
  bias_supported ex_bias_sd ex_b /\ sm_supported ex_sm_sd (msub ex_T ident3) /\
  det3 ex_T <> 0 /\
  nonneg3 ex_noise /\ nonneg3 ex_walk.
Proof.
  split; [|split; [|split; [|split]]].
  - intros a Ha Hp. destruct a as [|[|[|a]]]; [| | |exfalso; lia];
      first [vm_compute in Hp; discriminate Hp|apply Qc_is_canon; reflexivity].
  - intros o i Ho Hi Hp.
    destruct o as [|[|[|o]]]; [| | |exfalso; lia]; (destruct i as [|[|[|i]]]; [| | |exfalso; lia]);
      first [vm_compute in Hp; discriminate Hp|apply Qc_is_canon; reflexivity].
  - intro E. apply (f_equal this) in E. vm_compute in E. discriminate E.
  - intros a Ha. destruct a as [|[|[|a]]]; [| | |exfalso; lia]; vm_compute; discriminate.
  - intros a Ha. destruct a as [|[|[|a]]]; [| | |exfalso; lia]; vm_compute; discriminate.
Qed.

(* the masks of the example simulator parameters are the estimator's (hypotheses of names_agree) *)
Example C14_ex_names :
  (forall a, (a < 3)%nat -> col_bias_en ex_p a = Qcpos (get3 a ex_bias_sd)) /\
  (forall o i, (o < 3)%nat -> (i < 3)%nat -> col_sm_en ex_p (o, i) = Qcpos (get33 o i ex_sm_sd)) /\
  columns ex_p = ["bias_x"; "bias_z"; "sm_xy"; "sm_yx"; "sm_zz"]%string.
Proof.
  split; [|split; [|vm_compute; reflexivity]].
  - intros a Ha. destruct a as [|[|[|a]]]; [| | |exfalso; lia]; vm_compute; reflexivity.
  - intros o i Ho Hi.
    destruct o as [|[|[|o]]]; [| | |exfalso; lia]; (destruct i as [|[|[|i]]]; [| | |exfalso; lia]);
      vm_compute; reflexivity.
Qed.

(* undo, H x = error, accumulation and read-back on the example, irregular stamps, both types *)
Example C14_ex_run :
  match build ex_bias_sd ex_noise ex_walk ex_sm_sd with
  | None => False
  | Some m =>
      let x := state_vector ex_bias_sd ex_sm_sd ex_b (msub ex_T ident3) in
      let x1 := map (dy 8) [1; 2; 3; 4; 5]%Z in
      let x2 := map (dy 8) [-2; 0; 7; 1; 1]%Z in
      let zeros := map (fun _ => zero3) ex_ts in
      list_eqb Qc_eqb x (map (dy 16) [6; -4; 3; -2; 4]%Z) = true /\
      opt_eqb (fun a b => M3_eqb (e_T a) (e_T b) && V3_eqb (e_b a) (e_b b))
              (update m x reset) (Some (mk_est ex_T ex_b)) = true /\
      sqrt_raw ex_ts <> None /\
      opt_eqb (list_eqb Qc_eqb) (dt_used ex_ts) (Some (map (dy 16) [4; 4; 1; 16]%Z)) = true /\
      (* rate: H(r) x = out - r on every row *)
      opt_eqb (list_eqb (list_eqb Qc_eqb))
        (option_map (fun out => map (fun o_r => v3_list (sub3 (fst o_r) (snd o_r))) (combine out ex_rs))
                    (sim_full ex_p Rate ex_ts ex_rs zeros zeros))
        (Some (map (fun r => mat_vec (output_matrix m r) x) ex_rs)) = true /\
      (* increment: correct_increments recovers every row *)
      match sim_full ex_p Increment ex_ts ex_rs zeros zeros, dt_used ex_ts with
      | Some out, Some dts =>
          list_eqb (opt_eqb V3_eqb)
            (map (fun d_o => correct_increments (mk_est ex_T ex_b) (fst d_o) (snd d_o)) (combine dts out))
            (map Some ex_rs) = true
      | _, _ => False
      end /\
      (* accumulation and read-back *)
      match updates m [x1; x2] reset, update m (vadd x1 x2) reset with
      | Some s2, Some s12 =>
          M3_eqb (e_T s2) (e_T s12) && V3_eqb (e_b s2) (e_b s12) = true /\
          opt_eqb (list_eqb Qc_eqb) (get_estimates m s2) (Some (map (dy 8) [-1; 2; 10; 5; 6]%Z)) = true
      | _, _ => False
      end
  end.
Proof. vm_compute. repeat split; try reflexivity; discriminate. Qed.

(* a history with rejected updates on the example model (5 states): too long, too short, empty *)
Example C14_ex_history :
  match build ex_bias_sd ex_noise ex_walk ex_sm_sd with
  | None => False
  | Some m =>
      let x1 := map (dy 8) [1; 2; 3; 4; 5]%Z in
      let x2 := map (dy 8) [-2; 0; 7; 1; 1]%Z in
      let long := map (dy 8) [9; 9; 9; 9; 9; 9; 9; 9; 9; 9; 9; 9; 9; 9]%Z in
      let h := [x1; long; map (dy 8) [5; 5]%Z; []; x2; long] in
      list_eqb (list_eqb Qc_eqb) (accepted m h) [x1; x2] = true /\
      update m long reset = None /\ update m [] reset = None /\
      opt_eqb (list_eqb Qc_eqb) (get_estimates m (run_history m h reset))
              (Some (map (dy 8) [-1; 2; 10; 5; 6]%Z)) = true
  end.
Proof. vm_compute. repeat split; reflexivity. Qed.

(* variances on the example: dt = 1/16 with root 1/4; noisy axis z, walking axis z *)
Example C14_ex_variances :
  qsqrt (dy 16 1) = Some (dy 4 1) /\ dy 4 1 * dy 4 1 = dy 16 1 /\ dy 16 1 <> 0 /\
  match build ex_bias_sd ex_noise ex_walk ex_sm_sd with
  | None => False
  | Some m =>
      Qc_eqb (JvJ m 2 2) (sq (dy 8 3)) = true /\ Qc_eqb (JvJ m 0 0) 0 = true /\
      Qc_eqb (GqG m 1 1) (sq (dy 8 5)) = true /\ Qc_eqb (GqG m 0 0) 0 = true /\
      bias_rank ex_bias_sd 2 = 1%nat
  end.
Proof.
  split; [vm_compute; reflexivity|]. split; [apply Qc_is_canon; reflexivity|].
  split; [intro E; apply (f_equal this) in E; vm_compute in E; discriminate E|].
  vm_compute. repeat split.
Qed.

(* the complete simulator with non-zero streams: bias walk accumulates, first sample = bias *)
Example C14_ex_walk_series :
  match sqrt_raw ex_ts with
  | None => False
  | Some sraw =>
      list_eqb Qc_eqb sraw (map (dy 4) [0; 2; 1; 4]%Z) = true /\
      list_eqb V3_eqb
        (bias_series ex_p sraw [dy3 8 8 8 8; dy3 8 8 8 8; dy3 8 (-8) 8 16; dy3 8 0 0 8])
        [dy3 256 96 0 (-64); dy3 256 96 0 16; dy3 256 96 0 96; dy3 256 96 0 256] = true
  end.
Proof. vm_compute. split; reflexivity. Qed.
