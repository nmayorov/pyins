(* C18 — State differencing, resampling and perturbation obey their algebra.

   (T) util.to_180_range: theorems about the GENERATED definitions in Gen/Util.v
       ([to_180_range_r] scalar code path, [to_180_range_arr_r] ndarray / pandas code
       path; Python float [%] is [pymod]).  Proofs: Proofs/To180Proofs.v.
   (K) transform.resample_state / compute_state_difference: Model/StateDiff.v (tables as
       column labels + rows [(time, values)] over Q; labels 0,1,2 = roll,pitch,heading,
       3,4,5 = lat,lon,alt).  Proofs: Proofs/StateDiffProofs.v.  The model is tied to the
       code by tools/props/C18.py (same generated table pairs through both).

   External behaviour that enters as EXPLICIT PREMISES of the theorems below:
     ang, slerp   the composite from_euler('xyz') -> scipy Slerp on one interval -> as_euler;
     comp         reading component k (degrees) of its result;
     canon        the Euler triples that as_euler returns unchanged;
     slerp a b s at s == 0 is a, at s == 1 is b   (the two hypotheses spelled out each time);
     rn, rp       earth.principal_radii (north radius, parallel radius) — uninterpreted.
   Real-number semantics: [dvalR] of a difference cell, [valR] of a resampled cell; binary64
   rounding is not modelled (finding rph-self-diff-rounding lives exactly there).

   Preconditions mirrored from the code: [well_formed] = at least two rows and strictly
   increasing stamps (scipy interp1d / Slerp raise otherwise).

   Recorded findings, visible here as hypotheses and exhibited as Examples:
     subsample-equal-median-nonzero, subsample-smaller-median-nonzero  -> hypotheses
         [median_dt a < median_dt b] / [<=] of C18_diff_subsample_zero, witnesses below;
     equal-median-index-mismatch -> C18_diff_antisymmetric needs different medians; with equal
         medians only the common stamps are antisymmetric (C18_diff_antisymmetric_common_stamp);
     rph-self-diff-rounding -> not a statement over the reals (implementation only).
   NOT proved here: that the recovered perturbation is first-order close to the injected one
   (only the exact algebraic form, C18_perturb_recovered_partial; the closeness of the radii
   ratio to 1 is checked numerically), and that scipy's Slerp is the shortest-arc geodesic. *)
From Coq Require Import List QArith Reals Qreals Bool Permutation.
From PV Require Import Spec.LibSpecs Gen.Util Model.StateDiff Proofs.To180Proofs
  Proofs.StateDiffProofs.
Import ListNotations.

(* 1. angle reduction: every real angle goes to the congruent value in (-180, 180] *)

Theorem C18_to180_range_congruent : forall x : R,
  (-180 < to_180_range_r x <= 180)%R /\ exists k : Z, x = (to_180_range_r x + 360 * IZR k)%R.
Proof. exact to180_range_congruent. Qed.
Print Assumptions C18_to180_range_congruent.

Theorem C18_to180_array_range_congruent : forall x : R,
  (-180 < to_180_range_arr_r x <= 180)%R /\
  exists k : Z, x = (to_180_range_arr_r x + 360 * IZR k)%R.
Proof. exact to180_arr_range_congruent. Qed.
Print Assumptions C18_to180_array_range_congruent.

(* the scalar and the ndarray/pandas code paths are the same function *)
Theorem C18_to180_scalar_eq_array : forall x : R, to_180_range_r x = to_180_range_arr_r x.
Proof. exact to180_scalar_eq_array. Qed.
Print Assumptions C18_to180_scalar_eq_array.

(* it is THE representative: any r in (-180,180] congruent to x is the result *)
Theorem C18_to180_unique : forall (x r : R) (k : Z),
  (-180 < r <= 180)%R -> x = (r + 360 * IZR k)%R -> to_180_range_r x = r.
Proof. exact to180_unique. Qed.
Print Assumptions C18_to180_unique.

Example C18_to180_endpoints :
  to_180_range_r 180 = 180%R /\ to_180_range_r (- 180) = 180%R.
Proof. exact to180_neg_endpoint. Qed.

Example C18_to180_540 : to_180_range_r 540 = 180%R.
Proof. exact to180_at_540. Qed.

Example C18_to180_190 : to_180_range_arr_r 190 = (-170)%R.
Proof. exact to180_at_190. Qed.

(* 2. antisymmetry of the difference *)

(* 2a. Different median sampling intervals (whichever table is denser): exactly one of
   the two calls swaps its operands; same columns in the same order, same stamps, every
   cell negated — except an angle cell equal to 180, which is 180 in both orders
   ([table_antisym] / [cell_antisym] / [antisymR] spell this out). *)
Theorem C18_diff_antisymmetric :
  forall (ang : Type) (slerp : Q * Q * Q -> Q * Q * Q -> Q -> ang)
         (comp : nat -> ang -> R) (rn rp : R -> R -> R) (a b : table),
  ~ median_dt a == median_dt b ->
  table_antisym ang comp rn rp (state_diff ang slerp a b) (state_diff ang slerp b a).
Proof. exact diff_antisym_swap. Qed.
Print Assumptions C18_diff_antisymmetric.

(* 2b. Equal medians (no swap in either order): antisymmetric on every stamp both
   tables have, column by column (label-based: each result keeps the column order of
   its own first argument).  Stamps of only one table: finding equal-median-index-mismatch. *)
Theorem C18_diff_antisymmetric_common_stamp :
  forall (ang : Type) (slerp : Q * Q * Q -> Q * Q * Q -> Q -> ang)
         (comp : nat -> ang -> R) (canon : Q * Q * Q -> Prop) (rn rp : R -> R -> R),
  (forall (a b : Q * Q * Q) (s : Q) (k : nat),
     canon a -> s == 0 -> comp k (slerp a b s) = Q2R (tcomp k a)) ->
  (forall (a b : Q * Q * Q) (s : Q) (k : nat),
     canon b -> s == 1 -> comp k (slerp a b s) = Q2R (tcomp k b)) ->
  forall (a b : table) (t : Q) (ra rb : list Q),
  well_formed a -> well_formed b -> canon_table canon a -> canon_table canon b ->
  median_dt a == median_dt b ->
  In (t, ra) (rows a) -> In (t, rb) (rows b) ->
  exists cells1 cells2 : list (dval ang),
    In (t, cells1) (d_rows (state_diff ang slerp a b)) /\
    In (t, cells2) (d_rows (state_diff ang slerp b a)) /\
    forall c : nat, In c (cols a) -> In c (cols b) ->
      cell_antisym ang comp rn rp
        (get (DQ 0) (d_cols (state_diff ang slerp a b)) cells1 c)
        (get (DQ 0) (d_cols (state_diff ang slerp b a)) cells2 c).
Proof. exact diff_antisym_common_stamp. Qed.
Print Assumptions C18_diff_antisymmetric_common_stamp.

(* 2c. Equal index: both results carry exactly that index and every row is antisymmetric. *)
Theorem C18_diff_antisymmetric_equal_index :
  forall (ang : Type) (slerp : Q * Q * Q -> Q * Q * Q -> Q -> ang)
         (comp : nat -> ang -> R) (canon : Q * Q * Q -> Prop) (rn rp : R -> R -> R),
  (forall (a b : Q * Q * Q) (s : Q) (k : nat),
     canon a -> s == 0 -> comp k (slerp a b s) = Q2R (tcomp k a)) ->
  (forall (a b : Q * Q * Q) (s : Q) (k : nat),
     canon b -> s == 1 -> comp k (slerp a b s) = Q2R (tcomp k b)) ->
  forall a b : table,
  well_formed a -> well_formed b -> canon_table canon a -> canon_table canon b ->
  times a = times b ->
  map fst (d_rows (state_diff ang slerp a b)) = times a /\
  map fst (d_rows (state_diff ang slerp b a)) = times a /\
  forall (t : Q) (ra : list Q), In (t, ra) (rows a) ->
    exists (rb : list Q) (cells1 cells2 : list (dval ang)),
      In (t, rb) (rows b) /\
      In (t, cells1) (d_rows (state_diff ang slerp a b)) /\
      In (t, cells2) (d_rows (state_diff ang slerp b a)) /\
      forall c : nat, In c (cols a) -> In c (cols b) ->
        cell_antisym ang comp rn rp
          (get (DQ 0) (d_cols (state_diff ang slerp a b)) cells1 c)
          (get (DQ 0) (d_cols (state_diff ang slerp b a)) cells2 c).
Proof. exact diff_antisym_equal_index. Qed.
Print Assumptions C18_diff_antisymmetric_equal_index.

(* 2d. two Series with the same labels *)
Theorem C18_series_diff_antisymmetric :
  forall (ang : Type) (comp : nat -> ang -> R) (rn rp : R -> R -> R)
         (cs : list nat) (r1 r2 : list Q) (c : nat),
  In c cs ->
  cell_antisym ang comp rn rp (get (DQ 0) cs (series_diff ang cs r1 r2) c)
                              (get (DQ 0) cs (series_diff ang cs r2 r1) c).
Proof. exact series_diff_antisym. Qed.
Print Assumptions C18_series_diff_antisymmetric.

(* the exception is real: 100 deg against -80 deg is +180 in both orders *)
Example C18_angle_180_both_orders :
  to_180_range_arr_r (1 * (100 - -80)) = 180%R /\ to_180_range_arr_r (-1 * (100 - -80)) = 180%R.
Proof. exact angle_180_both_orders. Qed.

(* finding equal-median-index-mismatch exhibited in the model *)
Example C18_equal_median_index_mismatch_witness :
  forall (ang : Type) (slerp : Q * Q * Q -> Q * Q * Q -> Q -> ang),
  wf_table f3_a = true /\ wf_table f3_b = true /\ median_dt f3_a == median_dt f3_b /\
  map fst (d_rows (state_diff ang slerp f3_a f3_b)) = [1; 2; 3] /\
  map fst (d_rows (state_diff ang slerp f3_b f3_a)) = [1 # 2; 3 # 2; 5 # 2].
Proof. exact equal_median_index_mismatch_witness. Qed.

(* 3. exactly zero against itself / a sub-sampling (over the reals) *)

Theorem C18_diff_self_zero :
  forall (ang : Type) (slerp : Q * Q * Q -> Q * Q * Q -> Q -> ang)
         (comp : nat -> ang -> R) (canon : Q * Q * Q -> Prop) (rn rp : R -> R -> R),
  (forall (a b : Q * Q * Q) (s : Q) (k : nat),
     canon a -> s == 0 -> comp k (slerp a b s) = Q2R (tcomp k a)) ->
  (forall (a b : Q * Q * Q) (s : Q) (k : nat),
     canon b -> s == 1 -> comp k (slerp a b s) = Q2R (tcomp k b)) ->
  forall a : table,
  well_formed a -> canon_table canon a ->
  zero_table ang comp rn rp (state_diff ang slerp a a) (cols a) (times a).
Proof. exact diff_self_zero. Qed.
Print Assumptions C18_diff_self_zero.

(* [a] the full table, [b] a sub-sampling ([subsample b a]: same columns, every row of b is
   a row of a).  Zero, on b's stamps, exactly when the code takes [a] for the denser table;
   without the median hypotheses the statement is false (witnesses below). *)
Theorem C18_diff_subsample_zero :
  forall (ang : Type) (slerp : Q * Q * Q -> Q * Q * Q -> Q -> ang)
         (comp : nat -> ang -> R) (canon : Q * Q * Q -> Prop) (rn rp : R -> R -> R),
  (forall (a b : Q * Q * Q) (s : Q) (k : nat),
     canon a -> s == 0 -> comp k (slerp a b s) = Q2R (tcomp k a)) ->
  (forall (a b : Q * Q * Q) (s : Q) (k : nat),
     canon b -> s == 1 -> comp k (slerp a b s) = Q2R (tcomp k b)) ->
  forall a b : table,
  well_formed a -> well_formed b -> canon_table canon a -> subsample b a ->
  (median_dt a < median_dt b ->
     zero_table ang comp rn rp (state_diff ang slerp a b) (cols b) (times b)) /\
  (median_dt a <= median_dt b ->
     zero_table ang comp rn rp (state_diff ang slerp b a) (cols b) (times b)).
Proof. exact diff_subsample_zero. Qed.
Print Assumptions C18_diff_subsample_zero.

(* finding subsample-equal-median-nonzero: VN = t^2 at t = 0..6 against the same table
   without t = 4 -> -1 at t = 4 (for every slerp: the tables have no attitude) *)
Example C18_subsample_equal_median_refuted :
  forall (ang : Type) (slerp : Q * Q * Q -> Q * Q * Q -> Q -> ang)
         (comp : nat -> ang -> R) (rn rp : R -> R -> R),
  wf_table f1_full = true /\ wf_table f1_sub = true /\ subsample f1_sub f1_full /\
  median_dt f1_full == median_dt f1_sub /\
  exists q, In (4, [DQ q]) (d_rows (state_diff ang slerp f1_full f1_sub)) /\
            dvalR ang comp rn rp (DQ q) = (-1)%R.
Proof. exact subsample_equal_median_witness. Qed.

(* finding subsample-smaller-median-nonzero: t = 0,1,2,12,22,32 against rows 0,1,2,32 ->
   -2 at t = 12 (and +2 in the opposite order) *)
Example C18_subsample_smaller_median_refuted :
  forall (ang : Type) (slerp : Q * Q * Q -> Q * Q * Q -> Q -> ang)
         (comp : nat -> ang -> R) (rn rp : R -> R -> R),
  wf_table f2_full = true /\ wf_table f2_sub = true /\ subsample f2_sub f2_full /\
  median_dt f2_sub < median_dt f2_full /\
  (exists q, In (12, [DQ q]) (d_rows (state_diff ang slerp f2_full f2_sub)) /\
             dvalR ang comp rn rp (DQ q) = (-2)%R) /\
  (exists q, In (12, [DQ q]) (d_rows (state_diff ang slerp f2_sub f2_full)) /\
             dvalR ang comp rn rp (DQ q) = 2%R).
Proof. exact subsample_smaller_median_witness. Qed.

(* 4. range of the reported angle differences; what every cell is (NED metres) *)

Theorem C18_diff_angle_range :
  forall (ang : Type) (slerp : Q * Q * Q -> Q * Q * Q -> Q -> ang)
         (comp : nat -> ang -> R) (rn rp : R -> R -> R)
         (a b : table) (r : Q * list (dval ang)) (x : dval ang),
  In r (d_rows (state_diff ang slerp a b)) -> In x (snd r) ->
  is_angle ang x = true -> (-180 < dvalR ang comp rn rp x <= 180)%R.
Proof.
  intros ang slerp comp rn rp a b r x _ _ H. destruct x as [q | sg f s | k d' mlat malt]; try discriminate.
  cbn [dvalR]. apply to180_arr_range_congruent.
Qed.
Print Assumptions C18_diff_angle_range.

(* [operands a b] = (sign, first, second) after the swap.  Columns: the common ones in the
   order of [first]; index: [first]'s stamps inside the span of [second]; each cell is
   [ideal] (unfolded by the five theorems that follow) of [first]'s row and of [second]
   interpolated at the stamp. *)
Theorem C18_diff_cells :
  forall (ang : Type) (slerp : Q * Q * Q -> Q * Q * Q -> Q -> ang)
         (comp : nat -> ang -> R) (rn rp : R -> R -> R) (a b : table),
  incr (times a) -> incr (times b) ->
  let sign := fst (fst (operands a b)) in
  let f := snd (fst (operands a b)) in
  let s := snd (operands a b) in
  let C := col_inter (cols f) (cols s) in
  d_cols (state_diff ang slerp a b) = C /\
  map fst (d_rows (state_diff ang slerp a b)) = filter (in_span s) (times f) /\
  forall row : Q * list (dval ang), In row (d_rows (state_diff ang slerp a b)) ->
    exists rf : list Q,
      In (fst row, rf) (rows f) /\ length (snd row) = length C /\
      forall c : nat, In c C ->
        is_angle ang (get (DQ 0) C (snd row) c) = has_all rph_cols C && is_rph c /\
        dvalR ang comp rn rp (get (DQ 0) C (snd row) c)
        = ideal rn rp (Q2R sign) (has_all lla_cols C) (has_all rph_cols C) c
            (fun c0 : nat => Q2R (get 0 (cols f) rf c0))
            (fun c0 : nat =>
               valR ang comp (get (VQ 0) C (interp_row ang slerp (select C s) (fst row)) c0)).
Proof. exact diff_cells. Qed.
Print Assumptions C18_diff_cells.

Theorem C18_cell_north : forall (rn rp : R -> R -> R) (sg : R) (rph : bool) (fv sv : nat -> R),
  ideal rn rp sg true rph c_lat fv sv
  = (sg * (fv c_lat - sv c_lat)
     * (rn ((fv c_lat + sv c_lat) / 2) ((fv c_alt + sv c_alt) / 2) * (PI / 180)))%R.
Proof. exact ideal_north. Qed.
Print Assumptions C18_cell_north.

Theorem C18_cell_east : forall (rn rp : R -> R -> R) (sg : R) (rph : bool) (fv sv : nat -> R),
  ideal rn rp sg true rph c_lon fv sv
  = (sg * (fv c_lon - sv c_lon)
     * (rp ((fv c_lat + sv c_lat) / 2) ((fv c_alt + sv c_alt) / 2) * (PI / 180)))%R.
Proof. exact ideal_east. Qed.
Print Assumptions C18_cell_east.

Theorem C18_cell_down : forall (rn rp : R -> R -> R) (sg : R) (rph : bool) (fv sv : nat -> R),
  ideal rn rp sg true rph c_alt fv sv = (- (sg * (fv c_alt - sv c_alt)))%R.
Proof. exact ideal_down. Qed.
Print Assumptions C18_cell_down.

Theorem C18_cell_attitude :
  forall (rn rp : R -> R -> R) (sg : R) (lla : bool) (c : nat) (fv sv : nat -> R),
  is_rph c = true ->
  ideal rn rp sg lla true c fv sv = to_180_range_arr_r (sg * (fv c - sv c)).
Proof. exact ideal_attitude. Qed.
Print Assumptions C18_cell_attitude.

Theorem C18_cell_plain :
  forall (rn rp : R -> R -> R) (sg : R) (lla rph : bool) (c : nat) (fv sv : nat -> R),
  rph && is_rph c = false -> lla && is_lla c = false ->
  ideal rn rp sg lla rph c fv sv = (sg * (fv c - sv c))%R.
Proof. exact ideal_plain. Qed.
Print Assumptions C18_cell_plain.

Theorem C18_series_diff_cells :
  forall (ang : Type) (comp : nat -> ang -> R) (rn rp : R -> R -> R)
         (cs : list nat) (r1 r2 : list Q) (c : nat),
  In c cs ->
  is_angle ang (get (DQ 0) cs (series_diff ang cs r1 r2) c) = has_all rph_cols cs && is_rph c /\
  dvalR ang comp rn rp (get (DQ 0) cs (series_diff ang cs r1 r2) c)
  = ideal rn rp 1 (has_all lla_cols cs) (has_all rph_cols cs) c
      (fun c0 : nat => Q2R (get 0 cs r1 c0)) (fun c0 : nat => Q2R (get 0 cs r2 c0)).
Proof. exact series_diff_cells. Qed.
Print Assumptions C18_series_diff_cells.

(* 5. resampling *)

(* column order kept *)
Theorem C18_resample_cols :
  forall (ang : Type) (slerp : Q * Q * Q -> Q * Q * Q -> Q -> ang) (st : table) (ts : list Q),
  r_cols (resample_state ang slerp st ts) = cols st.
Proof. exact resample_cols. Qed.
Print Assumptions C18_resample_cols.

(* output sorted; exactly the requested times inside the span (with multiplicity),
   times outside the span dropped *)
Theorem C18_resample_index :
  forall (ang : Type) (slerp : Q * Q * Q -> Q * Q * Q -> Q -> ang) (st : table) (ts : list Q),
  sorted (map fst (r_rows (resample_state ang slerp st ts))) /\
  Permutation (filter (in_span st) ts) (map fst (r_rows (resample_state ang slerp st ts))) /\
  forall t : Q, In t (map fst (r_rows (resample_state ang slerp st ts))) <->
                In t ts /\ first_time st <= t <= last_time st.
Proof. exact resample_index. Qed.
Print Assumptions C18_resample_index.

Theorem C18_resample_row :
  forall (ang : Type) (slerp : Q * Q * Q -> Q * Q * Q -> Q -> ang)
         (st : table) (ts : list Q) (t : Q) (row : list (val ang)),
  In (t, row) (r_rows (resample_state ang slerp st ts)) ->
  row = interp_row ang slerp st t /\ length row = length (cols st).
Proof. exact resample_row. Qed.
Print Assumptions C18_resample_row.

(* original rows at original times *)
Theorem C18_resample_at_knot :
  forall (ang : Type) (slerp : Q * Q * Q -> Q * Q * Q -> Q -> ang)
         (comp : nat -> ang -> R) (canon : Q * Q * Q -> Prop),
  (forall (a b : Q * Q * Q) (s : Q) (k : nat),
     canon a -> s == 0 -> comp k (slerp a b s) = Q2R (tcomp k a)) ->
  (forall (a b : Q * Q * Q) (s : Q) (k : nat),
     canon b -> s == 1 -> comp k (slerp a b s) = Q2R (tcomp k b)) ->
  forall (st : table) (ts : list Q) (t0 : Q) (r0 : list Q),
  well_formed st -> canon_table canon st -> In (t0, r0) (rows st) -> In t0 ts ->
  In (t0, interp_row ang slerp st t0) (r_rows (resample_state ang slerp st ts)) /\
  (forall c : nat, In c (cols st) ->
     valR ang comp (get (VQ 0) (cols st) (interp_row ang slerp st t0) c)
     = Q2R (get 0 (cols st) r0 c)) /\
  (NoDup (cols st) -> length r0 = length (cols st) ->
     map (valR ang comp) (interp_row ang slerp st t0) = map Q2R r0).
Proof. exact resample_at_knot. Qed.
Print Assumptions C18_resample_at_knot.

(* linear elsewhere; attitude is slerp of the two bracketing rows at a parameter in [0,1] *)
Theorem C18_resample_between :
  forall (ang : Type) (slerp : Q * Q * Q -> Q * Q * Q -> Q -> ang) (st : table) (t : Q),
  well_formed st -> in_span st t = true ->
  exists (pre : list (Q * list Q)) (lo hi : Q * list Q) (post : list (Q * list Q)),
    rows st = pre ++ lo :: hi :: post /\
    fst lo <= t <= fst hi /\ fst lo < fst hi /\
    0 <= w_hi t (fst lo) (fst hi) <= 1 /\
    forall c : nat, In c (cols st) ->
      (has_all rph_cols (cols st) && is_rph c = false ->
         exists q : Q,
           get (VQ 0) (cols st) (interp_row ang slerp st t) c = VQ q /\
           q == get 0 (cols st) (snd lo) c
                + (t - fst lo) / (fst hi - fst lo)
                  * (get 0 (cols st) (snd hi) c - get 0 (cols st) (snd lo) c)) /\
      (has_all rph_cols (cols st) && is_rph c = true ->
         get (VQ 0) (cols st) (interp_row ang slerp st t) c
         = VA c (slerp (rph_of (cols st) (snd lo)) (rph_of (cols st) (snd hi))
                       (w_hi t (fst lo) (fst hi)))).
Proof. exact resample_between. Qed.
Print Assumptions C18_resample_between.

(* 6. perturbation recovered — PARTIAL.
   Full statement (not proved in Coq; checked numerically by the harness with margin 1e-3):
     compute_state_difference(perturb_pva(pva, e), pva) = e + O(|e|^2 / R).
   Proved: the exact algebraic form of what is reported; the first-order claim is that
   rn(mean)/rn(original) and rp(mean)/rp(original) are 1 + O(|e| / R). *)
Theorem C18_perturb_recovered_partial :
  forall (rn rp : R -> R -> R) (lat alt dn de dd mlat malt x e : R),
  rn lat alt <> 0%R -> rp lat alt <> 0%R ->
  metres rn rp c_lat (1 * (lat + dn / rn lat alt * (180 / PI) - lat)) mlat malt
    = (dn * (rn mlat malt / rn lat alt))%R /\
  metres rn rp c_lon (1 * (x + de / rp lat alt * (180 / PI) - x)) mlat malt
    = (de * (rp mlat malt / rp lat alt))%R /\
  metres rn rp c_alt (1 * (alt - dd - alt)) mlat malt = dd /\
  (1 * (x + e - x))%R = e /\
  ((-180 < e <= 180)%R -> to_180_range_arr_r (1 * (x + e - x)) = e).
Proof. exact perturb_recovered_partial. Qed.
Print Assumptions C18_perturb_recovered_partial.

(* non-vacuity: the scipy premises are satisfiable (componentwise-linear instance), and
   with them the table hypotheses of the theorems above hold jointly on a table with
   position, velocity and attitude columns and its sub-sampling *)
Example C18_slerp_premises_satisfiable :
  (forall (a b : Q * Q * Q) (s : Q) (k : nat),
     any_triple a -> s == 0 -> lin_comp k (lin3 a b s) = Q2R (tcomp k a)) /\
  (forall (a b : Q * Q * Q) (s : Q) (k : nat),
     any_triple b -> s == 1 -> lin_comp k (lin3 a b s) = Q2R (tcomp k b)).
Proof. exact (conj lin3_start lin3_end). Qed.

Example C18_table_hypotheses_satisfiable :
  wf_table ex_full = true /\ wf_table ex_sub = true /\
  subsample ex_sub ex_full /\ median_dt ex_full < median_dt ex_sub /\
  ~ median_dt ex_full == median_dt ex_sub /\
  canon_table any_triple ex_full /\ canon_table any_triple ex_sub /\
  NoDup (cols ex_full).
Proof. exact ex_tables_ok. Qed.

Example C18_theorems_instantiated : forall rn rp : R -> R -> R,
  zero_table _ lin_comp rn rp (state_diff _ lin3 ex_full ex_full) (cols ex_full) (times ex_full) /\
  zero_table _ lin_comp rn rp (state_diff _ lin3 ex_full ex_sub) (cols ex_sub) (times ex_sub) /\
  zero_table _ lin_comp rn rp (state_diff _ lin3 ex_sub ex_full) (cols ex_sub) (times ex_sub) /\
  table_antisym _ lin_comp rn rp (state_diff _ lin3 ex_full ex_sub)
                                 (state_diff _ lin3 ex_sub ex_full).
Proof. exact ex_zero. Qed.
