(* C10 — Feedforward filter terminates and consumes every schedule exactly once.

   Model: Model/FeedforwardSched.v (run_feedforward_filter at the level of cursors
   and events, times in Q).  Proofs: Proofs/SchedProofs.v.

   times   = trajectory_nominal.index = trajectory.index
   sensors = one list of stamps per element of `measurements` (None / [] = [])
   Hypotheses: times strictly increasing, at least two rows, fuel >= #rows - 1.
   - theorems `C10_ff_*`        : exact arithmetic, add_step t = t + time_step, for ANY
                                  time_step (smaller than, equal to, larger than the
                                  sampling interval; the sign is not even needed)
   - theorems `C10_ff_*_oracle` : `time + time_step` replaced by an ARBITRARY function
                                  add_step : Q -> Q (no hypothesis): termination and
                                  exactly-once do not depend on the float addition *)
From Coq Require Import List QArith Sorted Qminmax.
From PV Require Import Model.FeedbackSched Model.FeedforwardSched Proofs.SchedProofs.
Import ListNotations.
Open Scope Q_scope.

(* ---- termination: the fuel #rows - 1 is never exhausted, no index error ---- *)
Theorem C10_ff_terminates : forall time_step times sensors fuel,
  StronglySorted Qlt times -> (2 <= length times)%nat ->
  (length times - 1 <= fuel)%nat ->
  completed (ff_run_exact fuel time_step times sensors) = true.
Proof. exact ff_terminates. Qed.
Print Assumptions C10_ff_terminates.

Theorem C10_ff_terminates_oracle : forall add_step times sensors fuel,
  StronglySorted Qlt times -> (2 <= length times)%nat ->
  (length times - 1 <= fuel)%nat ->
  completed (ff_run fuel add_step times sensors) = true.
Proof. exact ff_terminates_oracle. Qed.
Print Assumptions C10_ff_terminates_oracle.

(* ---- the result tables: strictly increasing subset of the input times, first
        row = times[0]; they are the start rows of the propagation steps ---- *)
Theorem C10_ff_records : forall time_step times sensors fuel,
  StronglySorted Qlt times -> (2 <= length times)%nat ->
  (length times - 1 <= fuel)%nat ->
  let tr := ff_run_exact fuel time_step times sensors in
  StronglySorted Qlt (record_times tr) /\
  (forall t, In t (record_times tr) -> In t times /\ t < nth (length times - 1) times 0) /\
  (exists r, record_times tr = nth 0 times 0 :: r) /\
  record_times tr = map (fun p => nth (fst p) times 0) (propagations tr).
Proof. exact ff_records. Qed.
Print Assumptions C10_ff_records.

Theorem C10_ff_records_oracle : forall add_step times sensors fuel,
  StronglySorted Qlt times -> (2 <= length times)%nat ->
  (length times - 1 <= fuel)%nat ->
  let tr := ff_run fuel add_step times sensors in
  StronglySorted Qlt (record_times tr) /\
  (forall t, In t (record_times tr) -> In t times /\ t < nth (length times - 1) times 0) /\
  (exists r, record_times tr = nth 0 times 0 :: r) /\
  record_times tr = map (fun p => nth (fst p) times 0) (propagations tr).
Proof. exact ff_records_oracle. Qed.
Print Assumptions C10_ff_records_oracle.

(* ---- a propagation step never goes further than max(time_step, local gap) ---- *)
Theorem C10_ff_step_bound : forall time_step times sensors fuel,
  StronglySorted Qlt times -> (2 <= length times)%nat ->
  (length times - 1 <= fuel)%nat ->
  forall i j, In (i, j) (propagations (ff_run_exact fuel time_step times sensors)) ->
  nth j times 0 - nth i times 0 <=
  Qmax time_step (nth (i + 1) times 0 - nth i times 0).
Proof. exact ff_step_bound. Qed.
Print Assumptions C10_ff_step_bound.

Theorem C10_ff_step_bound_oracle : forall add_step times sensors fuel,
  StronglySorted Qlt times -> (2 <= length times)%nat ->
  (length times - 1 <= fuel)%nat ->
  forall i j, In (i, j) (propagations (ff_run fuel add_step times sensors)) ->
  j = (i + 1)%nat \/ nth j times 0 <= add_step (nth i times 0).
Proof. exact ff_step_bound_oracle. Qed.
Print Assumptions C10_ff_step_bound_oracle.

(* ---- the same bound read off the result tables: every row and the row after it
        (for the last row: the end of the data) are strictly increasing and never
        further apart than max(time_step, sampling gap after the earlier row);
        `adjacent P l e` (Proofs/SchedProofs.v) = P a b for every element a of l
        and its successor b, the successor of the last element being e ---- *)
Theorem C10_ff_table_step_bound : forall time_step times sensors fuel,
  StronglySorted Qlt times -> (2 <= length times)%nat ->
  (length times - 1 <= fuel)%nat ->
  adjacent (fun a b => exists i, (i + 1 < length times)%nat /\ a = nth i times 0 /\ a < b /\
                                 b - a <= Qmax time_step (nth (i + 1) times 0 - nth i times 0))
           (record_times (ff_run_exact fuel time_step times sensors))
           (nth (length times - 1) times 0).
Proof.
  intros time_step times sensors fuel Hsorted Hlen Hfuel.
  eapply adjacent_impl; [|exact (ff_table_step_bound_oracle _ _ _ _ Hsorted Hlen Hfuel)].
  intros a b (i & Hi & -> & Hlt & Hor). exists i. repeat split; try assumption.
  now apply step_bound_max.
Qed.
Print Assumptions C10_ff_table_step_bound.

Theorem C10_ff_table_step_bound_oracle : forall add_step times sensors fuel,
  StronglySorted Qlt times -> (2 <= length times)%nat ->
  (length times - 1 <= fuel)%nat ->
  adjacent (fun a b => exists i, (i + 1 < length times)%nat /\ a = nth i times 0 /\ a < b /\
                                 (b = nth (i + 1) times 0 \/ b <= add_step a))
           (record_times (ff_run fuel add_step times sensors))
           (nth (length times - 1) times 0).
Proof. exact ff_table_step_bound_oracle. Qed.
Print Assumptions C10_ff_table_step_bound_oracle.

(* ---- every step moves forward (time_delta > 0: no division by zero), stays in
        the table, and the steps chain from row 0 to the last row ---- *)
Theorem C10_ff_positive_propagate : forall time_step times sensors fuel,
  StronglySorted Qlt times -> (2 <= length times)%nat ->
  (length times - 1 <= fuel)%nat ->
  let tr := ff_run_exact fuel time_step times sensors in
  (forall i j, In (i, j) (propagations tr) ->
     (i < j)%nat /\ (j < length times)%nat /\ nth i times 0 < nth j times 0) /\
  chain 0 (propagations tr) (length times - 1).
Proof. intro time_step. exact (ff_positive_propagate_oracle _). Qed.
Print Assumptions C10_ff_positive_propagate.

Theorem C10_ff_positive_propagate_oracle : forall add_step times sensors fuel,
  StronglySorted Qlt times -> (2 <= length times)%nat ->
  (length times - 1 <= fuel)%nat ->
  let tr := ff_run fuel add_step times sensors in
  (forall i j, In (i, j) (propagations tr) ->
     (i < j)%nat /\ (j < length times)%nat /\ nth i times 0 < nth j times 0) /\
  chain 0 (propagations tr) (length times - 1).
Proof. exact ff_positive_propagate_oracle. Qed.
Print Assumptions C10_ff_positive_propagate_oracle.

(* ---- every sensor: the epochs used are exactly its stamps in [start, end),
        ascending, each once; each is used on the row i with
        times[i] <= epoch < times[i+1] (the innovation row is stamped times[i]) ---- *)
Theorem C10_ff_meas_exactly_once : forall time_step times sensors fuel,
  StronglySorted Qlt times -> (2 <= length times)%nat ->
  (length times - 1 <= fuel)%nat ->
  let tr := ff_run_exact fuel time_step times sensors in
  let tstart := nth 0 times 0 in
  let tend := nth (length times - 1) times 0 in
  (forall k s, nth_error sensors k = Some s ->
     StronglySorted Qlt (innov_epochs k tr) /\
     (forall x, InQ x (innov_epochs k tr) <-> InQ x s /\ tstart <= x /\ x < tend) /\
     Forall2 Qeq (innov_epochs k tr) (sort_unique (filter (in_range tstart tend) s)) /\
     Forall2 (fun m t => exists i, (i + 1 < length times)%nat /\ t = nth i times 0 /\
                                   t <= m /\ m < nth (i + 1) times 0)
             (innov_epochs k tr) (innov_rows k tr)) /\
  (forall k, nth_error sensors k = None -> innov_epochs k tr = []).
Proof. exact ff_meas_exactly_once. Qed.
Print Assumptions C10_ff_meas_exactly_once.

Theorem C10_ff_meas_exactly_once_oracle : forall add_step times sensors fuel,
  StronglySorted Qlt times -> (2 <= length times)%nat ->
  (length times - 1 <= fuel)%nat ->
  let tr := ff_run fuel add_step times sensors in
  let tstart := nth 0 times 0 in
  let tend := nth (length times - 1) times 0 in
  (forall k s, nth_error sensors k = Some s ->
     StronglySorted Qlt (innov_epochs k tr) /\
     (forall x, InQ x (innov_epochs k tr) <-> InQ x s /\ tstart <= x /\ x < tend) /\
     Forall2 Qeq (innov_epochs k tr) (sort_unique (filter (in_range tstart tend) s)) /\
     Forall2 (fun m t => exists i, (i + 1 < length times)%nat /\ t = nth i times 0 /\
                                   t <= m /\ m < nth (i + 1) times 0)
             (innov_epochs k tr) (innov_rows k tr)) /\
  (forall k, nth_error sensors k = None -> innov_epochs k tr = []).
Proof. exact ff_meas_exactly_once_oracle. Qed.
Print Assumptions C10_ff_meas_exactly_once_oracle.

(* ---- the guard `max(., index + 1)` is necessary: without it the loop does not
        terminate when time_step < sampling gap and no measurement is pending ---- *)
Theorem C10_ff_noguard_refuted : exists times step,
  StronglySorted Qlt times /\ 0 < step /\
  forall fuel, completed (ff_loop_noguard fuel (fun t => t + step) times [] 0 []) = false.
Proof.
  (* the step 1/16 is smaller than the gap 1/8: searchsorted - 1 is the index itself,
     and the loop stays on row 0 *)
  exists [0; 1#8], (1#16). split; [|split; [reflexivity|]].
  - repeat constructor.
  - induction fuel as [|fuel IH]; [reflexivity|].
    cbn [ff_loop_noguard]. exact IH.
Qed.
Print Assumptions C10_ff_noguard_refuted.

(* ---- non-vacuity ------------------------------------------------------------
   rows at 1/10 s from 1 to 3/2; three sensors stamped 1.01, 1.02, 1.03 inside the
   first interval, two epochs inside the last interval, a shared stamp on a row
   time, stamps before the start / at the start / at the end / after the end. *)
Definition ex_times : list Q := [1; 11#10; 12#10; 13#10; 14#10; 15#10].
Definition ex_sensors : list (list Q) :=
  [ [99#100; 101#100; 12#10; 143#100; 15#10];
    [1; 102#100; 12#10; 147#100; 2];
    [103#100] ].

Example C10_ex_hypotheses :
  StronglySorted Qlt ex_times /\ (2 <= length ex_times)%nat /\
  (length ex_times - 1 <= 5)%nat.
Proof. split; [repeat constructor|]. vm_compute. split; repeat constructor. Qed.

(* time_step (1/20) smaller than the sampling gap: one row per step *)
Example C10_ex_trace_small_step :
  let tr := ff_run_exact 5 (1#20) ex_times ex_sensors in
  completed tr = true /\
  propagations tr = [(0, 1); (1, 2); (2, 3); (3, 4); (4, 5)]%nat /\
  record_times tr = [1; 11#10; 12#10; 13#10; 14#10] /\
  innov_epochs 0 tr = [101#100; 12#10; 143#100] /\
  innov_rows 0 tr = [1; 12#10; 14#10] /\
  innov_epochs 1 tr = [1; 102#100; 12#10; 147#100] /\
  innov_rows 1 tr = [1; 1; 12#10; 14#10] /\
  innov_epochs 2 tr = [103#100] /\
  innov_rows 2 tr = [1].
Proof. vm_compute. repeat split. Qed.

(* time_step (1) larger than the span: steps are cut at the measurement epochs *)
Example C10_ex_trace_large_step :
  let tr := ff_run_exact 5 1 ex_times ex_sensors in
  completed tr = true /\
  propagations tr = [(0, 2); (2, 4); (4, 5)]%nat /\
  record_times tr = [1; 12#10; 14#10] /\
  innov_epochs 0 tr = [101#100; 12#10; 143#100] /\
  innov_epochs 1 tr = [1; 102#100; 12#10; 147#100].
Proof. vm_compute. repeat split. Qed.

(* the bound is tight: with step 1/8 the row 1/4 is followed by the row 2 (the local
   sampling gap 7/4 > time_step), and `adjacent` unfolds to one statement per row *)
Example C10_ex_table_step_bound_tight :
  let times := [0; 1#8; 3#16; 1#4; 2; 33#16] in
  record_times (ff_run_exact 5 (1#8) times []) = [0; 1#8; 1#4; 2] /\
  adjacent (fun a b => a < b /\ b - a <= Qmax (1#8) (7#4))
           (record_times (ff_run_exact 5 (1#8) times [])) (33#16) /\
  ~ adjacent (fun a b => b - a <= 1#8)
           (record_times (ff_run_exact 5 (1#8) times [])) (33#16).
Proof.
  split; [vm_compute; reflexivity|]. split.
  - vm_compute. repeat split; discriminate.
  - vm_compute. intros (_ & _ & H & _). apply H. reflexivity.
Qed.

(* irregular sampling with a gap, no measurements, step equal to a sampling gap *)
Example C10_ex_gap_no_measurements :
  let times := [0; 1#8; 3#16; 1#4; 2; 33#16] in
  StronglySorted Qlt times /\
  propagations (ff_run_exact 5 (1#8) times []) = [(0, 1); (1, 3); (3, 4); (4, 5)]%nat /\
  propagations (ff_run_exact 5 10 times []) = [(0, 5)]%nat.
Proof. split; [repeat constructor|]. vm_compute. repeat split. Qed.
