(** C16, Tier B (thorough tier only): on the ellipsoid surface (alt = 0, meridian plane y = 0) Olson's series guess
    for sin lat (arcsin branch, 0 <= lat <= 1 rad) resp. cos lat (arccos branch, 0.99 <= lat <= 1.55 rad) is within
    1e-7 of the exact value; together with [C16_olson_step_is_newton] (the final step is one Newton step of the
    forward map) this bounds the round-trip error there.  Partial: not extended to alt <> 0, to 1.55 < lat <= pi/2
    or to lat < 0 (the mirror image), and not propagated through asin/acos. *)
From Coq Require Import Reals.
From PV Require Import Base.RealTac Spec.Ellipsoid Gen.Transform Proofs.C16TierB.
Open Scope R_scope.

Theorem C16_olson_guess_surface_bound_partial : forall phi,
  let x := R_transverse A_ E2_ phi * cos phi in
  let z := (1 - E2_) * R_transverse A_ E2_ phi * sin phi in
  (0 <= phi <= 1 -> Rabs (ecef_to_lla__10 x 0 z - sin phi) <= 1 / 10000000) /\
  (99 / 100 <= phi <= 155 / 100 -> Rabs (ecef_to_lla__24 x 0 z - cos phi) <= 1 / 10000000).
Proof. exact olson_guess_surface_bound_partial. Qed.
Print Assumptions C16_olson_guess_surface_bound_partial.
