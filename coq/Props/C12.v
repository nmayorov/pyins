(* C12 — Feedback filter: transparent without data, first-order equal to feedforward, re-runnable.

   Models: Model/FeedbackSched.v (loop of run_feedback_filter: cursors / events, C09),
   Model/Integrator.v (strapdown.Integrator, C02), Model/SensorModel.v (EstimationModel estimate
   state machine, C14), Model/FilterFlow.v (glue: the loop as a client of the integrator and of the
   estimate state; one measurement epoch of both filters as MathComp terms over the GENERATED
   kalman.correct).  Proofs: Proofs/C12Proofs.v.

   NOT proved: the multi-step second-order bound "the disagreement of the two filters, in
   units of the reported standard deviation, shrinks in proportion to the error scale".  It is an
   asymptotic statement about an extended against a linearised Kalman filter along a whole
   trajectory; Theorem C12_feedback_first_order_partial isolates its algebraic core (exact equality
   when correct_pva is an exact group action and the residuals are related linearly -- both hold to
   first order by C05 / C06) and the error-scale sweep of tools/props/C12.py examines the rest.
   The float exactness of `v - 0.0 * dt` and of LAPACK's solve with the identity matrix is checked
   byte for byte by the harness, not proved. *)
From Coq Require Import List QArith Sorted Qcanon.
From PV Require Import Model.FeedbackSched Model.FilterFlow Proofs.SchedProofs Proofs.C12Proofs.
From PV Require Model.Integrator Model.SensorModel.
Import ListNotations.

(* ---- (a) transparency --------------------------------------------------------------------------
   t0 = initial_pva.name, incs = increments.index, data = the rows of the increment table,
   sensors = stamps of every measurement object (None / [] : no sensors); on_innov = whatever the loop
   would do at a measurement epoch (predict / set_pva with data-dependent arguments: arbitrary).
   No stamp in [t0, t_end)  =>  the loop terminates, performs no correction (so no set_pva and no
   update_estimates: the estimates keep their reset values), integrates every increment exactly once
   in order, and -- for every kernel step function, both altitude modes, every time step, every
   buffer capacity -- the integrator ends with the trajectory of the single call
   Integrator(initial, with_altitude).integrate(increments). *)
Theorem C12_fb_transparent :
  forall (brow prow inc time : Type) (kstep : bool -> brow -> inc -> brow)
         (to_pub : brow -> prow) (of_pub : prow -> brow) (zero_vd : prow -> prow)
         (inc_time : inc -> time) (g g' : brow) (b : bool) (cap cap' : nat) (tinit : time) (p : prow)
         (on_innov : nat -> Q -> Q -> list (Integrator.op prow inc)) (data : list inc)
         add_step t0 incs sensors fuel,
  (forall t, t <= add_step t)%Q -> StronglySorted Qlt (t0 :: incs) -> incs <> [] ->
  (length incs <= fuel)%nat -> length data = length incs -> (1 <= cap)%nat -> (1 <= cap')%nat ->
  (forall s x, In s sensors -> In x s -> ~ (t0 <= x /\ x < last incs t0)%Q) ->
  let tr := fb_run fuel add_step t0 incs sensors in
  let ops := fb_integrator_ops on_innov data tr in
  completed tr = true /\
  (forall k m t, ~ In (Innov k m t) tr) /\
  existsb Integrator.is_setpva ops = false /\
  Integrator.all_incs ops = data /\
  exists s os s1 os1,
    Integrator.run_init kstep to_pub of_pub zero_vd inc_time g b cap tinit p ops = Some (s, os) /\
    Integrator.run_init kstep to_pub of_pub zero_vd inc_time g' b cap' tinit p
      [Integrator.Integrate data] = Some (s1, os1) /\
    Integrator.traj s = Integrator.traj s1.
Proof. exact fb_transparent. Qed.
Print Assumptions C12_fb_transparent.

(* correct_increments with reset estimates (transform = I, bias = 0) is the identity (exact numbers):
   the corrected batches ARE the raw batches *)
Theorem C12_correct_increments_reset :
  forall (dt : Qc) (v : SensorModel.V3 Qc),
  SensorModel.correct_increments SensorModel.reset dt v = Some v.
Proof. exact correct_increments_reset. Qed.
Print Assumptions C12_correct_increments_reset.

(* non-vacuity: the schedule of Props/C09.v with every stamp moved outside [t0, t_end): before the
   start, exactly at the end, after the end; five increments, step 1/10 *)
Example C12_ex_transparent :
  let t0 := 1%Q in
  let incs := [11#10; 12#10; 13#10; 14#10; 15#10]%Q in
  let sensors := [[99#100; 15#10]; [2]; []]%Q in
  StronglySorted Qlt (t0 :: incs) /\ incs <> [] /\
  (forall s x, In s sensors -> In x s -> ~ (t0 <= x /\ x < last incs t0)%Q) /\
  fb_run_exact 5 (1#10) t0 incs sensors =
    [Record 1; Integrate 0 1; Record (11#10); Integrate 1 2; Record (12#10); Integrate 2 3;
     Record (13#10); Integrate 3 4; Record (14#10); Integrate 4 5]%Q /\
  Integrator.all_incs (@fb_integrator_ops nat nat (fun _ _ _ => []) [10; 20; 30; 40; 50]%nat
                         (fb_run_exact 5 (1#10) t0 incs sensors)) = [10; 20; 30; 40; 50]%nat.
Proof.
  cbv zeta. split; [repeat constructor|]. split; [discriminate|]. split.
  - intros s x Hs Hx [H1 H2].
    repeat (destruct Hs as [<-|Hs]; [repeat (destruct Hx as [<-|Hx]; [vm_compute in H1, H2; try (now apply H1); try discriminate H2|]); destruct Hx|]).
    destruct Hs.
  - split; vm_compute; reflexivity.
Qed.

(* ---- (b) re-run ------------------------------------------------------------------------------
   A run is a client of the estimate state (transform, bias) of a sensor model: every operation may
   depend on all earlier observations.  Both run functions call reset_estimates() first; then the
   observations and the final state are the same from EVERY prior state = the run from the reset state. *)
Theorem C12_rerun_identical :
  forall (m : SensorModel.emodel) (client : list est_obs -> option est_op)
         (fuel : nat) (st1 st2 : SensorModel.est),
  client [] = Some EReset ->
  est_play m client (S fuel) [] st1 = est_play m client (S fuel) [] st2.
Proof. exact rerun_identical. Qed.
Print Assumptions C12_rerun_identical.

(* the reset is necessary: a client that uses the estimates first distinguishes prior states *)
Theorem C12_rerun_needs_reset :
  exists m client st1 st2,
    client [] = Some (ECorrect 1%Qc (SensorModel.mk3 0%Qc 0%Qc 0%Qc)) /\
    snd (est_play m client 1 [] st1) <> snd (est_play m client 1 [] st2).
Proof. exact rerun_needs_reset. Qed.
Print Assumptions C12_rerun_needs_reset.

(* non-vacuity: a client that resets, corrects an increment, updates, reads; from a polluted state *)
Example C12_ex_rerun :
  let m := SensorModel.mk_emodel [] 0 0 0 [] [] [] [] [] [] [] in
  let client := fun h : list est_obs =>
                  match length h with
                  | 0%nat => Some EReset
                  | 1%nat => Some (ECorrect 1%Qc (SensorModel.mk3 1%Qc (Q2Qc 2) (Q2Qc 3)))
                  | 2%nat => Some (EUpdate [])
                  | 3%nat => Some EGet
                  | _ => None
                  end in
  client [] = Some EReset /\
  snd (est_play m client 5 [] (SensorModel.mk_est SensorModel.ident3 (SensorModel.mk3 1%Qc 0%Qc 0%Qc))) =
  [ONone; OCorrected (SensorModel.mk3 1%Qc (Q2Qc 2) (Q2Qc 3)); ONone; OEstimates []].
Proof. split; [reflexivity|]. vm_compute. reflexivity. Qed.

(* ================================================================================================ *)
From mathcomp Require Import all_ssreflect all_algebra.
From PV Require Import Spec.LibSpecsMx Spec.Gaussian Gen.Kalman Proofs.KalmanProofs.
Set Implicit Arguments.
Unset Strict Implicit.
Import GRing.Theory Num.Theory.
Local Open Scope ring_scope.

(* ---- (c) one measurement epoch, linearised world ------------------------------------------------
   corr_run zs N = the first N kalman.correct calls of an epoch (GENERATED terms) with residuals zs.
   Shift equivariance: starting from the prior mean x with residuals z_k equals starting from 0 with
   residuals z_k - H_k x and adding x; the covariances coincide. *)
Theorem C12_corr_run_shift :
  forall (F : realFieldType) (ni ns : nat) (md : nat -> nat)
         (Hs : forall k : nat, 'M[F]_(md k, ni + ns)) (Rs : forall k : nat, 'M[F]_(md k))
         (chols : forall k : nat, 'M[F]_(md k) -> 'M[F]_(md k)),
  (forall k, (Rs k)^T = Rs k) -> (forall k, pd (Rs k)) ->
  (forall k (P : 'M[F]_(ni + ns)), P^T = P -> psd P ->
     cholesky_factor (@chols k) (correct_S P (Hs k) (Rs k))) ->
  forall (zs : forall k : nat, 'cV[F]_(md k)) (N : nat) (x : 'cV[F]_(ni + ns)) (P : 'M[F]_(ni + ns)),
  P^T = P -> psd P ->
  @corr_run F ni ns md Hs Rs chols zs N (x, P) =
  ((@corr_run F ni ns md Hs Rs chols (fun k => zs k - Hs k *m x) N (0, P)).1 + x,
   (@corr_run F ni ns md Hs Rs chols (fun k => zs k - Hs k *m x) N (0, P)).2).
Proof. exact corr_run_shift. Qed.
Print Assumptions C12_corr_run_shift.

(* feedback cycle: x := 0; corrections; set_pva(correct_pva(pva, x[ins])); update_estimates(x[sensor])
   feedforward cycle: carry x; output = (trajectory (-) x[ins], x[sensor], P).
   Hypotheses: `sub` (correct_pva) is an exact action of the additive group of error vectors, and the
   residuals of the two filters are related by z_fb = z_ff - H_full x.  Both hold to FIRST ORDER for the
   real code (C05: correct_pva is linearised by T; C06: H = dz/dx); under them the two filters agree
   EXACTLY after the epoch: navigation state, sensor-parameter estimates and covariance. *)
Theorem C12_feedback_first_order_partial :
  forall (F : realFieldType) (ni ns : nat) (md : nat -> nat)
         (Hs : forall k : nat, 'M[F]_(md k, ni + ns)) (Rs : forall k : nat, 'M[F]_(md k))
         (chols : forall k : nat, 'M[F]_(md k) -> 'M[F]_(md k)),
  (forall k, (Rs k)^T = Rs k) -> (forall k, pd (Rs k)) ->
  (forall k (P : 'M[F]_(ni + ns)), P^T = P -> psd P ->
     cholesky_factor (@chols k) (correct_S P (Hs k) (Rs k))) ->
  forall (Nav : Type) (sub : Nav -> 'cV[F]_ni -> Nav),
  (forall v a b, sub (sub v a) b = sub v (a + b)) ->
  forall (zs_ff zs_fb : forall k : nat, 'cV[F]_(md k)) (N : nat)
         (nav_raw : Nav) (x : 'cV[F]_(ni + ns)) (P : 'M[F]_(ni + ns)),
  P^T = P -> psd P ->
  (forall k, zs_fb k = zs_ff k - Hs k *m x) ->
  @fb_cycle F ni ns md Hs Rs chols Nav sub zs_fb N (sub nav_raw (usubmx x), dsubmx x, P) =
  @ff_output F ni ns Nav sub nav_raw (@ff_cycle F ni ns md Hs Rs chols zs_ff N (x, P)).
Proof. exact feedback_first_order_partial. Qed.
Print Assumptions C12_feedback_first_order_partial.

(* non-vacuity of the hypotheses over any real field: H = 0, R = 1, sub v a = v - a *)
Example C12_ex_cycle_hypotheses :
  forall (F : realFieldType) (ni ns : nat),
  let md := fun _ : nat => 1%N in
  let Hs := fun _ : nat => (0 : 'M[F]_(1, ni + ns)) in
  let Rs := fun _ : nat => (1%:M : 'M[F]_1) in
  let chols := fun (_ : nat) (_ : 'M[F]_1) => (1%:M : 'M[F]_1) in
  let sub := fun (v a : 'cV[F]_ni) => v - a in
  [/\ forall k, (Rs k)^T = Rs k, forall k, pd (Rs k),
      forall k (P : 'M[F]_(ni + ns)), P^T = P -> psd P -> cholesky_factor (chols k) (correct_S P (Hs k) (Rs k))
    & forall v a b, sub (sub v a) b = sub v (a + b)].
Proof.
move=> F ni ns md Hs Rs chols sub; split=> [k|k|k P _ _|v a b].
- by rewrite trmx1.
- by apply: pd_scalar; rewrite ltr01.
- rewrite correct_S_eq /innov_cov !mul0mx add0r.
  by split; [exact: is_lower_scalar | rewrite mul1mx trmx1].
- by rewrite /sub opprD addrA.
Qed.
