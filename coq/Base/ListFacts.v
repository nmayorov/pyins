(** List and rational-order facts shared by the proofs about the hand-written models. *)
From Coq Require Import List QArith Bool Arith Lia Sorted Permutation.
Import ListNotations.

Lemma filter_map_comm {A B} (f : A -> B) (p : B -> bool) l :
  filter p (map f l) = map f (filter (fun x => p (f x)) l).
Proof. induction l as [|x l IH]; [reflexivity|]. cbn. destruct (p (f x)); cbn; now rewrite IH. Qed.

Lemma Forall2_len {A B} (R : A -> B -> Prop) l1 l2 :
  Forall2 R l1 l2 -> length l1 = length l2.
Proof. induction 1; cbn; congruence. Qed.

Lemma map_fst_combine {A B} (l : list A) (m : list B) :
  length l = length m -> map fst (combine l m) = l.
Proof.
  revert m. induction l as [|a l IH]; intros [|b m] H; cbn in *; try discriminate; auto.
  f_equal. apply IH. injection H as H. exact H.
Qed.

Lemma map_snd_combine {A B} (l : list A) (m : list B) :
  length l = length m -> map snd (combine l m) = m.
Proof.
  revert m. induction l as [|a l IH]; intros [|b m] H; cbn in *; try discriminate; auto.
  f_equal. apply IH. injection H as H. exact H.
Qed.

Lemma filter_idem : forall (A : Type) (p : A -> bool) l, filter p (filter p l) = filter p l.
Proof.
  intros A p. induction l as [| x l IH]; simpl; [reflexivity |].
  destruct (p x) eqn:E; simpl; [rewrite E, IH; reflexivity | exact IH].
Qed.

Lemma filter_perm : forall (A : Type) (p : A -> bool) l l',
  Permutation l l' -> Permutation (filter p l) (filter p l').
Proof.
  intros A p l l' H. induction H; simpl.
  - constructor.
  - destruct (p x); [apply perm_skip |]; assumption.
  - destruct (p x), (p y); try apply Permutation_refl. apply perm_swap.
  - eapply Permutation_trans; eassumption.
Qed.

Lemma combine_map_map : forall (A B C D : Type) (g : A -> B) (h : D -> C) (k : A -> D) (l : list A),
  combine (map g l) (map h (map k l)) = map (fun x => (g x, h (k x))) l.
Proof. induction l as [| x l IH]; simpl; [reflexivity | rewrite IH; reflexivity]. Qed.

Lemma Forall2_map_same : forall (A B C : Type) (P : B -> C -> Prop) (g : A -> B) (h : A -> C) l,
  (forall x, P (g x) (h x)) -> Forall2 P (map g l) (map h l).
Proof. intros A B C P g h l H. induction l; simpl; constructor; auto. Qed.

Lemma filter_length_le {A} (p : A -> bool) l : (length (filter p l) <= length l)%nat.
Proof. induction l as [|x l IH]; cbn; [lia|]. destruct (p x); cbn; lia. Qed.

Lemma filter_seq_S (p : nat -> bool) n :
  filter p (seq 0 (S n)) = filter p (seq 0 n) ++ (if p n then [n] else []).
Proof. rewrite seq_S, filter_app. cbn. destruct (p n); reflexivity. Qed.

Lemma list_prod_app_l {A B} (l1 l2 : list A) (l' : list B) :
  list_prod (l1 ++ l2) l' = list_prod l1 l' ++ list_prod l2 l'.
Proof. induction l1 as [|x l1 IH]; [reflexivity|]. cbn. now rewrite IH, app_assoc. Qed.

Lemma nth_error_combine {A B} (l : list A) (l' : list B) k x y :
  nth_error l k = Some x -> nth_error l' k = Some y -> nth_error (combine l l') k = Some (x, y).
Proof.
  revert l l'. induction k as [|k IH]; intros [|a l] [|b l'] Hx Hy; try discriminate; cbn in *.
  - congruence.
  - now apply IH.
Qed.

Lemma nth_error_lt {A} (l : list A) k x : nth_error l k = Some x -> (k < length l)%nat.
Proof. intro E. apply nth_error_Some. congruence. Qed.

Lemma NoDup_map_inj_in {A B} (f : A -> B) l :
  (forall x y, In x l -> In y l -> f x = f y -> x = y) -> NoDup l -> NoDup (map f l).
Proof.
  intros Hinj Hnd. induction Hnd as [|x l Hx Hnd IH]; cbn; constructor.
  - intro Hin. apply in_map_iff in Hin. destruct Hin as (y & E & Hy).
    apply Hx. rewrite <- (Hinj y x); auto; [now right|now left].
  - apply IH. intros y z Hy Hz. apply Hinj; now right.
Qed.

Lemma sorted_map_filter {A} (f : A -> nat) (p : A -> bool) l :
  StronglySorted lt (map f l) -> StronglySorted lt (map f (filter p l)).
Proof.
  induction l as [|x l IH]; cbn; intro Hs; [constructor|].
  inversion Hs as [|? ? Hs' Hall]; subst. destruct (p x); cbn; [|now apply IH].
  constructor; [now apply IH|].
  rewrite Forall_forall in *. intros y Hy. apply Hall.
  apply in_map_iff in Hy. destruct Hy as (z & <- & Hz). apply filter_In in Hz.
  apply in_map. tauto.
Qed.

Lemma sorted_lt_NoDup l : StronglySorted lt l -> NoDup l.
Proof.
  induction 1 as [|x l Hs IH Hall]; constructor; [|exact IH].
  intro Hin. rewrite Forall_forall in Hall. specialize (Hall _ Hin). lia.
Qed.

Lemma map_seq_nth {A B} (l : list A) (g : nat -> B) (f : A -> B) k :
  (forall s t, nth_error l s = Some t -> g (k + s)%nat = f t) ->
  map g (seq k (length l)) = map f l.
Proof.
  revert k. induction l as [|x l IH]; intros k Hg; [reflexivity|].
  cbn [length seq map]. f_equal.
  - rewrite <- (Nat.add_0_r k). apply Hg. reflexivity.
  - apply IH. intros s t Hs. replace (S k + s)%nat with (k + S s)%nat by lia. apply Hg. exact Hs.
Qed.

Lemma Qle_bool_false : forall x y, Qle_bool x y = false <-> (y < x)%Q.
Proof.
  intros x y. rewrite <- not_true_iff_false, Qle_bool_iff.
  split; [apply Qnot_le_lt|apply Qlt_not_le].
Qed.

Lemma filter_all_false {A} (f : A -> bool) l :
  (forall x, In x l -> f x = false) -> filter f l = [].
Proof.
  induction l as [|a l IH]; intro H; cbn; [reflexivity|].
  rewrite (H a) by now left. apply IH. intros x Hx. apply H. now right.
Qed.

Lemma filter_all_true {A} (f : A -> bool) l :
  (forall x, In x l -> f x = true) -> filter f l = l.
Proof.
  induction l as [|a l IH]; intro H; cbn; [reflexivity|].
  rewrite (H a) by now left. f_equal. apply IH. intros x Hx. apply H. now right.
Qed.

Lemma firstn_skipn_seq {A} (d : A) : forall (l : list A) a k, (a + k <= length l)%nat ->
  firstn k (skipn a l) = map (fun i => nth i l d) (seq a k).
Proof.
  induction l as [|x l IH]; intros a k H; cbn in H.
  - assert (a = 0 /\ k = 0)%nat as [-> ->] by lia. reflexivity.
  - destruct a as [|a]; cbn [skipn].
    + destruct k as [|k]; [reflexivity|]. cbn [firstn seq map nth]. f_equal.
      rewrite <- seq_shift, map_map. apply (IH 0%nat). lia.
    + rewrite <- seq_shift, map_map. apply IH. lia.
Qed.

Lemma map_nth_seq {A} (d : A) : forall l : list A,
  map (fun i => nth i l d) (seq 0 (length l)) = l.
Proof.
  induction l as [|x l IH]; [reflexivity|].
  cbn [length seq map nth]. f_equal.
  rewrite <- seq_shift, map_map. exact IH.
Qed.
