(** The physical constants of the specifications; the facts about sin, cos and the ellipsoid's
    W^2 = 1 - e^2 sin^2 lat that several proof files over the generated code need; [split_conj]. *)
From Coq Require Import Reals Lra.
Open Scope R_scope.

Definition A_ : R := 6378137.
Definition E2_ : R := 66943799901413 / 10000000000000000.
Definition RATE_ : R := 1458423 / 20000000000.           (* 7.292115e-5 *)
Definition GE_ : R := 97803253359 / 10000000000.
Definition FG_ : R := 3863705292792563 / 2000000000000000000.  (* earth.F as evaluated *)
Definition d2r : R := PI / 180.
Definition r2d : R := 180 / PI.

Lemma d2r_r2d : d2r * r2d = 1.
Proof. unfold d2r, r2d. field. apply PI_neq0. Qed.

Lemma one_minus_E2 : 1 - E2_ = 9933056200098587 / 10000000000000000.
Proof. unfold E2_. lra. Qed.

Lemma sin2_le1 x : sin x * sin x <= 1.
Proof. pose proof (SIN_bound x) as [H1 H2]. nra. Qed.

Lemma cos2_le1 x : cos x * cos x <= 1.
Proof. pose proof (COS_bound x) as [H1 H2]. nra. Qed.

Lemma sc1 x : sin x * sin x + cos x * cos x = 1.
Proof. pose proof (sin2_cos2 x) as H. unfold Rsqr in H. exact H. Qed.

(* sin^2 as a polynomial in cos, in the form [ring [..]] takes *)
Lemma s2c x : sin x * sin x = 1 - cos x * cos x.
Proof. pose proof (sc1 x). lra. Qed.

Lemma W_pos x : 0 < 1 - E2_ * (sin x * sin x).
Proof. unfold E2_. pose proof (sin2_le1 x). nra. Qed.

(* The generated text carries e^2 as this literal, not as [E2_]: the next three facts are stated on the
   literal so that [rewrite], [apply] and the tactics that match on the term find it in generated text
   (and in specifications after [unfold E2_]) as it stands. *)
Lemma W_pos' x : 0 < 1 - 66943799901413 / 10000000000000000 * (sin x * sin x).
Proof. exact (W_pos x). Qed.

Lemma sqrtW_sq x :
  sqrt (1 - 66943799901413 / 10000000000000000 * (sin x * sin x)) *
  sqrt (1 - 66943799901413 / 10000000000000000 * (sin x * sin x)) =
  1 - 66943799901413 / 10000000000000000 * (sin x * sin x).
Proof. apply sqrt_sqrt. pose proof (W_pos' x). lra. Qed.

Lemma sqrtW_pos x : 0 < sqrt (1 - 66943799901413 / 10000000000000000 * (sin x * sin x)).
Proof. apply sqrt_lt_R0. apply W_pos'. Qed.

Lemma sqrt_1msin2 x : 0 <= cos x -> sqrt (1 - sin x * sin x) = cos x.
Proof.
  intro H. replace (1 - sin x * sin x) with (cos x * cos x) by (pose proof (sc1 x); lra).
  apply sqrt_square. exact H.
Qed.

Lemma cos_d2r_nonneg lat : -90 <= lat <= 90 -> 0 <= cos (lat * (PI / 180)).
Proof.
  intros [H1 H2]. apply cos_ge_0; pose proof PI_RGT_0; nra.
Qed.

Lemma cos_d2r_pos lat : -90 < lat < 90 -> 0 < cos (lat * (PI / 180)).
Proof.
  intros [H1 H2]. apply cos_gt_0; pose proof PI_RGT_0; nra.
Qed.

(** [repeat split] would also open [is_derive], which is a conjunction underneath *)
Ltac split_conj := repeat match goal with |- _ /\ _ => split end.
