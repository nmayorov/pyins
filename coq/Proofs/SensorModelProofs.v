(** Proofs about Model/SensorModel.v (property C14).  All statements are generic in the
    parameter values (and hence in the 2^18 enable masks): each constructor loop is a fold of
    pushes over its enabled indices, so the constructor returns [layout], a record written in
    terms of [targets], the list of what each state stands for; what is proved of a built
    model is read off that record. *)
From Coq Require Import List String Ascii Arith Bool ZArith QArith Qcanon Lia Sorted.
From PV Require Import Base.ListFacts Model.SensorModel.
Import ListNotations.
Open Scope Qc_scope.

(** * Lists *)

Lemma existsb_find {A} (f : A -> bool) l :
  existsb f l = match find f l with Some _ => true | None => false end.
Proof. induction l as [|x l IH]; [reflexivity|]. cbn. destruct (f x); [reflexivity|exact IH]. Qed.

(** [indexed s l]: [l] paired with the consecutive indices from [s] *)

Lemma indexed_nil {A} s : @indexed A s [] = [].
Proof. reflexivity. Qed.

Lemma indexed_cons {A} s (x : A) l : indexed s (x :: l) = (x, s) :: indexed (S s) l.
Proof. reflexivity. Qed.

Lemma indexed_app {A} (l1 l2 : list A) s :
  indexed s (l1 ++ l2) = indexed s l1 ++ indexed (s + List.length l1) l2.
Proof.
  revert s. induction l1 as [|x l1 IH]; intro s; cbn [app List.length].
  - rewrite Nat.add_0_r. reflexivity.
  - rewrite !indexed_cons, IH. cbn [app]. do 3 f_equal. lia.
Qed.

Lemma indexed_length {A} (l : list A) s : List.length (indexed s l) = List.length l.
Proof. unfold indexed. rewrite combine_length, seq_length. lia. Qed.

Lemma indexed_map_fst {A} (l : list A) s : map fst (indexed s l) = l.
Proof.
  revert s. induction l as [|x l IH]; intro s; [reflexivity|].
  rewrite indexed_cons. cbn. now rewrite IH.
Qed.

Lemma In_indexed {A} (l : list A) s x j :
  In (x, j) (indexed s l) <-> (s <= j /\ nth_error l (j - s) = Some x)%nat.
Proof.
  revert s. induction l as [|y l IH]; intro s.
  - cbn. split; [tauto|]. intros [_ H]. destruct (j - s)%nat; discriminate.
  - rewrite indexed_cons. cbn [In]. rewrite IH. split.
    + intros [E|[Hle Hn]].
      * inversion E; subst. split; [lia|]. now rewrite Nat.sub_diag.
      * split; [lia|]. replace (j - s)%nat with (S (j - S s)) by lia. exact Hn.
    + intros [Hle Hn]. destruct (Nat.eq_dec j s) as [->|Hne].
      * rewrite Nat.sub_diag in Hn. cbn in Hn. left. congruence.
      * right. split; [lia|]. replace (j - s)%nat with (S (j - S s)) in Hn by lia. exact Hn.
Qed.

Lemma In_indexed0 {A} (l : list A) x j : In (x, j) (indexed 0 l) <-> nth_error l j = Some x.
Proof. rewrite In_indexed, Nat.sub_0_r. intuition lia. Qed.

Lemma In_indexed_map {A} (h : A -> nat) (l : list A) r c :
  In (r, c) (indexed 0 (map h l)) <-> exists x, nth_error l c = Some x /\ r = h x.
Proof.
  rewrite In_indexed0, nth_error_map. destruct (nth_error l c) as [x|]; cbn; split.
  - intros [= <-]. eauto.
  - intros (y & [= <-] & ->). reflexivity.
  - discriminate.
  - intros (y & E & _). discriminate.
Qed.

Lemma find_indexed {A} (p : A -> bool) (l : list A) s j :
  find (fun e => p (fst e) && Nat.eqb (snd e) j) (indexed s l)
  = if (s <=? j)%nat
    then match nth_error l (j - s) with Some x => if p x then Some (x, j) else None | None => None end
    else None.
Proof.
  revert s. induction l as [|x l IH]; intro s.
  - cbn. destruct (j - s)%nat, (s <=? j)%nat; reflexivity.
  - rewrite indexed_cons. cbn [find fst snd]. rewrite IH.
    destruct (Nat.eqb_spec s j) as [->|Hne].
    + rewrite andb_true_r, Nat.leb_refl, Nat.sub_diag. cbn [nth_error].
      destruct (p x); [reflexivity|]. now rewrite (proj2 (Nat.leb_gt _ _)) by lia.
    + rewrite andb_false_r. destruct (Nat.leb_spec s j) as [Hle|Hgt].
      * rewrite (proj2 (Nat.leb_le (S s) j)) by lia.
        replace (j - s)%nat with (S (j - S s)) by lia. reflexivity.
      * now rewrite (proj2 (Nat.leb_gt _ _)) by lia.
Qed.

Lemma find_index {A} (l : list A) s j :
  find (fun e => Nat.eqb (snd e) j) (indexed s l)
  = if (s <=? j)%nat then option_map (fun x => (x, j)) (nth_error l (j - s)) else None.
Proof. exact (find_indexed (fun _ => true) l s j). Qed.

Lemma has_entry_indexed r c l :
  has_entry r c (indexed 0 l) = match nth_error l c with Some x => Nat.eqb x r | None => false end.
Proof.
  unfold has_entry. rewrite existsb_find, (find_indexed (fun x => Nat.eqb x r)), Nat.sub_0_r.
  cbn [Nat.leb]. destruct (nth_error l c) as [x|]; [destruct (Nat.eqb x r)|]; reflexivity.
Qed.

Lemma grid_shape {A} (g : nat -> nat -> A) n c :
  List.length (map (fun r => map (g r) (seq 0 c)) (seq 0 n)) = n /\
  Forall (fun row => List.length row = c) (map (fun r => map (g r) (seq 0 c)) (seq 0 n)).
Proof.
  rewrite map_length, seq_length. split; [reflexivity|].
  apply Forall_map, Forall_forall. intros r _. now rewrite map_length, seq_length.
Qed.

Lemma opt_all_map {A B} (f : A -> option B) (R : A -> B -> Prop) l r :
  (forall x y, f x = Some y -> R x y) -> opt_all (map f l) = Some r -> Forall2 R l r.
Proof.
  intro HR. revert r. induction l as [|x l IH]; intros r E; cbn in E.
  - injection E as <-. constructor.
  - destruct (f x) as [y|] eqn:Ef; [|discriminate]. destruct (opt_all (map f l)) as [r'|]; [|discriminate].
    injection E as <-. constructor; auto.
Qed.

Lemma for_range_fold {A} (body : nat -> A -> A) n init :
  for_range n body init = fold_left (fun a k => body k a) (seq 0 n) init.
Proof.
  induction n as [|n IH]; [reflexivity|]. cbn [for_range].
  now rewrite seq_S, fold_left_app, <- IH.
Qed.

(** two nested [range] loops run over the pairs in row-major order *)
Lemma for_range_nested {A} (body : nat -> nat -> A -> A) n k init :
  for_range n (fun o => for_range k (body o)) init
  = fold_left (fun a oi => body (fst oi) (snd oi) a) (list_prod (seq 0 n) (seq 0 k)) init.
Proof.
  induction n as [|n IH]; [reflexivity|].
  cbn [for_range]. rewrite seq_S, list_prod_app_l, fold_left_app, <- IH. cbn [plus list_prod].
  rewrite app_nil_r. generalize (for_range n (fun o => for_range k (body o)) init) as a. intro a.
  clear IH. induction k as [|k IHk]; [reflexivity|].
  cbn [for_range]. rewrite seq_S, map_app, fold_left_app, <- IHk. reflexivity.
Qed.

(** * Comparisons *)

Lemma Qcpos_spec x : Qcpos x = true <-> 0 < x.
Proof. unfold Qcpos. rewrite Qclt_alt. destruct (0 ?= x); split; congruence. Qed.

Lemma Qcpos_false x : Qcpos x = false <-> x <= 0.
Proof.
  rewrite <- not_true_iff_false, Qcpos_spec. split; [apply Qcnot_lt_le|apply Qcle_not_lt].
Qed.

Lemma Qcnonpos_spec x : Qcnonpos x = true <-> x <= 0.
Proof. unfold Qcnonpos. rewrite Qcle_alt. destruct (x ?= 0); split; congruence. Qed.

Lemma Qcneq_spec x y : Qcneq x y = false <-> x = y.
Proof. unfold Qcneq. destruct (Qc_eq_dec x y); split; congruence. Qed.

Lemma Qcpos_false_nonneg x : 0 <= x -> Qcpos x = false -> x = 0.
Proof. intros Hx Hp. apply Qcle_antisym; [now apply Qcpos_false|exact Hx]. Qed.

Lemma Qcnz_spec x : Qcnz x = true <-> x <> 0.
Proof. unfold Qcnz. rewrite <- (Qcneq_spec x 0). symmetry. apply not_false_iff_true. Qed.

Lemma Qcnz_pos x z : 0 <= x -> z <> 0 -> Qcnz (x * z) = Qcpos x.
Proof.
  intros Hx Hz. destruct (Qcpos x) eqn:Ep.
  - apply Qcnz_spec. intro E. apply Qcmult_integral in E. destruct E as [->|]; [discriminate|contradiction].
  - rewrite (Qcpos_false_nonneg _ Hx Ep). apply Qcneq_spec. ring.
Qed.

Lemma Qcneq_shift d y : Qcneq (d + y) d = Qcnz y.
Proof.
  unfold Qcnz, Qcneq. destruct (Qc_eq_dec (d + y) d) as [E|N], (Qc_eq_dec y 0) as [E'|N'];
    try reflexivity; exfalso.
  - apply N'. replace y with (d + y - d) by ring. rewrite E. ring.
  - apply N. rewrite E'. ring.
Qed.

Lemma sq_pos y : 0 < y -> 0 < sq y.
Proof. intro Hy. unfold sq. replace 0 with (0 * y) by ring. now apply Qcmult_lt_compat_r. Qed.

Lemma Qcminus_inj x y d : x - d = y - d -> x = y.
Proof. intro E. replace x with (x - d + d) by ring. rewrite E. ring. Qed.

(** * Triads and 3x3 matrices *)

Lemma lt3_cases a : (a < 3)%nat -> a = 0%nat \/ a = 1%nat \/ a = 2%nat.
Proof. lia. Qed.

Lemma v3_eq {A} (u w : V3 A) : c0 u = c0 w -> c1 u = c1 w -> c2 u = c2 w -> u = w.
Proof. destruct u, w. cbn. congruence. Qed.

Lemma v3_ext {A} (u w : V3 A) : (forall a, (a < 3)%nat -> get3 a u = get3 a w) -> u = w.
Proof. intro H. apply v3_eq; [apply (H 0%nat)|apply (H 1%nat)|apply (H 2%nat)]; lia. Qed.

(** an identity between triads built from the vector operations holds if it holds in each
    component, where it is an identity of the field *)
Ltac v3_ring :=
  apply v3_eq; unfold msub, mv3, dot3, add3, sub3, scale3, mul3, zero3, ident3; cbn [c0 c1 c2]; ring.

Lemma add3_zero_r u : add3 u zero3 = u.
Proof. v3_ring. Qed.

Lemma mul3_zero_r u : mul3 u zero3 = zero3.
Proof. v3_ring. Qed.

Lemma scale3_zero_l k : scale3 zero3 k = zero3.
Proof. v3_ring. Qed.

Lemma sub3_add3 u w : sub3 (add3 u w) w = u.
Proof. v3_ring. Qed.

Lemma sub3_add3_cancel a b b' n : sub3 (add3 (add3 a b') n) (add3 (add3 a b) n) = sub3 b' b.
Proof. v3_ring. Qed.

Lemma scale3_sub3 u w k : scale3 (sub3 u w) k = sub3 (scale3 u k) (scale3 w k).
Proof. v3_ring. Qed.

Lemma mv3_scale3 M u k : mv3 M (scale3 u k) = scale3 (mv3 M u) k.
Proof. v3_ring. Qed.

Lemma scale3_inv u d : d <> 0 -> scale3 (scale3 u d) (/ d) = u.
Proof. intro Hd. apply v3_eq; cbn [scale3 c0 c1 c2]; now field. Qed.

Lemma get3_zero3 a : get3 a zero3 = 0.
Proof. destruct a as [|[|a]]; reflexivity. Qed.

Lemma get3_mul3 a u w : get3 a (mul3 u w) = get3 a u * get3 a w.
Proof. destruct a as [|[|a]]; reflexivity. Qed.

Lemma get33_msub o i A B : get33 o i (msub A B) = get33 o i A - get33 o i B.
Proof. destruct o as [|[|o]], i as [|[|i]]; reflexivity. Qed.

Lemma get33_madd o i A B : get33 o i (madd A B) = get33 o i A + get33 o i B.
Proof. destruct o as [|[|o]], i as [|[|i]]; reflexivity. Qed.

Lemma get33_mmul_el o i A B : get33 o i (mmul_el A B) = get33 o i A * get33 o i B.
Proof. destruct o as [|[|o]], i as [|[|i]]; reflexivity. Qed.

Lemma get33_ident3 o i : (o < 3)%nat -> (i < 3)%nat -> get33 o i ident3 = delta o i.
Proof.
  intros Ho Hi. destruct (lt3_cases o Ho) as [->|[->| ->]], (lt3_cases i Hi) as [->|[->| ->]]; reflexivity.
Qed.

(** * Names: decoding inverts construction *)

Lemma decode_bias_name a : decode (bias_name a) = if (a <? 3)%nat then DTarget (TBias a) else DError.
Proof. destruct a as [|[|[|a]]]; reflexivity. Qed.

Lemma decode_sm_name o i :
  decode (sm_name o i) = if ((o <? 3) && (i <? 3))%nat then DTarget (TSm o i) else DError.
Proof. destruct o as [|[|[|o]]]; destruct i as [|[|[|i]]]; reflexivity. Qed.

Lemma decode_name_of t : valid_target t -> decode (name_of t) = DTarget t.
Proof.
  destruct t as [a|o i]; cbn [valid_target name_of]; rewrite <- !Nat.ltb_lt.
  - intro Ha. now rewrite decode_bias_name, Ha.
  - intros [Ho Hi]. now rewrite decode_sm_name, Ho, Hi.
Qed.

(** no other name, valid or not, is the name of a valid target *)
Lemma name_of_inj t t' : valid_target t -> name_of t = name_of t' -> t = t'.
Proof.
  intros Hv E. apply decode_name_of in Hv. rewrite E in Hv. destruct t' as [a|o i]; cbn [name_of] in Hv.
  - rewrite decode_bias_name in Hv. destruct (a <? 3)%nat; congruence.
  - rewrite decode_sm_name in Hv. destruct ((o <? 3) && (i <? 3))%nat; congruence.
Qed.

Lemma xyz_to_index_range s a : xyz_to_index s = Some a -> (a < 3)%nat.
Proof.
  unfold xyz_to_index.
  destruct (String.eqb s "x"), (String.eqb s "y"), (String.eqb s "z"); intro E; inversion E; lia.
Qed.

Lemma decode_range name t : decode name = DTarget t -> valid_target t.
Proof.
  unfold decode. destruct (split_us name) as [|k rest]; [discriminate|].
  destruct (String.eqb k "bias").
  - destruct rest as [|it rest]; [discriminate|].
    destruct (xyz_to_index it) as [a|] eqn:Ea; [|discriminate].
    intro E. injection E as <-. exact (xyz_to_index_range _ _ Ea).
  - destruct (String.eqb k "sm"); [|discriminate].
    destruct rest as [|[|a [|b r]] rest]; try discriminate.
    destruct (xyz_to_index (String a "")) as [o|] eqn:Eo; [|discriminate].
    destruct (xyz_to_index (String b "")) as [i|] eqn:Ei; [|discriminate].
    intro E. injection E as <-. split; eapply xyz_to_index_range; eassumption.
Qed.

(** * The enabled axes and entries *)

Lemma in_pairs9 o i : In (o, i) pairs9 <-> (o < 3 /\ i < 3)%nat.
Proof. unfold pairs9. rewrite in_prod_iff, !in_seq. lia. Qed.

Lemma enb_In bias_sd a : In a (enb bias_sd) <-> (a < 3)%nat /\ 0 < get3 a bias_sd.
Proof. unfold enb. rewrite filter_In, in_seq, Qcpos_spec. intuition lia. Qed.

Lemma enw_In bias_sd bias_walk a :
  In a (enw bias_sd bias_walk) <-> (a < 3)%nat /\ 0 < get3 a bias_sd /\ 0 < get3 a bias_walk.
Proof. unfold enw. rewrite filter_In, enb_In, Qcpos_spec. tauto. Qed.

Lemma enn_In noise a : In a (enn noise) <-> (a < 3)%nat /\ 0 < get3 a noise.
Proof. unfold enn. rewrite filter_In, in_seq, Qcpos_spec. intuition lia. Qed.

Lemma ensm_In sm_sd o i : In (o, i) (ensm sm_sd) <-> (o < 3 /\ i < 3)%nat /\ 0 < get33 o i sm_sd.
Proof. unfold ensm. rewrite filter_In, in_pairs9, Qcpos_spec. cbn [fst snd]. tauto. Qed.

Lemma enw_incl_enb bias_sd bias_walk a : In a (enw bias_sd bias_walk) -> In a (enb bias_sd).
Proof. unfold enw. rewrite filter_In. tauto. Qed.

Lemma enb_length bias_sd : (List.length (enb bias_sd) <= 3)%nat.
Proof. apply (filter_length_le _ (seq 0 3)). Qed.

Lemma enw_length bias_sd bias_walk : (List.length (enw bias_sd bias_walk) <= List.length (enb bias_sd))%nat.
Proof. apply filter_length_le. Qed.

Lemma enn_length noise : (List.length (enn noise) <= 3)%nat.
Proof. apply (filter_length_le _ (seq 0 3)). Qed.

Lemma ensm_length sm_sd : (List.length (ensm sm_sd) <= 9)%nat.
Proof. apply (filter_length_le _ pairs9). Qed.

Lemma enn_NoDup noise : NoDup (enn noise).
Proof. apply NoDup_filter, seq_NoDup. Qed.

Lemma enw_NoDup bias_sd bias_walk : NoDup (enw bias_sd bias_walk).
Proof. apply NoDup_filter, NoDup_filter, seq_NoDup. Qed.

(** an enabled index is paired with the number of enabled indices before it *)
Lemma indexed_filter_seq (p : nat -> bool) n :
  indexed 0 (filter p (seq 0 n))
  = map (fun a => (a, List.length (filter p (seq 0 a)))) (filter p (seq 0 n)).
Proof.
  induction n as [|n IH]; [reflexivity|].
  rewrite filter_seq_S, indexed_app, map_app, <- IH. destruct (p n); reflexivity.
Qed.

Lemma enb_indexed bias_sd :
  indexed 0 (enb bias_sd) = map (fun a => (a, bias_rank bias_sd a)) (enb bias_sd).
Proof. apply indexed_filter_seq. Qed.

Lemma bias_rank_nth bias_sd a :
  In a (enb bias_sd) -> nth_error (enb bias_sd) (bias_rank bias_sd a) = Some a.
Proof.
  intro Hin. apply In_indexed0. rewrite enb_indexed.
  exact (in_map (fun a => (a, bias_rank bias_sd a)) _ _ Hin).
Qed.

Lemma bias_rank_inj bias_sd a a' :
  In a (enb bias_sd) -> In a' (enb bias_sd) -> bias_rank bias_sd a = bias_rank bias_sd a' -> a = a'.
Proof. intros Ha Ha' E. apply bias_rank_nth in Ha, Ha'. rewrite E in Ha. congruence. Qed.

(** * The constructor loops *)

Section Loops.
Variables (bias_sd noise bias_walk : V3 Qc) (sm_sd : M3).

(** Run over any list of indices, a loop appends one entry per enabled index to each of its
    lists, numbered by the counter.  A walking bias also gets a row of [G]: its own state
    number, as [H] holds it. *)
Lemma bias_fold L : forall a,
  let Lb := filter (fun k => Qcpos (get3 k bias_sd)) L in
  let Lw := filter (fun k => Qcpos (get3 k bias_walk)) Lb in
  fold_left (fun a k => bias_step bias_sd bias_walk k a) L a
  = mk_acc1 (a_ns a + List.length Lb) (a_nn a + List.length Lw)
      (a_states a ++ map bias_name Lb)
      (a_P a ++ map (fun k => sq (get3 k bias_sd)) Lb)
      (a_G a ++ indexed (a_nn a)
                  (map snd (filter (fun kn => Qcpos (get3 (fst kn) bias_walk)) (indexed (a_ns a) Lb))))
      (a_H a ++ indexed (a_ns a) Lb)
      (a_q a ++ map (fun k => get3 k bias_walk) Lw).
Proof.
  induction L as [|k L IH]; intro a; cbn zeta in *.
  - destruct a. cbn. now rewrite !Nat.add_0_r, !app_nil_r.
  - cbn [fold_left filter]. rewrite IH. unfold bias_step.
    destruct (Qcpos (get3 k bias_sd)); [|reflexivity].
    rewrite indexed_cons. cbn [filter fst].
    destruct (Qcpos (get3 k bias_walk));
      cbn [a_ns a_nn a_states a_P a_G a_H a_q List.length map snd];
      now rewrite ?indexed_cons, <- !app_assoc, ?Nat.add_succ_r.
Qed.

Lemma sm_fold L : forall b,
  let Ls := filter (fun oi => Qcpos (get33 (fst oi) (snd oi) sm_sd)) L in
  fold_left (fun b oi => sm_step sm_sd (fst oi) (snd oi) b) L b
  = mk_acc2 (b_ns b + List.length Ls)
      (b_states b ++ map (fun oi => sm_name (fst oi) (snd oi)) Ls)
      (b_P b ++ map (fun oi => sq (get33 (fst oi) (snd oi) sm_sd)) Ls)
      (b_sm b ++ indexed (b_ns b) Ls).
Proof.
  induction L as [|[o i] L IH]; intro b; cbn zeta in *.
  - destruct b. cbn. now rewrite Nat.add_0_r, !app_nil_r.
  - cbn [fold_left filter fst snd]. rewrite IH. unfold sm_step.
    destruct (Qcpos (get33 o i sm_sd)); [|reflexivity].
    cbn [b_ns b_states b_P b_sm List.length map fst snd].
    now rewrite indexed_cons, <- !app_assoc, Nat.add_succ_r.
Qed.

Lemma noise_fold L : forall c,
  let Ln := filter (fun k => Qcpos (get3 k noise)) L in
  fold_left (fun c k => noise_step noise k c) L c
  = mk_acc3 (c_n c + List.length Ln) (c_J c ++ indexed (c_n c) Ln)
            (c_v c ++ map (fun k => get3 k noise) Ln).
Proof.
  induction L as [|k L IH]; intro c; cbn zeta in *.
  - destruct c. cbn. now rewrite Nat.add_0_r, !app_nil_r.
  - cbn [fold_left filter]. rewrite IH. unfold noise_step.
    destruct (Qcpos (get3 k noise)); [|reflexivity].
    cbn [c_n c_J c_v List.length map].
    now rewrite indexed_cons, <- !app_assoc, Nat.add_succ_r.
Qed.

End Loops.

(** * [targets]: the layout of the state vector *)

Definition sd_sq (bias_sd : V3 Qc) (sm_sd : M3) (t : target) : Qc :=
  match t with TBias a => sq (get3 a bias_sd) | TSm o i => sq (get33 o i sm_sd) end.

Definition all_targets : list target :=
  map TBias (seq 0 3) ++ map (fun oi => TSm (fst oi) (snd oi)) pairs9.
Definition target_en (bias_sd : V3 Qc) (sm_sd : M3) (t : target) : bool :=
  match t with TBias a => Qcpos (get3 a bias_sd) | TSm o i => Qcpos (get33 o i sm_sd) end.

Section Targets.
Variables (bias_sd : V3 Qc) (sm_sd : M3).
Local Notation ts := (targets bias_sd sm_sd).
Local Notation nb := (List.length (enb bias_sd)).

Lemma targets_map {B} (f : target -> B) :
  map f ts = map (fun a => f (TBias a)) (enb bias_sd)
             ++ map (fun oi => f (TSm (fst oi) (snd oi))) (ensm sm_sd).
Proof. unfold targets. now rewrite map_app, !map_map. Qed.

Lemma targets_length : List.length ts = (nb + List.length (ensm sm_sd))%nat.
Proof. unfold targets. now rewrite app_length, !map_length. Qed.

Lemma nth_error_targets k :
  nth_error ts k = match nth_error (enb bias_sd) k with
                   | Some a => Some (TBias a)
                   | None => option_map (fun oi => TSm (fst oi) (snd oi)) (nth_error (ensm sm_sd) (k - nb))
                   end.
Proof.
  unfold targets. destruct (nth_error (enb bias_sd) k) as [a|] eqn:E.
  - rewrite nth_error_app1, nth_error_map, E; [reflexivity|].
    rewrite map_length. apply nth_error_Some. congruence.
  - apply nth_error_None in E. rewrite nth_error_app2, map_length, nth_error_map; [reflexivity|].
    now rewrite map_length.
Qed.

Lemma nth_targets_bias k a :
  nth_error ts k = Some (TBias a) <-> nth_error (enb bias_sd) k = Some a.
Proof.
  rewrite nth_error_targets. destruct (nth_error (enb bias_sd) k); [split; congruence|].
  destruct (nth_error (ensm sm_sd) _); split; discriminate.
Qed.

Lemma nth_targets_sm k o i :
  nth_error ts k = Some (TSm o i) <-> (nb <= k)%nat /\ nth_error (ensm sm_sd) (k - nb) = Some (o, i).
Proof.
  rewrite nth_error_targets. destruct (nth_error (enb bias_sd) k) eqn:E.
  - split; [discriminate|]. intros [Hle _]. apply nth_error_None in Hle. congruence.
  - apply nth_error_None in E. destruct (nth_error (ensm sm_sd) _) as [[o' i']|]; cbn; intuition congruence.
Qed.

Lemma targets_valid : Forall valid_target ts.
Proof.
  apply Forall_app. split; apply Forall_map, Forall_forall.
  - intros a Ha. apply enb_In in Ha. cbn. tauto.
  - intros [o i] Hoi. apply ensm_In in Hoi. cbn. tauto.
Qed.

Lemma targets_In_valid t : In t ts -> valid_target t.
Proof. apply Forall_forall, targets_valid. Qed.

Lemma nth_error_valid k t : nth_error ts k = Some t -> valid_target t.
Proof. intro H. exact (targets_In_valid t (nth_error_In _ _ H)). Qed.

Lemma targets_filter : ts = filter (target_en bias_sd sm_sd) all_targets.
Proof. unfold targets, all_targets. rewrite filter_app, !filter_map_comm. reflexivity. Qed.

Lemma all_targets_sorted : StronglySorted lt (map key all_targets).
Proof. vm_compute. repeat (constructor; [|repeat constructor]). constructor. Qed.

Lemma targets_sorted : StronglySorted lt (map key ts).
Proof. rewrite targets_filter. apply sorted_map_filter, all_targets_sorted. Qed.

Lemma targets_NoDup : NoDup ts.
Proof. eapply NoDup_map_inv, sorted_lt_NoDup, targets_sorted. Qed.

Lemma all_targets_valid t : In t all_targets <-> valid_target t.
Proof.
  unfold all_targets. rewrite in_app_iff, !in_map_iff. destruct t as [a|o i]; cbn [valid_target]; split.
  - intros [(a' & E & Ha)|((o & i) & E & _)]; [|discriminate]. injection E as <-. apply in_seq in Ha. lia.
  - intro Ha. left. exists a. split; [reflexivity|]. apply in_seq. lia.
  - intros [(a & E & _)|((o' & i') & E & Hoi)]; [discriminate|]. injection E as <- <-. now apply in_pairs9.
  - intro Hoi. right. exists (o, i). split; [reflexivity|]. now apply in_pairs9.
Qed.

Lemma targets_In t : valid_target t -> (In t ts <-> target_en bias_sd sm_sd t = true).
Proof. intro Hv. rewrite targets_filter, filter_In, all_targets_valid. tauto. Qed.

End Targets.

(** * What the constructor returns *)

Definition layout (bias_sd noise bias_walk : V3 Qc) (sm_sd : M3) : emodel :=
  let ts := targets bias_sd sm_sd in
  let ew := enw bias_sd bias_walk in
  let en := enn noise in
  mk_emodel (map name_of ts) (List.length ts) (List.length ew) (List.length en)
            (map (sd_sq bias_sd sm_sd) ts)
            (map (fun a => get3 a bias_walk) ew) (map (fun a => get3 a noise) en)
            (indexed 0 (map (bias_rank bias_sd) ew)) (indexed 0 (enb bias_sd)) (indexed 0 en)
            (indexed (List.length (enb bias_sd)) (ensm sm_sd)).

Lemma build_layout bias_sd noise bias_walk sm_sd :
  build bias_sd noise bias_walk sm_sd
  = if walk_without_bias bias_sd bias_walk then None
    else Some (layout bias_sd noise bias_walk sm_sd).
Proof.
  unfold build. destruct (walk_without_bias bias_sd bias_walk); [reflexivity|].
  unfold bias_loop, sm_loop, sm_inner, noise_loop, layout.
  rewrite for_range_nested, !for_range_fold, noise_fold, bias_fold, sm_fold.
  cbn [a_ns a_nn a_states a_P a_G a_H a_q b_ns b_states b_P b_sm c_n c_J c_v plus app].
  fold (enb bias_sd) (enw bias_sd bias_walk) (enn noise) pairs9. fold (ensm sm_sd).
  now rewrite enb_indexed, filter_map_comm, map_map, !targets_map, targets_length.
Qed.

Lemma built bias_sd noise bias_walk sm_sd m :
  build bias_sd noise bias_walk sm_sd = Some m -> m = layout bias_sd noise bias_walk sm_sd.
Proof. rewrite build_layout. destruct (walk_without_bias _ _); congruence. Qed.

Lemma walk_without_bias_spec bias_sd bias_walk :
  walk_without_bias bias_sd bias_walk = true <->
  exists a, (a < 3)%nat /\ 0 < get3 a bias_walk /\ get3 a bias_sd <= 0.
Proof.
  unfold walk_without_bias. rewrite existsb_exists.
  split; intros (a & H); exists a; revert H;
    rewrite in_seq, andb_true_iff, Qcnonpos_spec, Qcpos_spec; intuition lia.
Qed.

(** the constructor raises exactly in the documented case *)
Lemma walk_requires_bias bias_sd noise bias_walk sm_sd :
  build bias_sd noise bias_walk sm_sd = None <->
  exists a, (a < 3)%nat /\ 0 < get3 a bias_walk /\ get3 a bias_sd <= 0.
Proof.
  rewrite build_layout, <- walk_without_bias_spec.
  destruct (walk_without_bias bias_sd bias_walk); split; congruence.
Qed.

(** * The estimate state machine, observed through [read_target] *)

Lemma get3_upd3_same {A} i (f : A -> A) u : get3 i (upd3 i f u) = f (get3 i u).
Proof. destruct i as [|[|i]]; reflexivity. Qed.

Lemma get3_upd3_other {A} i j (f : A -> A) u :
  (i < 3)%nat -> (j < 3)%nat -> i <> j -> get3 i (upd3 j f u) = get3 i u.
Proof.
  intros Hi Hj Hne.
  destruct (lt3_cases i Hi) as [->|[->| ->]], (lt3_cases j Hj) as [->|[->| ->]];
    try reflexivity; congruence.
Qed.

Lemma read_add_same t xi st : read_target t (add_target t xi st) = read_target t st + xi.
Proof.
  destruct t as [a|o i]; cbn.
  - rewrite get3_upd3_same. reflexivity.
  - unfold get33, upd33. rewrite !get3_upd3_same. ring.
Qed.

Lemma read_add_other t t' xi st :
  valid_target t -> valid_target t' -> t <> t' ->
  read_target t (add_target t' xi st) = read_target t st.
Proof.
  destruct t as [a|o i], t' as [a'|o' i']; cbn; intros Hv Hv' Hne; try reflexivity.
  - apply get3_upd3_other; try lia. congruence.
  - f_equal. unfold get33, upd33. destruct Hv as [Ho Hi], Hv' as [Ho' Hi'].
    destruct (Nat.eq_dec o o') as [->|Hoo].
    + rewrite get3_upd3_same. apply get3_upd3_other; try lia. congruence.
    + rewrite get3_upd3_other by lia. reflexivity.
Qed.

Lemma est_ext st st' :
  (forall t, valid_target t -> read_target t st = read_target t st') -> st = st'.
Proof.
  intro Hr. destruct st as [T b], st' as [T' b']. f_equal.
  - apply v3_ext. intros o Ho. apply v3_ext. intros i Hi.
    apply (Qcminus_inj _ _ (delta o i)). exact (Hr (TSm o i) (conj Ho Hi)).
  - apply v3_ext. intros a Ha. exact (Hr (TBias a) Ha).
Qed.

Lemma read_reset t : valid_target t -> read_target t reset = 0.
Proof.
  destruct t as [a|o i]; cbn [valid_target read_target reset e_T e_b].
  - intros _. apply get3_zero3.
  - intros [Ho Hi]. rewrite get33_ident3 by assumption. ring.
Qed.

Lemma add_all_cons t ts xi xs st :
  add_all (t :: ts) (xi :: xs) st = add_all ts xs (add_target t xi st).
Proof. reflexivity. Qed.

Lemma read_add_all_notin t ts xs st :
  valid_target t -> Forall valid_target ts -> ~ In t ts ->
  read_target t (add_all ts xs st) = read_target t st.
Proof.
  intros Ht Hv. revert xs st. induction Hv as [|t' ts Ht' Hv IH]; intros xs st Hn; [reflexivity|].
  destruct xs as [|xi xs]; [reflexivity|]. rewrite add_all_cons, IH by (cbn in Hn; tauto).
  apply read_add_other; auto. cbn in Hn. intro E. apply Hn. left. congruence.
Qed.

Lemma read_add_all_in ts xs st k t :
  Forall valid_target ts -> NoDup ts -> nth_error ts k = Some t ->
  read_target t (add_all ts xs st) = read_target t st + nth k xs 0.
Proof.
  intros Hv Hnd. revert xs st k.
  induction Hnd as [|t' ts Hnot Hnd IH]; intros xs st k Hk; [destruct k; discriminate|].
  inversion Hv as [|? ? Ht' Hv']; subst.
  destruct xs as [|xi xs]; [destruct k; cbn; ring|]. rewrite add_all_cons.
  destruct k as [|k]; cbn [nth_error nth] in *.
  - injection Hk as <-. now rewrite read_add_all_notin, read_add_same.
  - rewrite (IH Hv' _ _ _ Hk). f_equal. pose proof (nth_error_In _ _ Hk) as Hin.
    apply read_add_other; auto; [|congruence].
    exact (proj1 (Forall_forall _ _) Hv' t Hin).
Qed.

(** [add_all ts xs st] is the estimate that reads [xs[k]] more than [st] at [ts[k]], and
    like [st] elsewhere *)
Lemma add_all_ext ts xs st st' :
  Forall valid_target ts -> NoDup ts ->
  (forall k t, nth_error ts k = Some t -> read_target t st' = read_target t st + nth k xs 0) ->
  (forall t, valid_target t -> ~ In t ts -> read_target t st' = read_target t st) ->
  st' = add_all ts xs st.
Proof.
  intros Hv Hnd Hin Hout. apply est_ext. intros t Ht.
  assert (Hdec : forall x y : target, {x = y} + {x <> y}) by (decide equality; apply Nat.eq_dec).
  destruct (in_dec Hdec t ts) as [Hi|Hn].
  - apply In_nth_error in Hi. destruct Hi as [k Hk].
    now rewrite (Hin k t Hk), (read_add_all_in ts xs st k t).
  - now rewrite Hout, read_add_all_notin.
Qed.

Lemma vadd_length x y : List.length x = List.length y -> List.length (vadd x y) = List.length x.
Proof. intro H. unfold vadd. rewrite map_length, combine_length. lia. Qed.

Lemma nth_vadd x y k :
  List.length x = List.length y -> nth k (vadd x y) 0 = nth k x 0 + nth k y 0.
Proof.
  revert y k. induction x as [|a x IH]; intros [|b y] k Hl; try discriminate.
  - destruct k; cbn; ring.
  - destruct k as [|k]; [reflexivity|]. apply (IH y k). cbn in Hl. lia.
Qed.

Lemma add_all_vadd ts x1 x2 st :
  Forall valid_target ts -> NoDup ts -> List.length x1 = List.length x2 ->
  add_all ts x2 (add_all ts x1 st) = add_all ts (vadd x1 x2) st.
Proof.
  intros Hv Hnd Hl. apply add_all_ext; auto.
  - intros k t Hk. rewrite !(read_add_all_in ts _ _ k t), nth_vadd by assumption. ring.
  - intros t Ht Hn. now rewrite !read_add_all_notin.
Qed.

Lemma add_all_zeros ts n st : Forall valid_target ts -> NoDup ts -> add_all ts (repeat 0 n) st = st.
Proof.
  intros Hv Hnd. symmetry. apply add_all_ext; auto.
  intros k t _. rewrite nth_repeat. ring.
Qed.

Lemma read_all_add_all ts xs st :
  Forall valid_target ts -> NoDup ts -> List.length xs = List.length ts ->
  map (fun t => read_target t (add_all ts xs st)) ts
  = vadd (map (fun t => read_target t st) ts) xs.
Proof.
  intros Hv Hnd Hl. apply nth_ext with (d := 0) (d' := 0).
  - rewrite vadd_length; now rewrite !map_length.
  - rewrite map_length. intros k Hk. rewrite nth_vadd by now rewrite map_length.
    destruct (nth_error ts k) as [t|] eqn:E; [|apply nth_error_None in E; lia].
    rewrite !(nth_error_nth _ _ _ (map_nth_error _ _ _ E)).
    now apply read_add_all_in.
Qed.

Lemma read_reset_all ts :
  Forall valid_target ts -> map (fun t => read_target t reset) ts = repeat 0 (List.length ts).
Proof.
  induction 1 as [|t ts Ht Hv IH]; [reflexivity|].
  cbn [map List.length repeat]. now rewrite (read_reset _ Ht), IH.
Qed.

(** on the names of valid targets the two loops over the state names decode every name *)
Lemma update_loop_targets ts x st :
  Forall valid_target ts -> update_loop (map name_of ts) x st = Some (add_all ts x st).
Proof.
  intro Hv. revert x st. induction Hv as [|t ts Ht Hv IH]; intros x st; [reflexivity|].
  destruct x as [|xi xs]; [reflexivity|]. cbn [map update_loop].
  rewrite (decode_name_of _ Ht). apply IH.
Qed.

Lemma get_loop_targets ts st :
  Forall valid_target ts ->
  get_loop (map name_of ts) st = Some (map (fun t => read_target t st) ts).
Proof.
  induction 1 as [|t ts Ht Hv IH]; [reflexivity|]. cbn [map get_loop].
  now rewrite (decode_name_of _ Ht), IH.
Qed.

(** the parameter a state stands for, and its coefficient in the reading of one axis *)
Definition val (b : V3 Qc) (E : M3) (t : target) : Qc :=
  match t with TBias a => get3 a b | TSm o i => get33 o i E end.
Definition coef (axis : nat) (r : V3 Qc) (t : target) : Qc :=
  match t with
  | TBias a => ind (Nat.eqb a axis)
  | TSm o i => if Nat.eqb o axis then get3 i r else 0
  end.

Lemma state_vector_val bias_sd sm_sd b E :
  state_vector bias_sd sm_sd b E = map (val b E) (targets bias_sd sm_sd).
Proof. symmetry. apply (targets_map _ _ (val b E)). Qed.

Lemma val_disabled bias_sd sm_sd b E t :
  bias_supported bias_sd b -> sm_supported sm_sd E -> valid_target t ->
  target_en bias_sd sm_sd t = false -> val b E t = 0.
Proof.
  intros Hsb Hse Hv Hen. destruct t as [a|o i]; cbn in *.
  - now apply Hsb.
  - destruct Hv. now apply Hse.
Qed.

Lemma read_mk_est T b t :
  valid_target t -> read_target t (mk_est T b) = val b (msub T ident3) t.
Proof.
  destruct t as [a|o i]; cbn [valid_target read_target val e_T e_b]; [reflexivity|].
  intros [Ho Hi]. now rewrite get33_msub, get33_ident3.
Qed.

(** * Sums of squares over the unit entries: [gram] *)

Lemma sum_zero {A} (l : list A) (g : A -> Qc) :
  (forall x, In x l -> g x = 0) -> fold_right Qcplus 0 (map g l) = 0.
Proof.
  induction l as [|x l IH]; intro Hz; [reflexivity|]. cbn [map fold_right].
  rewrite (Hz x (or_introl eq_refl)), IH; [ring|]. intros y Hy. apply Hz. now right.
Qed.

Lemma gram_indexed {A} (l : list A) (h : A -> nat) (f : A -> Qc) r r' :
  gram (indexed 0 (map h l)) (map f l) r r'
  = fold_right Qcplus 0
      (map (fun x => ind (Nat.eqb (h x) r) * sq (f x) * ind (Nat.eqb (h x) r')) l).
Proof.
  unfold gram. rewrite map_length. f_equal. apply (map_seq_nth l _ _ 0). intros s t Hs. cbn [plus].
  now rewrite !has_entry_indexed, (nth_error_nth _ _ _ (map_nth_error f _ _ Hs)), (map_nth_error h _ _ Hs).
Qed.

Lemma gram_zero {A} (l : list A) (h : A -> nat) (f : A -> Qc) r r' :
  r <> r' \/ (forall x, In x l -> h x <> r) -> gram (indexed 0 (map h l)) (map f l) r r' = 0.
Proof.
  intro Hz. rewrite gram_indexed. apply sum_zero. intros x Hx.
  destruct (Nat.eqb_spec (h x) r) as [E|]; [|cbn; ring].
  destruct (Nat.eqb_spec (h x) r') as [E'|]; [|cbn; ring].
  exfalso. destruct Hz as [Hne|Hout]; [congruence|exact (Hout x Hx E)].
Qed.

Lemma gram_diag {A} (l : list A) (h : A -> nat) (f : A -> Qc) a :
  NoDup (map h l) -> In a l -> gram (indexed 0 (map h l)) (map f l) (h a) (h a) = sq (f a).
Proof.
  rewrite gram_indexed. induction l as [|x l IH]; intros Hnd Hin; [contradiction|].
  cbn [map] in Hnd. inversion Hnd as [|? ? Hnot Hnd']; subst. cbn [map fold_right].
  destruct Hin as [->|Hin].
  - rewrite Nat.eqb_refl. cbn [ind]. rewrite sum_zero; [ring|].
    intros y Hy. destruct (Nat.eqb_spec (h y) (h a)) as [E|]; [|cbn; ring].
    exfalso. apply Hnot. rewrite <- E. now apply in_map.
  - rewrite (IH Hnd' Hin). destruct (Nat.eqb_spec (h x) (h a)) as [E|]; [|cbn; ring].
    exfalso. apply Hnot. rewrite E. now apply in_map.
Qed.

Lemma dot_filter {A} (f g : A -> Qc) (p : A -> bool) l :
  (forall x, In x l -> p x = false -> g x = 0) ->
  dot (map f (filter p l)) (map g (filter p l)) = dot (map f l) (map g l).
Proof.
  induction l as [|x l IH]; intro Hz; [reflexivity|]. cbn [filter map dot].
  rewrite <- IH by (intros y Hy; apply Hz; now right). destruct (p x) eqn:Ep; [reflexivity|].
  rewrite (Hz x (or_introl eq_refl) Ep). ring.
Qed.

Lemma dot_all_targets axis r b E :
  (axis < 3)%nat ->
  dot (map (coef axis r) all_targets) (map (val b E) all_targets) = get3 axis (add3 (mv3 E r) b).
Proof.
  intro Ha. destruct (lt3_cases axis Ha) as [->|[->| ->]];
    cbn; unfold dot3; ring.
Qed.

(** What follows is about the record the constructor returns; [built] carries it over to any
    [m] with [build ... = Some m]. *)
Section Layout.
Variables (bias_sd noise bias_walk : V3 Qc) (sm_sd : M3).
Local Notation m := (layout bias_sd noise bias_walk sm_sd).
Local Notation ts := (targets bias_sd sm_sd).
Local Notation nb := (List.length (enb bias_sd)).

(** ** Positions: names, [H] and [_scale_misal_data] agree about every state *)

Lemma nth_error_states k : nth_error (states m) k = option_map name_of (nth_error ts k).
Proof. apply nth_error_map. Qed.

Lemma state_named k t : nth_error (states m) k = Some (name_of t) <-> nth_error ts k = Some t.
Proof.
  rewrite nth_error_states. split; [|now intros ->].
  destruct (nth_error ts k) as [t'|] eqn:E; [|discriminate].
  intro En. injection En as En. f_equal. exact (name_of_inj _ _ (nth_error_valid _ _ _ _ E) En).
Qed.

Lemma H_positions a s : In (a, s) (H m) <-> nth_error (states m) s = Some (bias_name a).
Proof.
  cbn [H layout]. rewrite In_indexed0, <- (nth_targets_bias bias_sd sm_sd). symmetry.
  apply (state_named s (TBias a)).
Qed.

Lemma sm_positions o i s :
  In (o, i, s) (scale_misal_data m) <-> nth_error (states m) s = Some (sm_name o i).
Proof.
  cbn [scale_misal_data layout]. rewrite In_indexed, <- nth_targets_sm. symmetry.
  apply (state_named s (TSm o i)).
Qed.

Lemma created_for_spec k : created_for m k = nth_error ts k.
Proof.
  unfold created_for. cbn [H scale_misal_data layout].
  rewrite !find_index, nth_error_targets, Nat.sub_0_r. cbn [Nat.leb].
  destruct (nth_error (enb bias_sd) k) as [a|] eqn:E; [reflexivity|].
  apply nth_error_None, Nat.leb_le in E. rewrite E.
  now destruct (nth_error (ensm sm_sd) (k - nb)) as [[o i]|].
Qed.

(** for every state index, decoding the state's NAME yields exactly the bias axis / matrix
    entry which the constructor's matrices ([H], [_scale_misal_data]) attach to that index;
    and every index below [n_states] has such a meaning *)
Lemma update_decodes_layout k : (k < n_states m)%nat ->
  exists t name, created_for m k = Some t /\ valid_target t /\
                 nth_error (states m) k = Some name /\ decode name = DTarget t.
Proof.
  cbn [n_states layout]. intro Hk. rewrite created_for_spec, nth_error_states.
  destruct (nth_error ts k) as [t|] eqn:Et; [|apply nth_error_None in Et; lia].
  pose proof (nth_error_valid _ _ _ _ Et) as Hv.
  exists t, (name_of t). auto using decode_name_of.
Qed.

Lemma states_NoDup : NoDup (states m).
Proof.
  apply NoDup_map_inj_in; [|apply targets_NoDup].
  intros t t' Ht _. apply name_of_inj. exact (targets_In_valid _ _ t Ht).
Qed.

(** ** The estimate state machine of a built model *)

(** [update] adds [x[k]] to the target state [k] was created for, for every state, and fails
    exactly on a length mismatch. *)
Lemma update_spec x st :
  update m x st = if Nat.eqb (List.length x) (n_states m)
                  then Some (add_all ts x st) else None.
Proof.
  unfold update. cbn [states n_states layout]. rewrite map_length.
  destruct (Nat.eqb _ _); [|reflexivity]. apply update_loop_targets, targets_valid.
Qed.

Lemma update_iff x st st' :
  update m x st = Some st' <-> List.length x = List.length ts /\ st' = add_all ts x st.
Proof.
  rewrite update_spec. cbn [n_states layout].
  destruct (Nat.eqb_spec (List.length x) (List.length ts)); intuition congruence.
Qed.

Lemma get_estimates_spec st : get_estimates m st = Some (map (fun t => read_target t st) ts).
Proof. apply get_loop_targets, targets_valid. Qed.

Lemma update_accumulate x1 x2 st st1 st2 :
  update m x1 st = Some st1 -> update m x2 st1 = Some st2 -> update m (vadd x1 x2) st = Some st2.
Proof.
  rewrite !update_iff. intros [L1 ->] [L2 ->]. rewrite vadd_length by lia. split; [exact L1|].
  apply add_all_vadd; [apply targets_valid|apply targets_NoDup|lia].
Qed.

(** one update adds [x] componentwise (in state order) to what [get_estimates] returns *)
Lemma get_update x st st' g :
  get_estimates m st = Some g -> update m x st = Some st' -> get_estimates m st' = Some (vadd g x).
Proof.
  rewrite !get_estimates_spec, update_iff. intros Hg [Hl ->]. injection Hg as <-. f_equal.
  apply read_all_add_all; [apply targets_valid|apply targets_NoDup|exact Hl].
Qed.

Lemma get_reset : get_estimates m reset = Some (repeat 0 (n_states m)).
Proof. rewrite get_estimates_spec. f_equal. apply read_reset_all, targets_valid. Qed.

Lemma get_updates xs : forall st st' g,
  get_estimates m st = Some g -> updates m xs st = Some st' ->
  get_estimates m st' = Some (fold_left vadd xs g).
Proof.
  induction xs as [|x xs IH]; intros st st' g Hg Hu; cbn [updates fold_left] in *; [congruence|].
  destruct (update m x st) as [st1|] eqn:E; [|discriminate].
  exact (IH _ _ _ (get_update _ _ _ _ Hg E) Hu).
Qed.

(** a sequence of updates from a state reached by one update is one update with the sum *)
Lemma updates_accumulate xs : forall g st st1 st',
  update m g st = Some st1 -> updates m xs st1 = Some st' ->
  update m (fold_left vadd xs g) st = Some st'.
Proof.
  induction xs as [|x xs IH]; intros g st st1 st' Hg Hu; cbn [updates fold_left] in *; [congruence|].
  destruct (update m x st1) as [st2|] eqn:E; [|discriminate].
  exact (IH _ _ _ _ (update_accumulate _ _ _ _ _ Hg E) Hu).
Qed.

Lemma updates_defined xs st :
  Forall (fun x => List.length x = n_states m) xs -> exists st', updates m xs st = Some st'.
Proof.
  intros Hf. revert st. induction Hf as [|x xs Hx Hf IH]; intro st; cbn [updates]; [eauto|].
  rewrite update_spec, Hx, Nat.eqb_refl. apply IH.
Qed.

(** an update of the wrong length is rejected (ValueError); a rejected update changes nothing *)
Lemma update_rejected x st :
  (update m x st = None <-> List.length x <> n_states m) /\
  (List.length x <> n_states m -> update_or_keep m st x = st).
Proof.
  unfold update_or_keep. rewrite update_spec.
  destruct (Nat.eqb_spec (List.length x) (n_states m)); intuition congruence.
Qed.

(** a history of calls, some of them rejected and caught, equals the history of the accepted
    calls alone *)
Lemma run_history_accepted xs st : updates m (accepted m xs) st = Some (run_history m xs st).
Proof.
  revert st. induction xs as [|x xs IH]; intro st; [reflexivity|].
  unfold run_history, accepted in *. cbn [fold_left filter]. unfold update_or_keep at 2.
  rewrite update_spec. destruct (Nat.eqb (List.length x) (n_states m)) eqn:E; [|apply IH].
  cbn [updates]. rewrite update_spec, E. apply IH.
Qed.

(** ... hence the estimates after any such history (from reset) are the sum of the accepted
    vectors, and equal ONE update with that sum *)
Lemma history_accumulates xs :
  get_estimates m (run_history m xs reset) = Some (vsum (n_states m) (accepted m xs)) /\
  update m (vsum (n_states m) (accepted m xs)) reset = Some (run_history m xs reset).
Proof.
  pose proof (run_history_accepted xs reset) as Hu. split.
  - exact (get_updates _ _ _ _ get_reset Hu).
  - refine (updates_accumulate _ _ _ _ _ _ Hu). apply update_iff.
    now rewrite repeat_length, add_all_zeros by (apply targets_valid || apply targets_NoDup).
Qed.

(** updating a freshly reset model with the state vector that lists the simulator's
    parameters makes [transform], [bias] EQUAL to the simulator's *)
Lemma estimates_equal_parameters T b :
  bias_supported bias_sd b -> sm_supported sm_sd (msub T ident3) ->
  update m (state_vector bias_sd sm_sd b (msub T ident3)) reset = Some (mk_est T b).
Proof.
  intros Hsb Hse. apply update_iff. rewrite state_vector_val, map_length. split; [reflexivity|].
  apply add_all_ext; [apply targets_valid|apply targets_NoDup| |].
  - intros k t Hk. pose proof (nth_error_valid _ _ _ _ Hk) as Hv.
    rewrite (nth_error_nth _ _ _ (map_nth_error _ _ _ Hk)), read_mk_est, read_reset by exact Hv. ring.
  - intros t Hv Hn. rewrite read_mk_est, read_reset by exact Hv.
    apply (val_disabled bias_sd sm_sd); auto.
    apply not_true_iff_false. now rewrite <- targets_In.
Qed.

(** ** Dimensions and entries *)

Lemma bias_state_position a :
  In a (enb bias_sd) -> nth_error (states m) (bias_rank bias_sd a) = Some (bias_name a).
Proof. intro Hin. apply H_positions, In_indexed0. now apply bias_rank_nth. Qed.

(** G: one unit entry per walking bias, in the row of that bias state; q lists the walk
    intensities in the same column order *)
Lemma G_entries :
  (forall r c, In (r, c) (G m) <->
     exists a, nth_error (enw bias_sd bias_walk) c = Some a /\ r = bias_rank bias_sd a) /\
  (forall r c, In (r, c) (G m) ->
     exists a, nth_error (states m) r = Some (bias_name a) /\ 0 < get3 a bias_walk /\
               nth_error (q m) c = Some (get3 a bias_walk) /\ (r < n_states m)%nat /\ (c < n_noises m)%nat) /\
  q m = map (fun a => get3 a bias_walk) (enw bias_sd bias_walk).
Proof.
  split; [intros; apply In_indexed_map|]. split; [|reflexivity].
  intros r c Hin. apply In_indexed_map in Hin. destruct Hin as (a & Hn & ->). exists a.
  pose proof (nth_error_In _ _ Hn) as Hw. pose proof (enw_incl_enb _ _ _ Hw) as Hin.
  apply enw_In in Hw. split; [now apply bias_state_position|]. split; [tauto|].
  split; [exact (map_nth_error _ _ _ Hn)|]. cbn [n_states n_noises layout].
  apply nth_error_lt in Hn. apply bias_rank_nth, nth_error_lt in Hin. rewrite targets_length. lia.
Qed.

(** J: one unit entry per noisy axis, columns in axis order; v lists the intensities *)
Lemma J_entries :
  (forall a c, In (a, c) (J m) <-> nth_error (enn noise) c = Some a) /\
  (forall a c, In (a, c) (J m) ->
     (a < 3)%nat /\ 0 < get3 a noise /\ nth_error (v m) c = Some (get3 a noise) /\ (c < n_output_noises m)%nat) /\
  v m = map (fun a => get3 a noise) (enn noise).
Proof.
  split; [intros; apply In_indexed0|]. split; [|reflexivity].
  intros a c Hn. apply In_indexed0 in Hn. pose proof (nth_error_In _ _ Hn) as Hin.
  apply enn_In in Hin. split; [tauto|]. split; [tauto|].
  split; [exact (map_nth_error _ _ _ Hn)|exact (nth_error_lt _ _ _ Hn)].
Qed.

(** H: a unit at (axis, state) exactly for the bias state of that axis *)
Lemma H_entries :
  (forall a s, In (a, s) (H m) <-> nth_error (states m) s = Some (bias_name a)) /\
  (forall a s, In (a, s) (H m) -> (a < 3)%nat /\ 0 < get3 a bias_sd /\ (s < n_states m)%nat).
Proof.
  split; [exact H_positions|]. intros a s Hn. apply In_indexed0 in Hn.
  pose proof (nth_error_In _ _ Hn) as Hin. apply enb_In in Hin. split; [tauto|]. split; [tauto|].
  cbn [n_states layout]. apply nth_error_lt in Hn. rewrite targets_length. lia.
Qed.

(** P: the initial variance of every state is the squared sd of the term it was created for *)
Lemma P_entries : P m = map (sd_sq bias_sd sm_sd) ts /\ Forall (fun x => 0 < x) (P m).
Proof.
  split; [reflexivity|]. apply Forall_map, Forall_forall. intros t Ht.
  apply (targets_In _ _ _ (targets_In_valid _ _ t Ht)) in Ht. destruct t; apply sq_pos, Qcpos_spec, Ht.
Qed.

(** ** Names agree with the simulator's data_frame *)

Lemma columns_states p :
  (forall a, (a < 3)%nat -> col_bias_en p a = Qcpos (get3 a bias_sd)) ->
  (forall o i, (o < 3)%nat -> (i < 3)%nat -> col_sm_en p (o, i) = Qcpos (get33 o i sm_sd)) ->
  columns p = states m /\
  df_row p = state_vector bias_sd sm_sd (p_b p) (msub (p_T p) ident3).
Proof.
  intros H1 H2. unfold columns, df_row, df_row_at, state_vector.
  replace (filter (col_bias_en p) (seq 0 3)) with (enb bias_sd)
    by (apply filter_ext_in; intros a Ha; apply in_seq in Ha; symmetry; apply H1; lia).
  replace (filter (col_sm_en p) pairs9) with (ensm sm_sd)
    by (apply filter_ext_in; intros [o i] Hoi; apply in_pairs9 in Hoi; symmetry; now apply H2).
  split; [symmetry; apply (targets_map _ _ name_of)|]. f_equal.
  apply map_ext_in. intros [o i] Hoi. apply ensm_In in Hoi. cbn [fst snd].
  now rewrite get33_msub, get33_ident3.
Qed.

(** ** The output matrix times the state vector *)

Lemma om_entry_spec r axis s t : nth_error ts s = Some t -> om_entry m r axis s = coef axis r t.
Proof.
  unfold om_entry. cbn [H scale_misal_data layout].
  rewrite (find_indexed (fun oi => Nat.eqb (fst oi) axis)), has_entry_indexed, nth_error_targets.
  destruct (nth_error (enb bias_sd) s) as [a|] eqn:E.
  - intros [= <-]. apply nth_error_lt, Nat.leb_gt in E. now rewrite E.
  - apply nth_error_None, Nat.leb_le in E. rewrite E.
    destruct (nth_error (ensm sm_sd) (s - nb)) as [[o i]|]; [|discriminate].
    intros [= <-]. cbn [fst snd coef]. now destruct (Nat.eqb o axis).
Qed.

Lemma om_row_spec r axis : om_row m r axis = map (coef axis r) ts.
Proof. apply (map_seq_nth ts _ _ 0). intros s t. apply om_entry_spec. Qed.

Lemma output_matrix_state_vector r b E :
  bias_supported bias_sd b -> sm_supported sm_sd E ->
  mat_vec (output_matrix m r) (state_vector bias_sd sm_sd b E) = v3_list (add3 (mv3 E r) b).
Proof.
  intros Hsb Hse. unfold mat_vec, output_matrix. rewrite map_map. cbn [seq map].
  rewrite !om_row_spec, state_vector_val, targets_filter.
  rewrite !dot_filter
    by (intros t Ht; apply val_disabled; auto; now apply all_targets_valid).
  now rewrite !dot_all_targets by lia.
Qed.

(** ** The covariance rates the estimator assumes: J v^2 J^T and G q^2 G^T *)

Lemma JvJ_gram :
  JvJ m = gram (indexed 0 (map (fun a => a) (enn noise))) (map (fun a => get3 a noise) (enn noise)).
Proof. unfold JvJ. cbn [J v layout]. now rewrite map_id. Qed.

Lemma JvJ_diag a : (a < 3)%nat -> 0 <= get3 a noise -> JvJ m a a = sq (get3 a noise).
Proof.
  intros Ha Hn. rewrite JvJ_gram. destruct (Qcpos (get3 a noise)) eqn:Ep.
  - apply (gram_diag _ (fun x => x) (fun a => get3 a noise)).
    + rewrite map_id. apply enn_NoDup.
    + apply enn_In. now rewrite <- Qcpos_spec.
  - rewrite (Qcpos_false_nonneg _ Hn Ep). apply gram_zero. right.
    intros x Hx ->. apply enn_In in Hx. rewrite <- Qcpos_spec in Hx. destruct Hx. congruence.
Qed.

(** J v^2 J^T = diag(noise_a^2 over the enabled axes) *)
Lemma JvJ_spec :
  (forall a, (a < 3)%nat -> 0 < get3 a noise -> JvJ m a a = sq (get3 a noise)) /\
  (forall a a', a <> a' -> JvJ m a a' = 0) /\
  (forall a a', ~ ((a < 3)%nat /\ 0 < get3 a noise) -> JvJ m a a' = 0).
Proof.
  split; [intros a Ha Hn; now apply JvJ_diag, Qclt_le_weak|].
  rewrite JvJ_gram. split; intros a a' Hz; apply gram_zero; [now left|right].
  intros x Hx ->. now apply Hz, enn_In.
Qed.

Lemma enw_rank_NoDup : NoDup (map (bias_rank bias_sd) (enw bias_sd bias_walk)).
Proof.
  apply NoDup_map_inj_in; [|apply enw_NoDup].
  intros x y Hx Hy. apply bias_rank_inj; eapply enw_incl_enb; eassumption.
Qed.

Lemma GqG_diag a :
  In a (enb bias_sd) -> 0 <= get3 a bias_walk ->
  GqG m (bias_rank bias_sd a) (bias_rank bias_sd a) = sq (get3 a bias_walk).
Proof.
  intros Hin Hw. unfold GqG. cbn [G q layout]. destruct (Qcpos (get3 a bias_walk)) eqn:Ep.
  - apply (gram_diag _ _ (fun a => get3 a bias_walk)); [apply enw_rank_NoDup|].
    apply filter_In. auto.
  - rewrite (Qcpos_false_nonneg _ Hw Ep). apply gram_zero. right. intros x Hx E.
    apply bias_rank_inj in E; [|eapply enw_incl_enb; eassumption|exact Hin]. subst x.
    apply filter_In in Hx. destruct Hx. congruence.
Qed.

(** G q^2 G^T = walk_a^2 at the diagonal position of every walking bias state, 0 elsewhere *)
Lemma GqG_spec :
  (forall a, (a < 3)%nat -> 0 < get3 a bias_sd -> 0 < get3 a bias_walk ->
     nth_error (states m) (bias_rank bias_sd a) = Some (bias_name a) /\
     GqG m (bias_rank bias_sd a) (bias_rank bias_sd a) = sq (get3 a bias_walk)) /\
  (forall k k', k <> k' -> GqG m k k' = 0) /\
  (forall k k', (forall a, nth_error (states m) k = Some (bias_name a) -> ~ 0 < get3 a bias_walk) ->
     GqG m k k' = 0).
Proof.
  split.
  { intros a Ha Hs Hw. assert (Hin : In a (enb bias_sd)) by (apply enb_In; auto).
    split; [now apply bias_state_position|now apply GqG_diag, Qclt_le_weak]. }
  unfold GqG. cbn [G q layout]. split; intros k k' Hz; apply gram_zero; [now left|right].
  intros x Hx <-. apply (Hz x).
  - eapply bias_state_position, enw_incl_enb, Hx.
  - apply enw_In in Hx. tauto.
Qed.

End Layout.

Lemma accumulate bias_sd noise bias_walk sm_sd m x1 x2 st st1 st2 :
  build bias_sd noise bias_walk sm_sd = Some m ->
  update m x1 st = Some st1 -> update m x2 st1 = Some st2 ->
  update m (vadd x1 x2) st = Some st2.
Proof. intro Hb. rewrite (built _ _ _ _ _ Hb). apply update_accumulate. Qed.

Lemma get_after_update bias_sd noise bias_walk sm_sd m xs st' :
  build bias_sd noise bias_walk sm_sd = Some m ->
  updates m xs reset = Some st' ->
  get_estimates m st' = Some (vsum (n_states m) xs).
Proof. intro Hb. rewrite (built _ _ _ _ _ Hb). apply get_updates, get_reset. Qed.

(** * The output matrix times the state vector is the simulated reading error *)

Lemma sim_error_rate p dt r :
  sub3 (sim_row p Rate dt r) r = add3 (mv3 (msub (p_T p) ident3) r) (p_b p).
Proof. cbn [sim_row]. v3_ring. Qed.

Lemma sim_rate_times_dt p dt r :
  scale3 (sim_row p Rate dt r) dt = sim_row p Increment dt (scale3 r dt).
Proof. cbn [sim_row]. v3_ring. Qed.

Lemma sim_error_increment p dt r :
  sub3 (sim_row p Increment dt (scale3 r dt)) (scale3 r dt)
  = scale3 (add3 (mv3 (msub (p_T p) ident3) r) (p_b p)) dt.
Proof. now rewrite <- sim_rate_times_dt, <- scale3_sub3, sim_error_rate. Qed.

(** H(r) x = simulated noise-free reading error, rate and increment sensors *)
Lemma output_matrix_is_error bias_sd noise bias_walk sm_sd m p dt r :
  build bias_sd noise bias_walk sm_sd = Some m ->
  bias_supported bias_sd (p_b p) -> sm_supported sm_sd (msub (p_T p) ident3) ->
  let x := state_vector bias_sd sm_sd (p_b p) (msub (p_T p) ident3) in
  mat_vec (output_matrix m r) x = v3_list (sub3 (sim_row p Rate dt r) r) /\
  map (fun e => e * dt) (mat_vec (output_matrix m r) x)
    = v3_list (sub3 (sim_row p Increment dt (scale3 r dt)) (scale3 r dt)).
Proof.
  intros Hb Hsb Hse x. unfold x.
  rewrite (built _ _ _ _ _ Hb), (output_matrix_state_vector _ _ _ _ r _ _ Hsb Hse).
  rewrite sim_error_rate, sim_error_increment. split; reflexivity.
Qed.

(** * Correction undoes the simulated error *)

(** Cramer's rule: the adjugate is the inverse up to the determinant *)
Lemma adj3_l M x : mv3 (adj3 M) (mv3 M x) = scale3 x (det3 M).
Proof. destruct M as [[a b c] [d e f] [g h i]]. unfold adj3, det3. v3_ring. Qed.

Lemma adj3_r M r : mv3 M (mv3 (adj3 M) r) = scale3 r (det3 M).
Proof. destruct M as [[a b c] [d e f] [g h i]]. unfold adj3, det3. v3_ring. Qed.

Lemma solve3_mv3 M x : det3 M <> 0 -> solve3 M (mv3 M x) = Some x.
Proof.
  intro Hd. unfold solve3. destruct (Qc_eq_dec (det3 M) 0); [contradiction|].
  now rewrite adj3_l, scale3_inv.
Qed.

Lemma solve3_sound M r x : solve3 M r = Some x -> mv3 M x = r.
Proof.
  unfold solve3. destruct (Qc_eq_dec (det3 M) 0) as [|Hd]; [discriminate|].
  intros [= <-]. now rewrite mv3_scale3, adj3_r, scale3_inv.
Qed.

Lemma correct_sim_row T b dt theta n w :
  det3 T <> 0 ->
  correct_increments (mk_est T b) dt (sim_row (mk_params T b n w) Increment dt theta) = Some theta.
Proof.
  intro Hd. unfold correct_increments, sim_row. cbn [e_T e_b p_T p_b].
  rewrite sub3_add3. now apply solve3_mv3.
Qed.

(** one sample *)
Lemma correct_undoes_apply bias_sd noise bias_walk sm_sd m p dt theta :
  build bias_sd noise bias_walk sm_sd = Some m ->
  bias_supported bias_sd (p_b p) -> sm_supported sm_sd (msub (p_T p) ident3) ->
  det3 (p_T p) <> 0 ->
  exists st, update m (state_vector bias_sd sm_sd (p_b p) (msub (p_T p) ident3)) reset = Some st /\
             get_estimates m st = Some (state_vector bias_sd sm_sd (p_b p) (msub (p_T p) ident3)) /\
             correct_increments st dt (sim_row p Increment dt theta) = Some theta.
Proof.
  intros Hb Hsb Hse Hd. rewrite (built _ _ _ _ _ Hb). exists (mk_est (p_T p) (p_b p)).
  split; [now apply estimates_equal_parameters|]. split.
  - rewrite get_estimates_spec, state_vector_val. f_equal.
    apply map_ext_in. intros t Ht. apply read_mk_est. exact (targets_In_valid _ _ t Ht).
  - destruct p as [T b n w]. now apply correct_sim_row.
Qed.

Lemma diffs_length ts : List.length (diffs ts) = pred (List.length ts).
Proof.
  induction ts as [|a [|b r] IH]; [reflexivity|reflexivity|].
  change (diffs (a :: b :: r)) with ((b - a) :: diffs (b :: r)).
  cbn [List.length]. rewrite IH. reflexivity.
Qed.

Lemma dt_raw_length ts : List.length (dt_raw ts) = List.length ts.
Proof.
  unfold dt_raw. destruct ts as [|a r]; [reflexivity|].
  cbn [List.length]. rewrite diffs_length. reflexivity.
Qed.

Lemma dt_used_length ts dts : dt_used ts = Some dts -> List.length dts = List.length ts.
Proof.
  unfold dt_used. pose proof (dt_raw_length ts) as Hl.
  destruct (dt_raw ts) as [|x [|d1 rest]]; try discriminate.
  intro E. injection E as <-. exact Hl.
Qed.

(** a whole record with irregular time stamps *)
Lemma correct_undoes_apply_series T b n w ts rs dts out :
  det3 T <> 0 ->
  dt_used ts = Some dts -> List.length rs = List.length ts ->
  sim_apply (mk_params T b n w) Increment ts rs = Some out ->
  map (fun d_o => correct_increments (mk_est T b) (fst d_o) (snd d_o)) (combine dts out) = map Some rs.
Proof.
  intros Hd Hdt Hl. unfold sim_apply. rewrite Hdt. intro E. injection E as <-.
  apply dt_used_length in Hdt. rewrite <- Hdt in Hl. clear Hdt ts.
  revert rs Hl. induction dts as [|dt dts IH]; intros [|r rs] Hl; try discriminate; [reflexivity|].
  cbn [combine map fst snd]. f_equal; [exact (correct_sim_row T b dt r n w Hd)|].
  apply IH. cbn in Hl. lia.
Qed.

(** * Parameters drawn by from_EstimationModel are named like the model's states *)

Lemma get33_from_model bias_sd noise bias_walk sm_sd zT zb o i :
  (o < 3)%nat -> (i < 3)%nat ->
  get33 o i (p_T (from_model bias_sd noise bias_walk sm_sd zT zb))
  = delta o i + get33 o i sm_sd * get33 o i zT.
Proof. intros Ho Hi. cbn [from_model p_T]. now rewrite get33_madd, get33_mmul_el, get33_ident3. Qed.

Lemma names_agree_from_model bias_sd noise bias_walk sm_sd m zT zb :
  build bias_sd noise bias_walk sm_sd = Some m ->
  nonneg3 bias_sd -> nonneg3 bias_walk -> nonneg33 sm_sd -> nonzero3 zb -> nonzero33 zT ->
  let p := from_model bias_sd noise bias_walk sm_sd zT zb in
  columns p = states m /\
  df_row p = state_vector bias_sd sm_sd (p_b p) (msub (p_T p) ident3) /\
  bias_supported bias_sd (p_b p) /\ sm_supported sm_sd (msub (p_T p) ident3).
Proof.
  intros Hb Hnb Hnw Hns Hzb HzT p. rewrite (built _ _ _ _ _ Hb). apply and_assoc. split.
  - apply columns_states.
    + intros a Ha. unfold col_bias_en, p. cbn [from_model p_b p_walk].
      rewrite get3_mul3, Qcnz_pos by auto. destruct (Qcpos (get3 a bias_sd)) eqn:Ep; [reflexivity|].
      cbn [orb]. apply Qcneq_spec, Qcpos_false_nonneg; [now apply Hnw|].
      (* a walking axis without a bias would have made the constructor raise *)
      apply not_true_iff_false. intro Ew. enough (build bias_sd noise bias_walk sm_sd = None) by congruence.
      apply walk_requires_bias. exists a. now rewrite <- Qcpos_spec, <- Qcpos_false.
    + intros o i Ho Hi. unfold col_sm_en, p. cbn [fst snd].
      rewrite get33_from_model, Qcneq_shift, Qcnz_pos by auto. reflexivity.
  - split.
    + intros a Ha Ep. unfold p. cbn [from_model p_b].
      rewrite get3_mul3, (Qcpos_false_nonneg _ (Hnb a Ha) Ep). ring.
    + intros o i Ho Hi Ep. unfold p.
      rewrite get33_msub, get33_ident3, get33_from_model, (Qcpos_false_nonneg _ (Hns o i Ho Hi) Ep) by assumption.
      ring.
Qed.

(** * The complete simulator: square roots, streams, variances *)

Lemma qsqrt_spec x s : qsqrt x = Some s -> s * s = x /\ 0 <= s.
Proof.
  unfold qsqrt. destruct x as [[n d] Hc]. cbn [this Qnum Qden].
  destruct ((0 <=? n)%Z && (Z.sqrt n * Z.sqrt n =? n)%Z
            && (Z.sqrt (Z.pos d) * Z.sqrt (Z.pos d) =? Z.pos d)%Z) eqn:E; [|discriminate].
  apply andb_prop in E. destruct E as [E E3]. apply andb_prop in E. destruct E as [E1 E2].
  apply Z.leb_le in E1. apply Z.eqb_eq in E2, E3. intro H. injection H as <-.
  set (rn := Z.sqrt n) in *. set (rd := Z.sqrt (Z.pos d)) in *.
  assert (Hrd : (0 < rd)%Z).
  { pose proof (Z.sqrt_nonneg (Z.pos d)) as Hnn. fold rd in Hnn.
    destruct (Z.eq_dec rd 0) as [E0|]; [rewrite E0 in E3; discriminate|lia]. }
  split.
  - apply Qc_is_canon. cbn [this Qcmult Q2Qc]. rewrite Qred_correct.
    rewrite !Qred_correct. unfold Qeq, Qmult. cbn [Qnum Qden].
    rewrite Pos2Z.inj_mul. change (Z.pos (Pos.sqrt d)) with rd. rewrite E2, E3. reflexivity.
  - unfold Qcle. cbn [this Q2Qc]. rewrite !Qred_correct. unfold Qle. cbn [Qnum Qden].
    pose proof (Z.sqrt_nonneg n). fold rn in H. lia.
Qed.

Lemma sqrt_raw_spec ts sraw :
  sqrt_raw ts = Some sraw -> Forall2 (fun d s => s * s = d /\ 0 <= s) (dt_raw ts) sraw.
Proof.
  apply opt_all_map. exact qsqrt_spec.
Qed.

Lemma sim_row_bias_term p ty dt r :
  sim_row p ty dt r = add3 (mv3 (p_T p) r) (bias_term ty dt (p_b p)).
Proof. now destruct ty. Qed.

Lemma sim_full_row_zero p ty dt s r :
  sim_full_row p ty dt s r (p_b p) zero3 = sim_row p ty dt r.
Proof. rewrite sim_row_bias_term. unfold sim_full_row. now rewrite mul3_zero_r, add3_zero_r. Qed.

(** the noise sample enters output row k linearly with coefficient noise * dt**(-/+ 1/2) *)
Lemma sim_full_row_noise p ty dt s r bias n :
  sim_full_row p ty dt s r bias n
  = add3 (sim_full_row p ty dt s r bias zero3) (mul3 (scale3 (p_noise p) (noise_coef ty s)) n).
Proof. unfold sim_full_row. now rewrite mul3_zero_r, add3_zero_r. Qed.

(** the bias enters with gain 1 (rate) or dt (increment) *)
Lemma sim_full_row_bias p ty dt s r bias bias' n :
  sub3 (sim_full_row p ty dt s r bias' n) (sim_full_row p ty dt s r bias n)
  = bias_term ty dt (sub3 bias' bias).
Proof.
  unfold sim_full_row. rewrite sub3_add3_cancel. destruct ty; [reflexivity|symmetry; apply scale3_sub3].
Qed.

Lemma cumsum3_step acc l k x y z :
  nth_error (cumsum3 acc l) k = Some x -> nth_error (cumsum3 acc l) (S k) = Some y ->
  nth_error l (S k) = Some z -> y = add3 x z.
Proof.
  revert acc k. induction l as [|a l IH]; intros acc k Hx Hy Hz; [destruct k; discriminate|].
  cbn [cumsum3] in *. destruct k as [|k].
  - cbn in Hx. injection Hx as <-. cbn [nth_error] in Hy, Hz.
    destruct l as [|a' l]; [discriminate|]. cbn in Hy, Hz. congruence.
  - cbn [nth_error] in Hx, Hy, Hz. now apply (IH _ _ Hx Hy Hz).
Qed.

Lemma cumsum3_length acc l : List.length (cumsum3 acc l) = List.length l.
Proof. revert acc. induction l as [|a l IH]; intro acc; cbn; [reflexivity|now rewrite IH]. Qed.

(** the simulated bias is the constant bias plus a random walk whose k-th increment is
    bias_walk * sqrt(dt_raw[k]) * W[k] *)
Lemma bias_series_step p sraw W k b0 b1 w s :
  nth_error (bias_series p sraw W) k = Some b0 ->
  nth_error (bias_series p sraw W) (S k) = Some b1 ->
  nth_error W (S k) = Some w -> nth_error sraw (S k) = Some s ->
  sub3 b1 b0 = mul3 (p_walk p) (scale3 w s).
Proof.
  unfold bias_series. rewrite !nth_error_map.
  destruct (nth_error (cumsum3 zero3 (walk_steps sraw W)) k) as [x|] eqn:Ex; [|discriminate].
  destruct (nth_error (cumsum3 zero3 (walk_steps sraw W)) (S k)) as [y|] eqn:Ey; [|discriminate].
  intros [= <-] [= <-] Hw Hs.
  rewrite (cumsum3_step _ _ _ _ _ (scale3 w s) Ex Ey); [v3_ring|].
  unfold walk_steps. now rewrite nth_error_map, (nth_error_combine _ _ _ _ _ Hw Hs).
Qed.

(** the first bias sample is the constant bias: dt_raw[0] = 0 *)
Lemma bias_series_first p ts sraw W b0 :
  sqrt_raw ts = Some sraw -> nth_error (bias_series p sraw W) 0 = Some b0 -> b0 = p_b p.
Proof.
  intros Hs Hb. apply sqrt_raw_spec in Hs.
  destruct W as [|w W]; [discriminate|]. destruct sraw as [|s sraw]; [discriminate|].
  destruct ts as [|t ts]; inversion Hs as [|? ? ? ? [Hss _] _]; subst.
  assert (s = 0) as -> by (apply Qcmult_integral in Hss; tauto).
  cbn in Hb. injection Hb as <-. v3_ring.
Qed.

(** simulator side: squared coefficients of the unit-variance samples.
    [s] is the square root of the sampling interval [dt] (from [qsqrt]). *)
Lemma sim_variances (noise_a walk_a : Qc) dt s :
  s * s = dt -> dt <> 0 ->
  (* rate sensor: reading noise integrated over dt *)
  sq (noise_a * noise_coef Rate s * dt) = sq noise_a * dt /\
  (* increment sensor: noise of one increment *)
  sq (noise_a * noise_coef Increment s) = sq noise_a * dt /\
  (* the rate reading itself: PSD noise^2 sampled at 1/dt *)
  sq (noise_a * noise_coef Rate s) = sq noise_a / dt /\
  (* bias increment over dt *)
  sq (walk_a * s) = sq walk_a * dt.
Proof.
  intros Hs Hd. subst dt. assert (Hs : s <> 0) by (intro E; apply Hd; rewrite E; ring).
  unfold sq, noise_coef. repeat split; field; auto.
Qed.

(** what the simulator produces over one sampling interval [dt] has exactly
    the variance the estimator's noise model gives over [dt]:
      J v^2 J^T * dt  (white noise integrated over dt, both sensor types)
      G q^2 G^T * dt  (bias increment over dt). *)
Lemma variances_agree bias_sd noise bias_walk sm_sd m dt s a :
  build bias_sd noise bias_walk sm_sd = Some m ->
  nonneg3 noise -> nonneg3 bias_walk ->
  s * s = dt -> dt <> 0 -> (a < 3)%nat ->
  sq (get3 a noise * noise_coef Rate s * dt) = JvJ m a a * dt /\
  sq (get3 a noise * noise_coef Increment s) = JvJ m a a * dt /\
  (0 < get3 a bias_sd ->
   sq (get3 a bias_walk * s) = GqG m (bias_rank bias_sd a) (bias_rank bias_sd a) * dt).
Proof.
  intros Hb Hnn Hnw Hs Hd Ha. rewrite (built _ _ _ _ _ Hb).
  destruct (sim_variances (get3 a noise) (get3 a bias_walk) dt s Hs Hd) as (-> & -> & _ & ->).
  rewrite JvJ_diag by auto. repeat split. intro Hbs.
  rewrite GqG_diag; [reflexivity|apply enb_In|]; auto.
Qed.

(** * With both streams zero *)

Lemma cumsum3_zeros acc l :
  Forall (fun x => x = zero3) l -> cumsum3 acc l = map (fun _ => acc) l.
Proof.
  intro Hz. revert acc. induction Hz as [|x l -> Hz IH]; intro acc; [reflexivity|].
  cbn [cumsum3 map]. now rewrite add3_zero_r, IH.
Qed.

Lemma bias_series_zero p sraw W :
  Forall (fun x => x = zero3) W -> List.length W = List.length sraw ->
  bias_series p sraw W = map (fun _ => p_b p) sraw.
Proof.
  intros Hz Hl. unfold bias_series, walk_steps.
  rewrite cumsum3_zeros, !map_map, mul3_zero_r, add3_zero_r.
  - revert sraw Hl. induction W as [|w W IH]; intros [|s sraw] Hl; try discriminate; [reflexivity|].
    cbn [combine map]. f_equal. apply IH; [now inversion Hz|]. cbn in Hl. lia.
  - apply Forall_map, Forall_forall. intros [w s] Hin. apply in_combine_l in Hin.
    cbn [fst snd]. rewrite (proj1 (Forall_forall _ _) Hz w Hin). apply scale3_zero_l.
Qed.

Lemma sim_rows_zero p ty dts : forall sus rs bs ns,
  Forall (fun b => b = p_b p) bs -> Forall (fun x => x = zero3) ns ->
  List.length sus = List.length dts -> List.length bs = List.length dts ->
  List.length ns = List.length dts ->
  sim_rows p ty dts sus rs bs ns = map (fun dr => sim_row p ty (fst dr) (snd dr)) (combine dts rs).
Proof.
  induction dts as [|dt dts IH]; intros sus rs bs ns Hb Hn L1 L2 L3; [reflexivity|].
  destruct sus as [|s sus]; [discriminate|]. destruct bs as [|b bs]; [discriminate|].
  destruct ns as [|n ns]; [discriminate|]. destruct rs as [|r rs]; [reflexivity|].
  inversion Hb as [|? ? -> Hb']; subst. inversion Hn as [|? ? -> Hn']; subst.
  cbn [sim_rows combine map fst snd]. rewrite sim_full_row_zero. f_equal.
  apply IH; auto; cbn in *; lia.
Qed.

Lemma first_from_second_length l : List.length (first_from_second l) = List.length l.
Proof. destruct l as [|a [|b r]]; reflexivity. Qed.

(** with both random streams identically zero, the complete simulator (the one tied to the code
    by the correspondence check) is the noise-free simulator used in [correct_undoes_apply] *)
Lemma sim_full_noise_free p ty ts rs W N :
  sqrt_raw ts <> None ->
  Forall (fun x => x = zero3) W -> Forall (fun x => x = zero3) N ->
  List.length W = List.length ts -> List.length N = List.length ts ->
  sim_full p ty ts rs W N = sim_apply p ty ts rs.
Proof.
  intros Hs HW HN LW LN. unfold sim_full, sim_apply.
  destruct (dt_used ts) as [dts|] eqn:Ed; [|reflexivity].
  destruct (sqrt_raw ts) as [sraw|] eqn:Es; [|contradiction]. f_equal.
  pose proof (dt_used_length _ _ Ed) as Ld.
  pose proof (Forall2_len _ _ _ (sqrt_raw_spec _ _ Es)) as Lr. rewrite dt_raw_length in Lr.
  rewrite bias_series_zero by (auto; lia).
  apply sim_rows_zero; auto.
  - now apply Forall_map, Forall_forall.
  - rewrite first_from_second_length. lia.
  - rewrite map_length. lia.
  - lia.
Qed.
