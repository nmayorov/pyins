(** Proofs about the Integrator model (C02; generic invariant for C13).

    Everything is proved for arbitrary row types and arbitrary
    [kstep / to_pub / of_pub / zero_vd / inc_time / garbage], any initial
    capacity >= 1 and both altitude modes.  One lemma ([step_nf]) analyses the model's
    [step]: seen through the trajectory [tpre ++ [tl]] and the buffer [pre ++ cur :: cells],
    every operation succeeds, and what it returns and leaves behind is a function of
    [tpre], [tl], [pre], [cur] alone.  Three readings of it follow, in this order: the invariant
    [Inv] (every operation succeeds), the equivalence [equiv] of states that differ only beyond the
    valid prefix, and the history summaries ([Rep]: all that a history leaves behind is what was
    supplied last, the increments integrated since, and the rows fixed before).  The theorems of
    Props/C02.v about histories from the constructor come after them, each from one of the three
    or from [step_nf] itself; the generic invariant of the no-altitude mode is last. *)
From Coq Require Import List Arith Bool.
From PV Require Import Base.ListFacts Model.Integrator.
Import ListNotations.

Lemma snoc_cons {A} (pre : list A) x l : pre ++ x :: l = (pre ++ [x]) ++ l.
Proof. rewrite <- app_assoc. reflexivity. Qed.

Lemma upd_app_here {A} (pre : list A) x l y :
  upd (pre ++ x :: l) (length pre) y = Some (pre ++ y :: l).
Proof.
  induction pre as [|h t IH]; cbn; [reflexivity|]. rewrite IH. reflexivity.
Qed.

Lemma upd_app_next {A} (pre : list A) x l y :
  upd (pre ++ x :: l) (S (length pre)) y =
  match l with [] => None | _ :: l' => Some (pre ++ x :: y :: l') end.
Proof.
  induction pre as [|h t IH]; cbn.
  - destruct l; reflexivity.
  - rewrite IH. destruct l; reflexivity.
Qed.

Lemma upd_Some_length {A} (l : list A) i x l' :
  upd l i x = Some l' -> i < length l /\ length l' = length l.
Proof.
  revert i l'. induction l as [|h t IH]; intros [|i] l' H; cbn in H; try discriminate.
  - injection H as <-. split; [apply Nat.lt_0_succ|reflexivity].
  - destruct (upd t i x) as [t'|] eqn:E; [|discriminate]. injection H as <-.
    destruct (IH _ _ E) as [L1 L2]. split; [apply -> Nat.succ_lt_mono; exact L1|].
    cbn. rewrite L2. reflexivity.
Qed.

Lemma nth_error_app_here {A} (pre : list A) x l :
  nth_error (pre ++ x :: l) (length pre) = Some x.
Proof. rewrite nth_error_app2, Nat.sub_diag by apply le_n. reflexivity. Qed.

Lemma firstn_app_exact {A} (l1 l2 : list A) n :
  length l1 = n -> firstn n (l1 ++ l2) = l1.
Proof. intros <-. rewrite firstn_app, firstn_all, Nat.sub_diag. apply app_nil_r. Qed.

Lemma skipn_app_exact {A} (l1 l2 : list A) n :
  length l1 = n -> skipn n (l1 ++ l2) = l2.
Proof. intros <-. rewrite skipn_app, skipn_all, Nat.sub_diag. reflexivity. Qed.

Lemma last_opt_snoc {A} (l : list A) x : last_opt (l ++ [x]) = Some x.
Proof.
  induction l as [|h t IH]; [reflexivity|].
  cbn [app last_opt]. destruct (t ++ [x]) eqn:E.
  - destruct t; discriminate.
  - exact IH.
Qed.

Lemma lastn_app_exact {A} (l1 l2 : list A) k :
  length l2 = k -> lastn k (l1 ++ l2) = l2.
Proof.
  intros <-. unfold lastn. apply skipn_app_exact. rewrite app_length, Nat.add_sub. reflexivity.
Qed.

Lemma lastn_app_le {A} (l1 l2 : list A) k :
  k <= length l2 -> lastn k (l1 ++ l2) = lastn k l2.
Proof.
  intros H. unfold lastn. rewrite app_length, <- Nat.add_sub_assoc, skipn_app by exact H.
  rewrite skipn_all2 by apply Nat.le_add_r.
  rewrite (Nat.add_comm (length l1)), Nat.add_sub. reflexivity.
Qed.

Lemma combine_app {A B} (l1 l2 : list A) (m1 m2 : list B) :
  length l1 = length m1 ->
  combine (l1 ++ l2) (m1 ++ m2) = combine l1 m1 ++ combine l2 m2.
Proof.
  revert m1. induction l1 as [|a l1 IH]; intros [|b m1] H; cbn in *; try discriminate; auto.
  f_equal. apply IH. injection H as H. exact H.
Qed.

Lemma scanl_length {A B} (f : A -> B -> A) a l : length (scanl f a l) = length l.
Proof. revert a. induction l; intros; cbn; auto. Qed.

Lemma scanl_app {A B} (f : A -> B -> A) a l1 l2 :
  scanl f a (l1 ++ l2) = scanl f a l1 ++ scanl f (fold_left f l1 a) l2.
Proof.
  revert a. induction l1 as [|b l1 IH]; intros a; [reflexivity|].
  cbn [app scanl fold_left]. rewrite IH. reflexivity.
Qed.

(** the last of the rows scanned from [x] (or [x], if there are none) is the fold *)
Lemma scanl_snoc {A B} (f : A -> B -> A) l : forall pre x,
  exists pre', (pre ++ [x]) ++ scanl f x l = pre' ++ [fold_left f l x].
Proof.
  induction l as [|b l IH]; intros pre x; cbn [scanl fold_left].
  - exists pre. apply app_nil_r.
  - rewrite snoc_cons. apply IH.
Qed.

Lemma Forall2_snoc_inv {A B} (R : A -> B -> Prop) l1 x l2 y :
  Forall2 R (l1 ++ [x]) (l2 ++ [y]) -> Forall2 R l1 l2 /\ R x y.
Proof.
  intros H. apply Forall2_app_inv_l in H. destruct H as [m1 [m2 [H1 [H2 E]]]].
  inversion H2 as [|? b ? m2' Hxy Hnil]; subst. inversion Hnil; subst.
  apply app_inj_tail in E. destruct E; subst. auto.
Qed.

(** decidable equality of provenance terms *)
Scheme bterm_mut := Induction for bterm Sort Prop
  with pterm_mut := Induction for pterm Sort Prop.
Combined Scheme bterm_pterm_mutind from bterm_mut, pterm_mut.

Lemma bterm_pterm_eqb_spec :
  (forall a b, bterm_eqb a b = true <-> a = b) /\
  (forall a b, pterm_eqb a b = true <-> a = b).
Proof.
  apply bterm_pterm_mutind;
    [intros f r IH i b|intros p IH b|intros b|intros r IH b|intros i b|intros p IH b];
    destruct b; cbn; rewrite ?andb_true_iff, ?Bool.eqb_true_iff, ?Nat.eqb_eq;
    try rewrite IH; intuition congruence.
Qed.

Section IntegratorProofs.
  Variables brow prow inc time : Type.
  Variable kstep : bool -> brow -> inc -> brow.
  Variable to_pub : brow -> prow.
  Variable of_pub : prow -> brow.
  Variable zero_vd : prow -> prow.
  Variable inc_time : inc -> time.

  Local Notation State := (state brow prow time).
  Local Notation Op := (op prow inc).
  Local Notation Obs := (obs prow time).
  Local Notation stepg g := (step kstep to_pub of_pub zero_vd inc_time g).
  Local Notation rung g := (run kstep to_pub of_pub zero_vd inc_time g).
  Local Notation initg g := (init of_pub zero_vd g).
  Local Notation run_initg g := (run_init kstep to_pub of_pub zero_vd inc_time g).
  Local Notation sup := (supplied zero_vd).
  Local Notation rows := (rows_from kstep to_pub inc_time).

  (** ** The kernel loop on a zipper [pre ++ r :: cells], reading at [length pre] *)

  Lemma kernel_zip b chunk : forall pre r cells,
    kernel kstep b (pre ++ r :: cells) (length pre) chunk =
    if length chunk <=? length cells
    then Some (pre ++ r :: scanl (kstep b) r chunk ++ skipn (length chunk) cells)
    else None.
  Proof.
    induction chunk as [|i rest IH]; intros pre r cells.
    - reflexivity.
    - cbn [kernel]. rewrite nth_error_app_here, upd_app_next.
      destruct cells as [|c cs]; [reflexivity|].
      rewrite (snoc_cons pre r (_ :: cs)), <- (last_length pre r), IH.
      cbn [length scanl skipn Nat.leb].
      destruct (length rest <=? length cs); [|reflexivity].
      rewrite <- app_assoc. reflexivity.
  Qed.

  Lemma grow_zip g pre (cur : brow) cells n :
    exists cells', grow g (pre ++ cur :: cells) (S (length pre) + n) = pre ++ cur :: cells' /\
                   n <= length cells'.
  Proof.
    unfold grow. set (bf := pre ++ cur :: cells). set (req := S (length pre) + n).
    assert (Hle : forall extra, req <= length bf + length extra -> n <= length (cells ++ extra)).
    { intros extra. subst bf req. rewrite !app_length. cbn [length].
      rewrite <- Nat.add_succ_comm, <- Nat.add_assoc. apply Nat.add_le_mono_l. }
    destruct (Nat.ltb_spec (length bf) req) as [H|H].
    - eexists. subst bf. rewrite <- app_assoc. split; [reflexivity|].
      apply Hle. rewrite repeat_length, Nat.add_comm, Nat.sub_add; [apply Nat.le_max_r|].
      apply Nat.lt_le_incl, (Nat.lt_le_trans _ _ _ H), Nat.le_max_r.
    - exists cells. split; [reflexivity|]. rewrite <- (app_nil_r cells). apply Hle.
      rewrite Nat.add_0_r. exact H.
  Qed.

  Lemma rows_length b r c : length (rows b r c) = length c.
  Proof.
    unfold rows_from. rewrite combine_length, !map_length, scanl_length. apply Nat.min_id.
  Qed.

  Lemma rows_app b r l1 l2 :
    rows b r (l1 ++ l2) = rows b r l1 ++ rows b (fold_left (kstep b) l1 r) l2.
  Proof.
    unfold rows_from. rewrite scanl_app, !map_app, combine_app; [reflexivity|].
    rewrite !map_length, scanl_length. reflexivity.
  Qed.

  Lemma rows_fst b r c : map fst (rows b r c) = map inc_time c.
  Proof.
    unfold rows_from. apply map_fst_combine. rewrite !map_length, scanl_length. reflexivity.
  Qed.

  (** [Zip s pre cur cells]: the buffer is [pre ++ cur :: cells] and [cur] is row [n_data - 1]. *)
  Definition Zip (s : State) (pre : list brow) (cur : brow) (cells : list brow) : Prop :=
    buf s = pre ++ cur :: cells /\ S (length pre) = length (traj s).

  Lemma Zip_firstn s pre cur cells :
    Zip s pre cur cells -> firstn (length (traj s)) (buf s) = pre ++ [cur].
  Proof.
    intros [Hb Hl]. rewrite Hb, snoc_cons. apply firstn_app_exact. rewrite <- Hl. apply last_length.
  Qed.

  Lemma integrate_core_zip g s c pre cur cells :
    Zip s pre cur cells ->
    exists cells',
      integrate_core kstep to_pub inc_time g s c =
      Some (pre ++ cur :: scanl (kstep (with_alt s)) cur c ++ cells', rows (with_alt s) cur c).
  Proof.
    intros [Hb Hl]. unfold integrate_core. rewrite <- Hl, Hb.
    destruct (grow_zip g pre cur cells (length c)) as [cells' [-> Hle]].
    rewrite kernel_zip. apply Nat.leb_le in Hle. rewrite Hle.
    rewrite (snoc_cons pre cur), <- (last_length pre cur), skipn_app_exact by reflexivity.
    rewrite firstn_app_exact by apply scanl_length.
    rewrite scanl_length, Nat.eqb_refl, <- snoc_cons.
    eexists. reflexivity.
  Qed.

  (** ** One step in normal form: trajectory, last valid buffer row, valid buffer prefix and
         observation after operation [o] *)

  Definition ntraj b (tpre : list (time * prow)) tl (cur : brow) (o : Op) :=
    match o with
    | Integrate c => (tpre ++ [tl]) ++ rows b cur c
    | SetPva p => tpre ++ [(fst tl, sup b p)]
    | _ => tpre ++ [tl]
    end.

  Definition ncur b (cur : brow) (o : Op) :=
    match o with
    | Integrate c => fold_left (kstep b) c cur
    | SetPva p => of_pub (sup b p)
    | _ => cur
    end.

  Definition npfx b (pre : list brow) cur (o : Op) :=
    match o with
    | Integrate c => (pre ++ [cur]) ++ scanl (kstep b) cur c
    | SetPva p => pre ++ [of_pub (sup b p)]
    | _ => pre ++ [cur]
    end.

  Definition nobs b tpre tl cur (o : Op) : Obs :=
    match o with
    | Integrate c => OFrame (lastn (S (length c)) (ntraj b tpre tl cur o))
    | Predict i => ORow (inc_time i, to_pub (kstep b cur i))
    | GetPva => ORow tl
    | GetTime => OTime (fst tl)
    | SetPva _ => OUnit
    end.

  Lemma step_nf g s o pre cur cells tpre tl :
    Zip s pre cur cells -> traj s = tpre ++ [tl] ->
    exists s' pre' cells',
      stepg g s o = Some (s', nobs (with_alt s) tpre tl cur o) /\
      with_alt s' = with_alt s /\ traj s' = ntraj (with_alt s) tpre tl cur o /\
      Zip s' pre' (ncur (with_alt s) cur o) cells' /\
      pre' ++ [ncur (with_alt s) cur o] = npfx (with_alt s) pre cur o.
  Proof.
    intros HZ Et. pose proof HZ as [Hb Hl].
    destruct o as [c|i| | |p]; cbn [step nobs ntraj ncur npfx].
    - destruct (integrate_core_zip g s c _ _ _ HZ) as [cells' ->].
      destruct (scanl_snoc (kstep (with_alt s)) c pre cur) as [pre' Ep].
      rewrite <- Et. eexists _, pre', cells'. repeat (split; [reflexivity|]).
      split; [split; cbn [buf traj]|symmetry; exact Ep].
      + rewrite snoc_cons, app_assoc, Ep, <- snoc_cons. reflexivity.
      + apply (f_equal (@length _)) in Ep.
        rewrite !app_length, scanl_length, !Nat.add_1_r in Ep.
        rewrite app_length, rows_length, <- Hl. symmetry; exact Ep.
    - destruct (integrate_core_zip g s [i] _ _ _ HZ) as [cells' ->].
      rewrite <- Et. eexists _, pre, _. repeat (split; [reflexivity|]).
      split; [split; [reflexivity|exact Hl]|reflexivity].
    - rewrite Et, last_opt_snoc. exists s, pre, cells. auto.
    - rewrite Et, last_opt_snoc. exists s, pre, cells. auto.
    - rewrite Et, last_length, nth_error_app_here.
      assert (Hlen : length pre = length tpre).
      { rewrite Et, last_length in Hl. injection Hl as Hl. exact Hl. }
      rewrite Hb, <- Hlen, upd_app_here, Hlen, upd_app_here.
      eexists _, pre, cells. repeat (split; [reflexivity|]).
      split; [split; [reflexivity|]|reflexivity].
      cbn [traj]. rewrite last_length, Hlen. reflexivity.
  Qed.

  (** ** The invariant: non-empty trajectory, valid prefix, all accesses in bounds *)

  Local Notation row_ok := (row_ok to_pub of_pub).
  Local Notation valid_prefix := (valid_prefix to_pub of_pub).
  Local Notation Inv := (Inv to_pub of_pub).

  Lemma Inv_Zip (s : State) :
    Inv s -> exists pre cur cells tpre tl,
      Zip s pre cur cells /\ traj s = tpre ++ [tl] /\ Forall2 row_ok (pre ++ [cur]) (tpre ++ [tl]).
  Proof.
    intros [H1 H2]. unfold Integrator.valid_prefix in H2.
    assert (Ht : traj s <> []) by (intros E; rewrite E in H1; inversion H1).
    destruct (exists_last Ht) as [tpre [tl Et]].
    pose proof (Forall2_len _ _ _ H2) as HL.
    pose proof (firstn_skipn (length (traj s)) (buf s)) as Hb.
    destruct (firstn (length (traj s)) (buf s)) as [|r P] using rev_ind.
    { rewrite Et, last_length in HL. discriminate. }
    clear IHP. exists P, r, (skipn (length (traj s)) (buf s)), tpre, tl.
    rewrite <- Et. split; [split|auto].
    - rewrite snoc_cons. symmetry. exact Hb.
    - rewrite <- HL. symmetry. apply last_length.
  Qed.

  Lemma rows_ok b cur c :
    Forall2 row_ok (scanl (kstep b) cur c) (rows b cur c).
  Proof.
    unfold rows_from. revert cur. induction c as [|i c IH]; intros cur; cbn; constructor.
    - left. reflexivity.
    - apply IH.
  Qed.

  Lemma npfx_ok b pre cur tpre tl o :
    Forall2 row_ok (pre ++ [cur]) (tpre ++ [tl]) ->
    Forall2 row_ok (npfx b pre cur o) (ntraj b tpre tl cur o).
  Proof.
    intros H. destruct o; cbn [npfx ntraj]; try exact H.
    - apply Forall2_app; [exact H|apply rows_ok].
    - apply Forall2_snoc_inv in H. apply Forall2_app; [apply H|].
      constructor; [right; reflexivity|constructor].
  Qed.

  Theorem step_Inv g s o :
    Inv s -> exists s' ob, stepg g s o = Some (s', ob) /\ Inv s' /\ with_alt s' = with_alt s.
  Proof.
    intros HI. destruct (Inv_Zip s HI) as (pre & cur & cells & tpre & tl & HZ & Et & Hok).
    destruct (step_nf g s o _ _ _ _ _ HZ Et) as (s' & pre' & cells' & E & Hw & Ht & HZ' & Hp).
    eexists s', _. split; [exact E|]. split; [split|exact Hw].
    - destruct HZ' as [_ <-]. apply le_n_S, Nat.le_0_l.
    - unfold Integrator.valid_prefix. rewrite (Zip_firstn _ _ _ _ HZ'), Hp, Ht.
      apply npfx_ok, Hok.
  Qed.

  Lemma run_cons_inv g s o ops s' os :
    rung g s (o :: ops) = Some (s', os) ->
    exists s1 ob os1, stepg g s o = Some (s1, ob) /\ rung g s1 ops = Some (s', os1) /\ os = ob :: os1.
  Proof.
    cbn [run]. destruct (stepg g s o) as [[s1 ob]|]; [|discriminate].
    destruct (rung g s1 ops) as [[s2 os1]|] eqn:R; [|discriminate].
    intros [= <- <-]. exists s1, ob, os1. auto.
  Qed.

  Theorem run_Inv g ops : forall s,
    Inv s -> exists s' os, rung g s ops = Some (s', os) /\ Inv s' /\ with_alt s' = with_alt s
                           /\ length os = length ops.
  Proof.
    induction ops as [|o ops IH]; intros s HI.
    - exists s, []. cbn. auto.
    - destruct (step_Inv g s o HI) as [s1 [ob [E [HI1 Hw1]]]].
      destruct (IH s1 HI1) as [s2 [os [E2 [HI2 [Hw2 Hlen]]]]].
      exists s2, (ob :: os). cbn [run]. rewrite E, E2. cbn [length].
      repeat split; try apply HI2; congruence.
  Qed.

  Lemma init_Some g b cap (t0 : time) p :
    1 <= cap ->
    initg g b cap t0 p =
    Some (mkState b [(t0, sup b p)] (of_pub (sup b p) :: repeat g (cap - 1))).
  Proof.
    intros H. destruct H; cbn; rewrite ?Nat.sub_0_r; reflexivity.
  Qed.

  Lemma init_inv g b cap (t0 : time) p s :
    initg g b cap t0 p = Some s ->
    1 <= cap /\ s = mkState b [(t0, sup b p)] (of_pub (sup b p) :: repeat g (cap - 1)).
  Proof.
    intros H. destruct cap as [|k]; [discriminate|].
    assert (Hc : 1 <= S k) by apply le_n_S, Nat.le_0_l.
    rewrite (init_Some g b _ t0 p Hc) in H. injection H as <-. auto.
  Qed.

  Lemma init_Inv g b cap (t0 : time) p s : initg g b cap t0 p = Some s -> Inv s.
  Proof.
    intros H. apply init_inv in H as [_ ->]. split; [apply le_n|].
    constructor; [right; reflexivity|constructor].
  Qed.

  (** ** The equivalence: states that differ only beyond the valid prefix (cells at index
         >= length traj, capacity, garbage) are indistinguishable *)

  Lemma equiv_refl (s : State) : equiv s s.
  Proof. repeat split. Qed.

  Lemma equiv_sym (s1 s2 : State) : equiv s1 s2 -> equiv s2 s1.
  Proof. intros [A [B C]]. repeat split; auto. Qed.

  Lemma equiv_trans (s1 s2 s3 : State) : equiv s1 s2 -> equiv s2 s3 -> equiv s1 s3.
  Proof. intros [A [B C]] [A' [B' C']]. repeat split; congruence. Qed.

  (** [step] respects [equiv], even across different garbage values: equivalent states have
      the same normal-form arguments *)
  Theorem step_equiv g1 g2 s1 s2 o :
    Inv s1 -> Inv s2 -> equiv s1 s2 ->
    exists s1' s2' ob,
      stepg g1 s1 o = Some (s1', ob) /\ stepg g2 s2 o = Some (s2', ob) /\ equiv s1' s2'.
  Proof.
    intros HI1 HI2 (Hw & Ht & Hf).
    destruct (Inv_Zip s1 HI1) as (pre & cur & cells1 & tpre & tl & HZ1 & Et1 & _).
    destruct (Inv_Zip s2 HI2) as (pre2 & cur2 & cells2 & tpre2 & tl2 & HZ2 & Et2 & _).
    rewrite (Zip_firstn _ _ _ _ HZ1), (Zip_firstn _ _ _ _ HZ2) in Hf.
    apply app_inj_tail in Hf as [<- <-].
    rewrite Et1, Et2 in Ht. apply app_inj_tail in Ht as [<- <-].
    destruct (step_nf g1 s1 o _ _ _ _ _ HZ1 Et1) as (s1' & p1 & c1 & E1 & W1 & T1 & Z1 & P1).
    destruct (step_nf g2 s2 o _ _ _ _ _ HZ2 Et2) as (s2' & p2 & c2 & E2 & W2 & T2 & Z2 & P2).
    rewrite <- Hw in *. eexists s1', s2', _. split; [exact E1|]. split; [exact E2|].
    split; [congruence|]. split; [congruence|].
    rewrite (Zip_firstn _ _ _ _ Z1), (Zip_firstn _ _ _ _ Z2). congruence.
  Qed.

  Lemma step_equiv_Inv g1 g2 s1 s2 o s1' ob :
    Inv s1 -> Inv s2 -> equiv s1 s2 -> stepg g1 s1 o = Some (s1', ob) ->
    exists s2', stepg g2 s2 o = Some (s2', ob) /\ equiv s1' s2' /\ Inv s1' /\ Inv s2'.
  Proof.
    intros HI1 HI2 He E.
    destruct (step_equiv g1 g2 s1 s2 o HI1 HI2 He) as [x1 [x2 [ob' [E1 [E2 He']]]]].
    rewrite E1 in E. injection E as <- <-.
    exists x2. split; [exact E2|]. split; [exact He'|].
    destruct (step_Inv g1 s1 o HI1) as [y1 [o1 [F1 [I1 _]]]].
    destruct (step_Inv g2 s2 o HI2) as [y2 [o2 [F2 [I2 _]]]].
    rewrite E1 in F1. rewrite E2 in F2. injection F1 as <- _. injection F2 as <- _. auto.
  Qed.

  Lemma predict_equiv g s i s1 ob :
    Inv s -> stepg g s (Predict i) = Some (s1, ob) -> equiv s s1.
  Proof.
    intros HI E. destruct (Inv_Zip s HI) as (pre & cur & cells & tpre & tl & HZ & Et & _).
    destruct (step_nf g s (Predict i) _ _ _ _ _ HZ Et) as (s' & p' & c' & E' & Hw & Ht & HZ' & Hp).
    rewrite E' in E. injection E as <- _. cbn [ntraj] in Ht.
    split; [congruence|]. split; [congruence|].
    rewrite (Zip_firstn _ _ _ _ HZ), (Zip_firstn _ _ _ _ HZ'). symmetry. exact Hp.
  Qed.

  Theorem run_equiv g1 g2 ops : forall s1 s2 s1' os,
    Inv s1 -> Inv s2 -> equiv s1 s2 -> rung g1 s1 ops = Some (s1', os) ->
    exists s2', rung g2 s2 ops = Some (s2', os) /\ equiv s1' s2'.
  Proof.
    induction ops as [|o ops IH]; intros s1 s2 s1' os HI1 HI2 He E.
    - injection E as <- <-. exists s2. auto.
    - apply run_cons_inv in E as (x1 & ob & os1 & E1 & R1 & ->).
      destruct (step_equiv_Inv g1 g2 s1 s2 o x1 ob HI1 HI2 He E1) as [x2 [E2 [He' [I1 I2]]]].
      destruct (IH x1 x2 s1' os1 I1 I2 He' R1) as [y2 [R2 He2]].
      exists y2. cbn [run]. rewrite E2, R2. auto.
  Qed.

  (** removing every [Predict] from a history changes neither the trajectory nor
      the valid buffer prefix nor the result of any other operation *)
  Theorem run_equiv_without_predict g1 g2 ops : forall s1 s2 s1' os,
    Inv s1 -> Inv s2 -> equiv s1 s2 -> rung g1 s1 ops = Some (s1', os) ->
    exists s2',
      rung g2 s2 (filter (fun o => negb (is_predict o)) ops)
      = Some (s2', obs_without_predict ops os) /\ equiv s1' s2'.
  Proof.
    induction ops as [|o ops IH]; intros s1 s2 s1' os HI1 HI2 He E.
    - injection E as <- <-. exists s2. auto.
    - apply run_cons_inv in E as (x1 & ob & os1 & E1 & R1 & ->).
      cbn [filter obs_without_predict]. destruct (is_predict o) eqn:Hp; cbn [negb].
      + destruct o; try discriminate.
        destruct (step_Inv g1 s1 (Predict i) HI1) as (y & ob' & F & I1 & _).
        rewrite E1 in F. injection F as <- _.
        apply (IH x1 s2 s1' os1 I1 HI2); [|exact R1].
        eapply equiv_trans; [apply equiv_sym, (predict_equiv g1 s1 i x1 ob HI1 E1)|exact He].
      + destruct (step_equiv_Inv g1 g2 s1 s2 o x1 ob HI1 HI2 He E1) as [x2 [E2 [He' [I1 I2]]]].
        destruct (IH x1 x2 s1' os1 I1 I2 He' R1) as [y2 [R2 He2]].
        exists y2. cbn [run]. rewrite E2, R2. auto.
  Qed.

  (** ** History summaries

      A summary records: the rows fixed before the most recent supply
      (constructor or [SetPva]), the time and pva of that supply, and the
      increments integrated since.  It never mentions capacity, garbage or
      [Predict]. *)

  Record summary := mkSum {
    sm_pre : list (time * prow);
    sm_t : time;
    sm_q : prow;
    sm_incs : list inc
  }.

  Definition sm_row b m : time * prow := (sm_t m, sup b (sm_q m)).
  Definition sm_r0 b m : brow := of_pub (sup b (sm_q m)).
  Definition sm_seg b m : list (time * prow) := sm_row b m :: rows b (sm_r0 b m) (sm_incs m).
  Definition sm_traj b m : list (time * prow) := sm_pre m ++ sm_seg b m.
  Definition sm_cur b m : brow := fold_left (kstep b) (sm_incs m) (sm_r0 b m).
  (** the trajectory split as [step_nf] wants it: all rows but the last, and the last *)
  Definition sm_tpre b m : list (time * prow) := sm_pre m ++ removelast (sm_seg b m).
  Definition sm_last b m : time * prow := last (sm_seg b m) (sm_row b m).

  Definition sm_step b (m : summary) (o : Op) : summary :=
    match o with
    | Integrate c => mkSum (sm_pre m) (sm_t m) (sm_q m) (sm_incs m ++ c)
    | SetPva p => mkSum (sm_tpre b m) (fst (sm_last b m)) p []
    | _ => m
    end.

  Definition sm_obs b (m : summary) : Op -> Obs := nobs b (sm_tpre b m) (sm_last b m) (sm_cur b m).

  Definition sm_run b (m : summary) (ops : list Op) : summary := fold_left (sm_step b) ops m.

  Lemma sm_run_cons b m o ops : sm_run b m (o :: ops) = sm_run b (sm_step b m o) ops.
  Proof. reflexivity. Qed.

  Lemma sm_run_app b m ops1 ops2 : sm_run b m (ops1 ++ ops2) = sm_run b (sm_run b m ops1) ops2.
  Proof. apply fold_left_app. Qed.

  Fixpoint sm_obss b (m : summary) (ops : list Op) : list Obs :=
    match ops with
    | [] => []
    | o :: rest => sm_obs b m o :: sm_obss b (sm_step b m o) rest
    end.

  (** state [s] is the one summarised by [m]: its trajectory is [sm_traj], and the last valid
      buffer row, from which the next step starts, is [sm_cur] *)
  Definition Rep b (s : State) (m : summary) : Prop :=
    with_alt s = b /\ traj s = sm_traj b m /\
    exists pre cells, Zip s pre (sm_cur b m) cells.

  Lemma sm_traj_snoc b m : sm_traj b m = sm_tpre b m ++ [sm_last b m].
  Proof.
    unfold sm_traj, sm_tpre, sm_last. rewrite <- app_assoc. f_equal.
    apply app_removelast_last. discriminate.
  Qed.

  (** the normal form of a step from a state represented by [m] is the summary step *)
  Lemma sm_step_nf b m o :
    ntraj b (sm_tpre b m) (sm_last b m) (sm_cur b m) o = sm_traj b (sm_step b m o) /\
    ncur b (sm_cur b m) o = sm_cur b (sm_step b m o).
  Proof.
    destruct o; cbn [ntraj ncur sm_step]; rewrite <- ?sm_traj_snoc; try (split; reflexivity).
    unfold sm_traj, sm_seg, sm_cur, sm_row, sm_r0. cbn [sm_pre sm_t sm_q sm_incs].
    rewrite rows_app, fold_left_app, <- app_assoc. split; reflexivity.
  Qed.

  Theorem Rep_step g b s m o :
    Rep b s m -> exists s', stepg g s o = Some (s', sm_obs b m o) /\ Rep b s' (sm_step b m o).
  Proof.
    intros (<- & Ht & pre & cells & HZ). rewrite sm_traj_snoc in Ht.
    destruct (step_nf g s o _ _ _ _ _ HZ Ht) as (s' & pre' & cells' & E & Hw & Ht' & HZ' & _).
    destruct (sm_step_nf (with_alt s) m o) as [Etr Ecur]. rewrite Etr in Ht'. rewrite Ecur in HZ'.
    exists s'. split; [exact E|]. split; [exact Hw|]. split; [exact Ht'|]. exists pre', cells'. exact HZ'.
  Qed.

  Theorem Rep_run g b ops : forall s m,
    Rep b s m ->
    exists s', rung g s ops = Some (s', sm_obss b m ops) /\ Rep b s' (sm_run b m ops).
  Proof.
    induction ops as [|o ops IH]; intros s m HR.
    - exists s. cbn. auto.
    - destruct (Rep_step g b s m o HR) as [s1 [E HR1]].
      destruct (IH s1 _ HR1) as [s2 [E2 HR2]].
      exists s2. cbn [run sm_obss]. rewrite E, E2. auto.
  Qed.

  Definition sm_init (t0 : time) (p : prow) : summary := mkSum [] t0 p [].

  (** the complete behaviour of any history is given by its summary *)
  Theorem run_init_spec g b cap t0 p ops :
    1 <= cap ->
    exists s, run_initg g b cap t0 p ops = Some (s, sm_obss b (sm_init t0 p) ops) /\
              Rep b s (sm_run b (sm_init t0 p) ops).
  Proof.
    intros Hc. unfold run_init. rewrite (init_Some g b cap t0 p Hc).
    apply Rep_run. split; [reflexivity|]. split; [reflexivity|].
    exists [], (repeat g (cap - 1)). split; reflexivity.
  Qed.

  Corollary run_init_traj g b cap t0 p ops :
    1 <= cap ->
    exists s os, run_initg g b cap t0 p ops = Some (s, os) /\
                 traj s = sm_traj b (sm_run b (sm_init t0 p) ops).
  Proof.
    intros Hc. destruct (run_init_spec g b cap t0 p ops Hc) as (s & E & _ & Ht & _). eauto.
  Qed.

  Lemma sm_obss_app b ops1 ops2 : forall m,
    sm_obss b m (ops1 ++ ops2) = sm_obss b m ops1 ++ sm_obss b (sm_run b m ops1) ops2.
  Proof.
    induction ops1 as [|o ops1 IH]; intros m; [reflexivity|].
    cbn [app sm_obss]. rewrite IH. reflexivity.
  Qed.

  Lemma sm_traj_length b m : length (sm_traj b m) = length (sm_pre m) + S (length (sm_incs m)).
  Proof. unfold sm_traj, sm_seg. rewrite app_length. cbn [length]. rewrite rows_length. reflexivity. Qed.

  Lemma sm_q_run b ops : forall m, sm_q (sm_run b m ops) = latest_pva (sm_q m) ops.
  Proof.
    induction ops as [|o ops IH]; intros m; [reflexivity|].
    rewrite sm_run_cons, IH. destruct o; reflexivity.
  Qed.

  Lemma sm_incs_run b ops : forall m,
    sm_incs (sm_run b m ops) = incs_since (sm_incs m) ops.
  Proof.
    induction ops as [|o ops IH]; intros m; [reflexivity|].
    rewrite sm_run_cons, IH. destruct o; reflexivity.
  Qed.

  (** the segment since the latest supply, in the terms of the history *)
  Lemma sm_seg_run b t0 p ops :
    exists t, sm_seg b (sm_run b (sm_init t0 p) ops) =
              (t, sup b (latest_pva p ops))
              :: rows b (of_pub (sup b (latest_pva p ops))) (incs_since [] ops).
  Proof.
    eexists. unfold sm_seg, sm_row, sm_r0. rewrite sm_q_run, sm_incs_run. reflexivity.
  Qed.

  Lemma sm_run_no_setpva b ops : forall m,
    existsb is_setpva ops = false ->
    sm_run b m ops = mkSum (sm_pre m) (sm_t m) (sm_q m) (sm_incs m ++ all_incs ops).
  Proof.
    induction ops as [|o ops IH]; intros m H.
    - cbn. rewrite app_nil_r. destruct m; reflexivity.
    - cbn [existsb] in H. apply orb_false_iff in H. destruct H as [Ho H].
      rewrite sm_run_cons, IH by exact H.
      destruct o; try discriminate; cbn [sm_step sm_pre sm_t sm_q sm_incs all_incs];
        try reflexivity.
      rewrite app_assoc. reflexivity.
  Qed.

  (** the time index: start time, then every integrated increment's time once *)
  Lemma sm_times b ops : forall m,
    map fst (sm_traj b (sm_run b m ops)) =
    map fst (sm_traj b m) ++ map inc_time (all_incs ops).
  Proof.
    induction ops as [|o ops IH]; intros m.
    - cbn. rewrite app_nil_r. reflexivity.
    - rewrite sm_run_cons, IH, <- (proj1 (sm_step_nf b m o)), (sm_traj_snoc b m).
      destruct o; cbn [ntraj all_incs]; rewrite ?app_nil_r; try reflexivity.
      + rewrite !map_app, rows_fst, app_assoc. reflexivity.
      + rewrite !map_app. reflexivity.
  Qed.

  (** shifting the frozen prefix: the continuation does not look at it *)
  Definition sm_shift (tpre : list (time * prow)) (m : summary) : summary :=
    mkSum (tpre ++ sm_pre m) (sm_t m) (sm_q m) (sm_incs m).

  Lemma sm_shift_traj b tpre m : sm_traj b (sm_shift tpre m) = tpre ++ sm_traj b m.
  Proof. unfold sm_traj. cbn [sm_shift sm_pre]. rewrite <- app_assoc. reflexivity. Qed.

  Lemma sm_shift_step b tpre m o :
    sm_step b (sm_shift tpre m) o = sm_shift tpre (sm_step b m o).
  Proof.
    destruct o; try reflexivity.
    cbn [sm_step]. unfold sm_tpre, sm_shift. cbn [sm_pre sm_t sm_q sm_incs].
    rewrite <- app_assoc. reflexivity.
  Qed.

  (** only [Integrate c] looks back, at the last |c| + 1 rows; the segment since the supply
      alone has at least that many after the step, so the frozen prefix is never reached *)
  Lemma sm_shift_obs b tpre m o : sm_obs b (sm_shift tpre m) o = sm_obs b m o.
  Proof.
    destruct o as [c|i| | |p]; try reflexivity.
    unfold sm_obs, nobs. rewrite !(proj1 (sm_step_nf _ _ _)), sm_shift_step, sm_shift_traj. f_equal.
    apply lastn_app_le. rewrite sm_traj_length. cbn [sm_step sm_incs].
    rewrite app_length, Nat.add_succ_r. apply le_n_S. rewrite Nat.add_assoc, Nat.add_comm.
    apply Nat.le_add_r.
  Qed.

  Lemma sm_shift_run b tpre ops : forall m,
    sm_run b (sm_shift tpre m) ops = sm_shift tpre (sm_run b m ops) /\
    sm_obss b (sm_shift tpre m) ops = sm_obss b m ops.
  Proof.
    induction ops as [|o ops IH]; intros m; [split; reflexivity|].
    cbn [sm_obss]. rewrite !sm_run_cons, sm_shift_step, sm_shift_obs.
    destruct (IH (sm_step b m o)) as [-> ->]. split; reflexivity.
  Qed.

  (** [SetPva p] starts a summary afresh behind the rows fixed so far *)
  Lemma sm_step_setpva b m p :
    sm_step b m (SetPva p) = sm_shift (sm_tpre b m) (sm_init (fst (sm_last b m)) p).
  Proof. unfold sm_shift, sm_init. cbn [sm_step sm_pre sm_t sm_q sm_incs]. rewrite app_nil_r. reflexivity. Qed.

  (** ** Histories from the constructor, by the invariant: every access is in bounds *)

  Lemma Inv_bounds (s : State) : Inv s -> 1 <= length (traj s) <= length (buf s).
  Proof.
    intros [H1 H2]. split; [exact H1|].
    apply Forall2_len in H2. rewrite <- H2, firstn_length. apply Nat.le_min_r.
  Qed.

  Theorem writes_in_bounds g b cap (t0 : time) p ops :
    1 <= cap ->
    exists s os, run_initg g b cap t0 p ops = Some (s, os) /\ Inv s /\
                 1 <= length (traj s) <= length (buf s) /\ length os = length ops.
  Proof.
    intros Hc. unfold run_init. pose proof (init_Some g b cap t0 p Hc) as Ei. rewrite Ei.
    destruct (run_Inv g ops _ (init_Inv _ _ _ _ _ _ Ei)) as [s [os [E [HI' [_ Hlen]]]]].
    exists s, os. auto using Inv_bounds.
  Qed.

  (** ** Histories from the constructor, read off the summary: chunking, the segment since the
         latest supply, the time index, restart after [SetPva] *)

  Theorem integrate_chunks g g' b cap cap' (t0 : time) p ops :
    1 <= cap -> 1 <= cap' -> existsb is_setpva ops = false ->
    exists s os s1 os1,
      run_initg g b cap t0 p ops = Some (s, os) /\
      run_initg g' b cap' t0 p [Integrate (all_incs ops)] = Some (s1, os1) /\
      traj s = traj s1 /\
      traj s = (t0, sup b p) :: rows b (of_pub (sup b p)) (all_incs ops).
  Proof.
    intros Hc Hc' Hns.
    destruct (run_init_traj g b cap t0 p ops Hc) as (s & os & E & Ht).
    destruct (run_init_traj g' b cap' t0 p [Integrate (all_incs ops)] Hc') as (s1 & os1 & E1 & Ht1).
    exists s, os, s1, os1. split; [exact E|]. split; [exact E1|].
    rewrite sm_run_no_setpva in Ht by exact Hns. split; [rewrite Ht, Ht1; reflexivity|exact Ht].
  Qed.

  Theorem since_last_supply g b cap (t0 : time) p ops :
    1 <= cap ->
    exists s os pre t,
      run_initg g b cap t0 p ops = Some (s, os) /\
      traj s = pre ++ (t, sup b (latest_pva p ops))
                   :: rows b (of_pub (sup b (latest_pva p ops))) (incs_since [] ops).
  Proof.
    intros Hc. destruct (run_init_traj g b cap t0 p ops Hc) as (s & os & E & Ht).
    destruct (sm_seg_run b t0 p ops) as [t Es].
    eexists s, os, _, t. split; [exact E|]. rewrite Ht. unfold sm_traj. rewrite Es. reflexivity.
  Qed.

  Theorem times_exactly_once g b cap (t0 : time) p ops :
    1 <= cap ->
    exists s os, run_initg g b cap t0 p ops = Some (s, os) /\
                 map fst (traj s) = t0 :: map inc_time (all_incs ops).
  Proof.
    intros Hc. destruct (run_init_traj g b cap t0 p ops Hc) as (s & os & E & Ht).
    exists s, os. split; [exact E|]. rewrite Ht, sm_times. reflexivity.
  Qed.

  Theorem set_pva_restart g g' b cap cap' (t0 : time) p0 ops1 p ops2 :
    1 <= cap -> 1 <= cap' ->
    exists s1 os1 s os tpre tl f osf,
      run_initg g b cap t0 p0 ops1 = Some (s1, os1) /\ traj s1 = tpre ++ [tl] /\
      run_initg g b cap t0 p0 (ops1 ++ SetPva p :: ops2) = Some (s, os) /\
      run_initg g' b cap' (fst tl) p ops2 = Some (f, osf) /\
      traj s = tpre ++ traj f /\ os = os1 ++ OUnit :: osf.
  Proof.
    intros Hc Hc'.
    destruct (run_init_spec g b cap t0 p0 ops1 Hc) as [s1 [E1 [_ [Ht1 _]]]].
    destruct (run_init_spec g b cap t0 p0 (ops1 ++ SetPva p :: ops2) Hc) as [s [E [_ [Ht _]]]].
    set (m1 := sm_run b (sm_init t0 p0) ops1) in *.
    destruct (run_init_spec g' b cap' (fst (sm_last b m1)) p ops2 Hc') as [f [Ef [_ [Htf _]]]].
    eexists s1, _, s, _, (sm_tpre b m1), (sm_last b m1), f, _.
    split; [exact E1|]. split; [rewrite Ht1; apply sm_traj_snoc|].
    split; [exact E|]. split; [exact Ef|].
    destruct (sm_shift_run b (sm_tpre b m1) ops2 (sm_init (fst (sm_last b m1)) p)) as [Er Eo].
    split.
    - rewrite Ht, Htf, sm_run_app, sm_run_cons. fold m1. rewrite sm_step_setpva, Er.
      apply sm_shift_traj.
    - rewrite sm_obss_app. fold m1. cbn [sm_obss]. rewrite sm_step_setpva, Eo. reflexivity.
  Qed.

  (** ** Histories from the constructor, by the equivalence: capacity, garbage and predicts are
         unobservable *)

  Lemma init_sim g g' b cap cap' (t0 : time) p s :
    1 <= cap' -> initg g b cap t0 p = Some s ->
    exists s', initg g' b cap' t0 p = Some s' /\ Inv s /\ Inv s' /\ equiv s s'.
  Proof.
    intros Hc' Ei. pose proof (init_Some g' b cap' t0 p Hc') as Ei'.
    eexists. split; [exact Ei'|]. split; [exact (init_Inv _ _ _ _ _ _ Ei)|].
    split; [exact (init_Inv _ _ _ _ _ _ Ei')|].
    apply init_inv in Ei as [_ ->]. repeat split.
  Qed.

  Theorem predict_unobservable g g' b cap cap' (t0 : time) p ops s os :
    1 <= cap' ->
    run_initg g b cap t0 p ops = Some (s, os) ->
    exists s2,
      run_initg g' b cap' t0 p (filter (fun o => negb (is_predict o)) ops)
      = Some (s2, obs_without_predict ops os) /\ traj s2 = traj s /\ equiv s s2.
  Proof.
    intros Hc' E. unfold run_init in *.
    destruct (initg g b cap t0 p) as [s0|] eqn:Ei; [|discriminate].
    destruct (init_sim g g' b cap cap' t0 p s0 Hc' Ei) as (s0' & -> & HI & HI' & He0).
    destruct (run_equiv_without_predict g g' ops s0 _ s os HI HI' He0 E) as [s2 [E2 He]].
    exists s2. split; [exact E2|]. split; [symmetry; apply He|exact He].
  Qed.

  Theorem capacity_garbage_irrelevant g g' b cap cap' (t0 : time) p ops s os :
    1 <= cap' ->
    run_initg g b cap t0 p ops = Some (s, os) ->
    exists s2, run_initg g' b cap' t0 p ops = Some (s2, os) /\ traj s2 = traj s /\ equiv s s2.
  Proof.
    intros Hc' E. unfold run_init in *.
    destruct (initg g b cap t0 p) as [s0|] eqn:Ei; [|discriminate].
    destruct (init_sim g g' b cap cap' t0 p s0 Hc' Ei) as (s0' & -> & HI & HI' & He0).
    destruct (run_equiv g g' ops s0 _ s os HI HI' He0 E) as [s2 [E2 He]].
    exists s2. split; [exact E2|]. split; [symmetry; apply He|exact He].
  Qed.

  (** ** One more step from a state reached from the constructor, by the normal form *)

  Lemma run_init_zip g b cap (t0 : time) p ops :
    1 <= cap ->
    exists s os pre cur cells tpre tl,
      run_initg g b cap t0 p ops = Some (s, os) /\ Zip s pre cur cells /\ traj s = tpre ++ [tl].
  Proof.
    intros Hc. destruct (run_init_spec g b cap t0 p ops Hc) as (s & E & _ & Ht & pre & cells & HZ).
    rewrite sm_traj_snoc in Ht. eauto 10.
  Qed.

  Theorem predict_is_next_row g b cap (t0 : time) p ops i :
    1 <= cap ->
    exists s os s1 r s2 fr s3,
      run_initg g b cap t0 p ops = Some (s, os) /\
      stepg g s (Predict i) = Some (s1, ORow r) /\ fst r = inc_time i /\ traj s1 = traj s /\
      stepg g s (Integrate [i]) = Some (s2, fr) /\ traj s2 = traj s ++ [r] /\
      stepg g s1 (Integrate [i]) = Some (s3, fr) /\ traj s3 = traj s ++ [r].
  Proof.
    intros Hc.
    destruct (run_init_zip g b cap t0 p ops Hc) as (s & os & pre & cur & cells & tpre & tl & E & HZ & Et).
    destruct (step_nf g s (Predict i) _ _ _ _ _ HZ Et) as (s1 & p1 & c1 & E1 & W1 & T1 & Z1 & _).
    destruct (step_nf g s (Integrate [i]) _ _ _ _ _ HZ Et) as (s2 & p2 & c2 & E2 & _ & T2 & _).
    destruct (step_nf g s1 (Integrate [i]) _ _ _ _ _ Z1 T1) as (s3 & p3 & c3 & E3 & _ & T3 & _).
    rewrite W1 in E3, T3. cbn [ncur] in E3, T3.
    eexists s, os, s1, _, s2, _, s3. rewrite Et.
    repeat (split; [eassumption || reflexivity|]). exact T3.
  Qed.

  Theorem integrate_returns_tail g b cap (t0 : time) p ops c :
    1 <= cap ->
    exists s os s' tpre tl new,
      run_initg g b cap t0 p ops = Some (s, os) /\ traj s = tpre ++ [tl] /\
      stepg g s (Integrate c) = Some (s', OFrame (tl :: new)) /\
      traj s' = traj s ++ new /\ length new = length c /\ map fst new = map inc_time c.
  Proof.
    intros Hc.
    destruct (run_init_zip g b cap t0 p ops Hc) as (s & os & pre & cur & cells & tpre & tl & E & HZ & Et).
    destruct (step_nf g s (Integrate c) _ _ _ _ _ HZ Et) as (s' & p' & c' & E' & _ & T' & _).
    exists s, os, s', tpre, tl, (rows (with_alt s) cur c).
    split; [exact E|]. split; [exact Et|]. split; [|rewrite Et; auto using rows_length, rows_fst].
    rewrite E'. cbn [nobs ntraj]. rewrite <- app_assoc, lastn_app_exact; [reflexivity|].
    cbn. rewrite rows_length. reflexivity.
  Qed.

  (** ** Generic invariant of the no-altitude mode (instantiated in C13 with P := (VD = 0),
         key := altitude) *)

  Section Inv2D.
    Variable K : Type.
    Variable P : brow -> Prop.
    Variable key : brow -> K.
    Hypothesis Hstep : forall r i, P r -> P (kstep false r i) /\ key (kstep false r i) = key r.
    Hypothesis Hsup : forall p, P (of_pub (zero_vd p)).

    Lemma scanl_keeps k0 incs : forall r,
      P r -> key r = k0 ->
      Forall (fun r' => P r' /\ key r' = k0) (scanl (kstep false) r incs) /\
      P (fold_left (kstep false) incs r) /\ key (fold_left (kstep false) incs r) = k0.
    Proof.
      induction incs as [|i incs IH]; intros r HP Hk.
      - cbn. auto.
      - destruct (Hstep r i HP) as [HP' Hk'].
        destruct (IH (kstep false r i) HP' (eq_trans Hk' Hk)) as [HF HL].
        cbn [scanl fold_left]. split; [|exact HL].
        constructor; [split; congruence|exact HF].
    Qed.

    (** [inv2d_since_supply] with the buffer row given through [Zip], as [step_nf] takes it *)
    Lemma run_init_2d g cap (t0 : time) p ops :
      1 <= cap ->
      let r0 := of_pub (zero_vd (latest_pva p ops)) in
      exists s os pre t bpre cur cells,
        run_initg g false cap t0 p ops = Some (s, os) /\ with_alt s = false /\
        traj s = pre ++ (t, zero_vd (latest_pva p ops)) :: rows false r0 (incs_since [] ops) /\
        Forall (fun r => P r /\ key r = key r0) (scanl (kstep false) r0 (incs_since [] ops)) /\
        Zip s bpre cur cells /\ P cur /\ key cur = key r0.
    Proof.
      intros Hc r0.
      destruct (run_init_spec g false cap t0 p ops Hc) as (s & E & Hw & Ht & bpre & cells & HZ).
      destruct (sm_seg_run false t0 p ops) as [t Es]. unfold sm_traj in Ht. rewrite Es in Ht.
      unfold sm_cur, sm_r0 in HZ. rewrite sm_q_run, sm_incs_run in HZ.
      destruct (scanl_keeps (key r0) (incs_since [] ops) r0 (Hsup _) eq_refl) as [HF HL].
      eexists s, _, _, t, bpre, _, cells. split; [exact E|]. split; [exact Hw|]. split; [exact Ht|].
      split; [exact HF|]. split; [exact HZ|exact HL].
    Qed.

    (** In every reachable 2D state: the rows since the latest supply [q] are
        [to_pub] of buffer rows satisfying [P] with the key of [of_pub (zero_vd q)],
        and so is the last valid buffer row (the one every later step starts from). *)
    Theorem inv2d_since_supply g cap (t0 : time) p ops :
      1 <= cap ->
      exists s os pre t rs cur,
        run_initg g false cap t0 p ops = Some (s, os) /\
        traj s = pre ++ (t, zero_vd (latest_pva p ops))
                     :: combine (map inc_time (incs_since [] ops)) (map to_pub rs) /\
        rs = scanl (kstep false) (of_pub (zero_vd (latest_pva p ops))) (incs_since [] ops) /\
        Forall (fun r => P r /\ key r = key (of_pub (zero_vd (latest_pva p ops)))) rs /\
        nth_error (buf s) (length (traj s) - 1) = Some cur /\
        P cur /\ key cur = key (of_pub (zero_vd (latest_pva p ops))).
    Proof.
      intros Hc.
      destruct (run_init_2d g cap t0 p ops Hc)
        as (s & os & pre & t & bpre & cur & cells & E & _ & Ht & HF & [Hb Hl] & HP & HK).
      eexists s, os, pre, t, _, cur. split; [exact E|]. split; [exact Ht|]. split; [reflexivity|].
      split; [exact HF|]. split; [|auto].
      rewrite Hb, <- Hl. cbn [Nat.sub]. rewrite Nat.sub_0_r. apply nth_error_app_here.
    Qed.

    (** Step form: what [Integrate] appends and what [Predict] returns in a reachable 2D state. *)
    Theorem inv2d_step g cap (t0 : time) p ops s os :
      run_initg g false cap t0 p ops = Some (s, os) ->
      (forall g' c s' ob, stepg g' s (Integrate c) = Some (s', ob) ->
         exists rs, traj s' = traj s ++ combine (map inc_time c) (map to_pub rs) /\
                    length rs = length c /\
                    Forall (fun r => P r /\ key r = key (of_pub (zero_vd (latest_pva p ops)))) rs) /\
      (forall g' i s' ob, stepg g' s (Predict i) = Some (s', ob) ->
         exists r, ob = ORow (inc_time i, to_pub r) /\ traj s' = traj s /\
                   P r /\ key r = key (of_pub (zero_vd (latest_pva p ops)))).
    Proof.
      intros E.
      assert (Hc : 1 <= cap).
      { unfold run_init in E. destruct (initg g false cap t0 p) eqn:Ei; [|discriminate].
        apply (init_inv _ _ _ _ _ _ Ei). }
      destruct (run_init_2d g cap t0 p ops Hc)
        as (s0 & os0 & pre & t & bpre & cur & cells & E0 & Hw & Ht & _ & HZ & HP & HK).
      rewrite E0 in E. injection E as <- _.
      assert (Hne : traj s0 <> []) by (rewrite Ht; destruct pre; discriminate).
      destruct (exists_last Hne) as (tpre & tl & Et).
      split; intros g' x s' ob Es.
      - destruct (step_nf g' s0 (Integrate x) _ _ _ _ _ HZ Et) as (y & _ & _ & Es' & _ & Ht' & _).
        rewrite Es' in Es. injection Es as <- _. rewrite Ht'. cbn [ntraj]. rewrite <- Et, Hw.
        exists (scanl (kstep false) cur x).
        split; [reflexivity|]. split; [apply scanl_length|]. apply (scanl_keeps _ x _ HP HK).
      - destruct (step_nf g' s0 (Predict x) _ _ _ _ _ HZ Et) as (y & _ & _ & Es' & _ & Ht' & _).
        rewrite Es' in Es. injection Es as <- <-. rewrite Ht'. cbn [ntraj nobs]. rewrite <- Et, Hw.
        exists (kstep false cur x). split; [reflexivity|]. split; [reflexivity|].
        destruct (Hstep cur x HP) as [A B]. split; [exact A|congruence].
    Qed.
  End Inv2D.
End IntegratorProofs.

Arguments init_inv {brow prow time} of_pub zero_vd g b cap t0 p s _.
Arguments sm_step_nf {brow prow inc time} kstep to_pub of_pub zero_vd inc_time b m o.
Arguments Rep_step {brow prow inc time} kstep to_pub of_pub zero_vd inc_time g b s m o _.
Arguments run_init_traj {brow prow inc time} kstep to_pub of_pub zero_vd inc_time g b cap t0 p ops _.
Arguments scanl_keeps {brow inc} kstep {K} P key Hstep k0 incs r _ _.
