(* C12 -- the feedback filter without data, on a re-run, and against the feedforward filter
   (the properties are stated and read in Props/C12.v).

   First part, over lists and Q: with no stamp in [t0, t_end) the schedule of C09 issues to the
   integrator the increment table and nothing else, so C02 applies; a client of the estimate state
   that resets first sees the same from every prior state.
   Second part, over MathComp matrices (from the second `Require` on): a run of kalman.correct calls is
   affine in (prior mean, residuals), which makes one measurement epoch of the two filters agree
   exactly in the linearised world. *)
From Coq Require Import List QArith Lia Sorted Qcanon.
From PV Require Import Base.ListFacts Model.FeedbackSched Model.FilterFlow Proofs.SchedProofs.
From PV Require Model.Integrator Model.SensorModel Proofs.IntegratorProofs.
Import ListNotations.

Section Transparent.
  Variables prow inc : Type.
  Variable on_innov : nat -> Q -> Q -> list (Integrator.op prow inc).
  Variable data : list inc.

  Local Notation ops := (fb_integrator_ops on_innov data).
  Local Notation chunk_of := (fun e => match e with
                                       | Integrate a b => firstn (b - a) (skipn a data)
                                       | _ => [] end).

  Lemma all_incs_app : forall (l1 l2 : list (Integrator.op prow inc)),
    Integrator.all_incs (l1 ++ l2) = Integrator.all_incs l1 ++ Integrator.all_incs l2.
  Proof.
    induction l1 as [|o l1 IH]; intro l2; [reflexivity|].
    destruct o; cbn [app Integrator.all_incs]; rewrite IH, ?app_assoc; reflexivity.
  Qed.

  Lemma ops_no_innov : forall tr, (forall k m t, ~ In (Innov k m t) tr) ->
    Integrator.all_incs (ops tr) = flat_map chunk_of tr /\
    existsb Integrator.is_setpva (ops tr) = false.
  Proof.
    induction tr as [|e tr IH]; intro H; [split; reflexivity|].
    destruct IH as [IH1 IH2]; [intros k m t Hin; apply (H k m t); now right|].
    unfold fb_integrator_ops in *. cbn [flat_map].
    destruct e as [k m t|t|a b|i j| |]; cbn [app]; try (split; assumption).
    - exfalso. apply (H k m t). now left.
    - cbn [Integrator.all_incs]. now rewrite IH1.
  Qed.
End Transparent.

(* No Innov event (C09) => the operations contain no set_pva and their batches, each a slice
   iloc[a:b] of the table, concatenate to the table (`chunks_by_index` on `integrated tr = 0 .. n-1`)
   => the trajectory is that of the single call (C02, chunking). *)
Theorem fb_transparent :
  forall (brow prow inc time : Type) (kstep : bool -> brow -> inc -> brow)
         (to_pub : brow -> prow) (of_pub : prow -> brow) (zero_vd : prow -> prow)
         (inc_time : inc -> time) (g g' : brow) (b : bool) (cap cap' : nat) (tinit : time) (p : prow)
         (on_innov : nat -> Q -> Q -> list (Integrator.op prow inc)) (data : list inc)
         add_step t0 incs sensors fuel,
  (forall t, t <= add_step t)%Q -> StronglySorted Qlt (t0 :: incs) -> incs <> [] ->
  (length incs <= fuel)%nat -> length data = length incs -> (1 <= cap)%nat -> (1 <= cap')%nat ->
  (forall s x, In s sensors -> In x s -> ~ (t0 <= x /\ x < last incs t0)%Q) ->
  let tr := fb_run fuel add_step t0 incs sensors in
  let ops := fb_integrator_ops on_innov data tr in
  completed tr = true /\
  (forall k m t, ~ In (Innov k m t) tr) /\
  existsb Integrator.is_setpva ops = false /\
  Integrator.all_incs ops = data /\
  exists s os s1 os1,
    Integrator.run_init kstep to_pub of_pub zero_vd inc_time g b cap tinit p ops = Some (s, os) /\
    Integrator.run_init kstep to_pub of_pub zero_vd inc_time g' b cap' tinit p
      [Integrator.Integrate data] = Some (s1, os1) /\
    Integrator.traj s = Integrator.traj s1.
Proof.
  intros brow prow inc time kstep to_pub of_pub zero_vd inc_time g g' b cap cap' tinit p on_innov data
         add_step t0 incs sensors fuel Hstep Hs Hne Hfuel Hlen Hcap Hcap' Hnone tr ops.
  pose proof (fb_terminates_oracle add_step t0 incs sensors fuel Hstep Hs Hne Hfuel) as Hterm.
  pose proof (fb_no_meas_no_innov_oracle add_step t0 incs sensors fuel Hstep Hs Hne Hfuel Hnone) as Hno.
  destruct (fb_imu_exactly_once_oracle add_step t0 incs sensors fuel Hstep Hs Hne Hfuel) as (Hint & Hbat & _).
  fold tr in Hterm, Hno, Hint, Hbat.
  destruct (ops_no_innov prow inc on_innov data tr Hno) as [Hall Hset]. fold ops in Hall, Hset.
  assert (Hdata : Integrator.all_incs ops = data).
  { rewrite Hall. destruct data as [|d0 data'] eqn:Ed.
    { exfalso. destruct incs; [congruence|discriminate Hlen]. }
    rewrite <- Ed in *.
    rewrite (chunks_by_index d0 data tr).
    - rewrite Hint, <- Hlen. apply map_nth_seq.
    - intros a c Hin. rewrite Hlen. apply Hbat in Hin. lia. }
  split; [exact Hterm|]. split; [exact Hno|]. split; [exact Hset|]. split; [exact Hdata|].
  destruct (IntegratorProofs.integrate_chunks brow prow inc time kstep to_pub of_pub zero_vd inc_time
              g g' b cap cap' tinit p ops Hcap Hcap' Hset) as (s & os & s1 & os1 & H1 & H2 & H3 & _).
  rewrite Hdata in H2. now exists s, os, s1, os1.
Qed.

Lemma Qc_1_neq_0 : 1%Qc <> 0%Qc.
Proof. intro E. discriminate (f_equal this E). Qed.

(* correct_increments with reset estimates (transform = I, bias = 0) is the identity on exact numbers:
   solve(I, v - 0 * dt) = v *)
Lemma correct_increments_reset : forall (dt : Qc) (v : SensorModel.V3 Qc),
  SensorModel.correct_increments SensorModel.reset dt v = Some v.
Proof.
  intros dt [a b c].
  unfold SensorModel.correct_increments, SensorModel.reset, SensorModel.solve3.
  cbn [SensorModel.e_T SensorModel.e_b].
  assert (Hdet : SensorModel.det3 SensorModel.ident3 = 1%Qc) by (apply Qc_is_canon; reflexivity).
  rewrite Hdet.
  destruct (Qc_eq_dec 1 0) as [E|_]; [now destruct Qc_1_neq_0|]. f_equal.
  unfold SensorModel.scale3, SensorModel.mv3, SensorModel.adj3, SensorModel.sub3, SensorModel.zero3,
    SensorModel.ident3, SensorModel.dot3.
  cbn [SensorModel.c0 SensorModel.c1 SensorModel.c2].
  f_equal; field; exact Qc_1_neq_0.
Qed.

Lemma correct_increments_reset_batch : forall (rows : list (Qc * SensorModel.V3 Qc)),
  map (fun r => SensorModel.correct_increments SensorModel.reset (fst r) (snd r)) rows =
  map (fun r => Some (snd r)) rows.
Proof. intro rows. apply map_ext. intros [dt v]. apply correct_increments_reset. Qed.

Lemma est_step_reset : forall m st, est_step m EReset st = (SensorModel.reset, ONone).
Proof. reflexivity. Qed.

(* the first operation overwrites the prior state before anything reads it; every later
   operation is a function of the observations so far *)
Theorem rerun_identical : forall (m : SensorModel.emodel) (client : list est_obs -> option est_op)
                                 (fuel : nat) (st1 st2 : SensorModel.est),
  client [] = Some EReset ->
  est_play m client (S fuel) [] st1 = est_play m client (S fuel) [] st2.
Proof. intros m client fuel st1 st2 H. cbn [est_play]. rewrite H. reflexivity. Qed.

Corollary rerun_is_run_from_reset : forall m client fuel st,
  client [] = Some EReset ->
  est_play m client (S fuel) [] st = est_play m client (S fuel) [] SensorModel.reset.
Proof. intros m client fuel st. apply rerun_identical. Qed.

(* the hypothesis is necessary: a client that reads first (here: corrects an increment with whatever
   bias is stored) distinguishes prior states *)
Lemma rerun_needs_reset : exists m client st1 st2,
  client [] = Some (ECorrect 1%Qc (SensorModel.mk3 0%Qc 0%Qc 0%Qc)) /\
  snd (est_play m client 1 [] st1) <> snd (est_play m client 1 [] st2).
Proof.
  pose (m := SensorModel.mk_emodel [] 0 0 0 [] [] [] [] [] [] []).
  exists m, (fun h => match h with
                      | [] => Some (ECorrect 1%Qc (SensorModel.mk3 0%Qc 0%Qc 0%Qc))
                      | _ => None end),
    SensorModel.reset,
    (SensorModel.mk_est SensorModel.ident3 (SensorModel.mk3 1%Qc 0%Qc 0%Qc)).
  split; [reflexivity|]. vm_compute. intro E. discriminate E.
Qed.

From mathcomp Require Import all_ssreflect all_algebra.
From PV Require Import Spec.LibSpecsMx Spec.Gaussian Gen.Kalman Proofs.KalmanProofs.
Set Implicit Arguments.
Unset Strict Implicit.
Import GRing.Theory.
Local Open Scope ring_scope.

Section CycleProofs.
Variable F : realFieldType.
Variables ni ns : nat.
Local Notation n := (ni + ns)%N.
Variable md : nat -> nat.
Variable Hs : forall k : nat, 'M[F]_(md k, n).
Variable Rs : forall k : nat, 'M[F]_(md k).
Variable chols : forall k : nat, 'M[F]_(md k) -> 'M[F]_(md k).

Hypothesis R_sym : forall k, (Rs k)^T = Rs k.
Hypothesis R_pd : forall k, pd (Rs k).
Hypothesis chol_ok : forall k (P : 'M[F]_n), P^T = P -> psd P ->
  cholesky_factor (@chols k) (correct_S P (Hs k) (Rs k)).

Local Notation crun := (@corr_run F ni ns md Hs Rs chols).

(* one more correction; rewriting with this equation keeps the generated `correct` folded *)
Lemma corr_runS zs N s : crun zs N.+1 s =
  (correct_ret0 (@chols N) (crun zs N s).1 (crun zs N s).2 (zs N) (Hs N) (Rs N),
   correct_ret1 (@chols N) (crun zs N s).2 (Hs N) (Rs N)).
Proof. by []. Qed.

Lemma corr_run_cov zs zs' N x x' P : (crun zs N (x, P)).2 = (crun zs' N (x', P)).2.
Proof. elim: N => [|N IH]; [reflexivity|]. rewrite !corr_runS. cbn [snd]. rewrite IH. reflexivity. Qed.

Lemma corr_run_ext zs zs' N s : (forall k, zs k = zs' k) -> crun zs N s = crun zs' N s.
Proof. move=> e. elim: N => [|N IH]; [reflexivity|]. rewrite !corr_runS IH e. reflexivity. Qed.

(* Shift equivariance: running the corrections of an epoch from the prior mean x with residuals z_k
   is the same as running them from 0 with residuals z_k - H_k x and adding x afterwards.  The update
   is affine in (x, z) with a gain that depends on (P, H, R) only; nothing about P, R or the Cholesky
   routine is needed. *)
Lemma corr_run_shift_affine zs N x P :
  crun zs N (x, P) =
  ((crun (fun k => zs k - Hs k *m x) N (0, P)).1 + x, (crun (fun k => zs k - Hs k *m x) N (0, P)).2).
Proof.
elim: N => [|N IH]; first by rewrite /= add0r.
rewrite !corr_runS IH. cbn [fst snd]. rewrite !correct_ret0_eq. congr (_, _).
rewrite [Hs N *m (_ + _)]mulmxDr opprD addrA [zs N - _ - _]addrAC [LHS]addrAC. reflexivity.
Qed.

(* The form stated as C12.  Symmetry and definiteness of P and R and the Cholesky routine are what
   makes the generated `correct` the Kalman update (KalmanProofs); the equality does not need them. *)
Theorem corr_run_shift zs N x P : P^T = P -> psd P ->
  crun zs N (x, P) =
  ((crun (fun k => zs k - Hs k *m x) N (0, P)).1 + x, (crun (fun k => zs k - Hs k *m x) N (0, P)).2).
Proof using R_sym R_pd chol_ok. by move=> _ _; exact: corr_run_shift_affine. Qed.

Variable Nav : Type.
Variable sub : Nav -> 'cV[F]_ni -> Nav.
(* correct_pva as an exact action of the additive group of error vectors.  For the real
   error_model.correct_pva this holds to first order in the errors (C05); the second-order defect is
   what makes the two filters differ, and is NOT bounded here. *)
Hypothesis sub_add : forall v a b, sub (sub v a) b = sub v (a + b).

(* One measurement epoch.  Invariant linking the two filters before the epoch:
       nav_fb = nav_raw (-) x_ins      (the feedback filter has already applied the carried error)
       est_fb = x_sensor               (update_estimates accumulates additively: C14)
       same covariance P.
   If the measurement residuals of the two filters are related by z_fb = z_ff - H_full x (the residual is
   evaluated at the corrected / uncorrected trajectory: equality to first order by C06), then after the
   epoch (x := 0; corrections; set_pva(correct_pva(pva, x)); update_estimates(x)) the feedback filter's
   navigation state, sensor estimates and covariance ARE the feedforward filter's outputs.
   As in corr_run_shift, the hypotheses on P, R and the Cholesky routine are not used. *)
Theorem feedback_first_order_partial
  (zs_ff zs_fb : forall k : nat, 'cV[F]_(md k)) (N : nat)
  (nav_raw : Nav) (x : 'cV[F]_n) (P : 'M[F]_n) :
  P^T = P -> psd P ->
  (forall k, zs_fb k = zs_ff k - Hs k *m x) ->
  @fb_cycle F ni ns md Hs Rs chols Nav sub zs_fb N (sub nav_raw (usubmx x), dsubmx x, P) =
  @ff_output F ni ns Nav sub nav_raw (@ff_cycle F ni ns md Hs Rs chols zs_ff N (x, P)).
Proof using R_sym R_pd chol_ok sub_add.
move=> _ _ ez. unfold fb_cycle, ff_output, ff_cycle. cbn [fst snd].
rewrite (@corr_run_ext zs_fb (fun k => zs_ff k - Hs k *m x) N (0, P) ez).
rewrite (corr_run_shift_affine zs_ff N x). cbn [fst snd].
by rewrite sub_add !raddfD [usubmx x + _]addrC [dsubmx x + _]addrC.
Qed.

(* the invariant holds at the start of both runs: x = 0, estimates reset *)
Lemma cycle_invariant_init (nav_raw : Nav) :
  (forall v, sub v 0 = v) ->
  (sub nav_raw (usubmx (0 : 'cV[F]_n)), dsubmx (0 : 'cV[F]_n)) = (nav_raw, (0 : 'cV[F]_ns)).
Proof. by move=> s0; rewrite !linear0 s0. Qed.
End CycleProofs.
