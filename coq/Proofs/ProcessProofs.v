(** C08: kalman.compute_process_matrices (generated: Gen/Kalman.v), Van Loan's
    method.  [expm] is a library primitive; its specification is the formal
    power series of Spec/ExpSeries.v. *)
From mathcomp Require Import all_ssreflect all_algebra.
From PV Require Import Spec.LibSpecsMx Spec.Gaussian Spec.ExpSeries Gen.Kalman Proofs.KalmanProofs.
Set Implicit Arguments.
Unset Strict Implicit.
Import GRing.Theory Num.Theory.
Local Open Scope ring_scope.

(** * The shape of the code, written by hand.  Gen/Kalman.v contains ONLY the two returned
      values of `compute_process_matrices` as fully inlined terms; the intermediates are named
      here in terms of the specification (Van Loan's block matrix [vl_mx]). *)
Section CodeShape.
Variable F : fieldType.
Variable n : nat.
Variable expm : 'M[F]_(n + n) -> 'M[F]_(n + n).
Variables (A Q : 'M[F]_n) (dt : F).
Definition cpm_H0 : 'M[F]_(n + n) := vl_mx A Q.
Definition cpm_H1 : 'M[F]_(n + n) := expm (dt *: cpm_H0).
End CodeShape.

(** * Powers of square matrices of arbitrary size *)
Section MxPow.
Variable F : fieldType.
Variable n : nat.
Implicit Types A B : 'M[F]_n.

Lemma mx_pow0 A : mx_pow A 0 = 1%:M.
Proof. by []. Qed.

Lemma mx_powS A k : mx_pow A k.+1 = A *m mx_pow A k.
Proof. by []. Qed.

Lemma mx_pow1 A : mx_pow A 1 = A.
Proof. by rewrite mx_powS mx_pow0 mulmx1. Qed.

Lemma mx_powSr A k : mx_pow A k.+1 = mx_pow A k *m A.
Proof.
elim: k => [|k IH]; first by rewrite mx_pow1 mx_pow0 mul1mx.
by rewrite mx_powS {1}IH mulmxA -mx_powS.
Qed.

Lemma mx_powD A i j : mx_pow A (i + j) = mx_pow A i *m mx_pow A j.
Proof.
elim: i => [|i IH]; first by rewrite add0n mx_pow0 mul1mx.
by rewrite addSn !mx_powS IH mulmxA.
Qed.

Lemma mx_pow_tr A k : mx_pow A^T k = (mx_pow A k)^T.
Proof.
elim: k => [|k IH]; first by rewrite !mx_pow0 trmx1.
by rewrite mx_powS mx_powSr trmx_mul IH.
Qed.

Lemma mx_pow_scale (t : F) A k : mx_pow (t *: A) k = t ^+ k *: mx_pow A k.
Proof.
elim: k => [|k IH]; first by rewrite !mx_pow0 expr0 scale1r.
by rewrite !mx_powS IH -scalemxAl -scalemxAr scalerA exprS.
Qed.

Lemma exp_coeff0 A : exp_coeff A 0 = 1%:M.
Proof. by rewrite /exp_coeff fact0 invr1 scale1r. Qed.

Lemma exp_coeff_scale (t : F) A k : exp_coeff (t *: A) k = t ^+ k *: exp_coeff A k.
Proof. by rewrite /exp_coeff mx_pow_scale !scalerA mulrC. Qed.

Lemma exp_upto_scale N (t : F) A : exp_upto N (t *: A) = \sum_(k < N) t ^+ k *: exp_coeff A k.
Proof. by apply: eq_bigr => k _; rewrite exp_coeff_scale. Qed.

Lemma mx_pow_opp A k : mx_pow (- A) k = (-1) ^+ k *: mx_pow A k.
Proof. by rewrite -scaleN1r mx_pow_scale. Qed.

Lemma mx_pow_0mx k : mx_pow (0 : 'M[F]_n) k.+1 = 0.
Proof. by rewrite mx_powS mul0mx. Qed.

Lemma mx_pow_1mx k : mx_pow (1%:M : 'M[F]_n) k = 1%:M.
Proof. by elim: k => // k IH; rewrite mx_powS IH mulmx1. Qed.

End MxPow.

Lemma mx_powE (F : fieldType) (n : nat) (A : 'M[F]_n.+1) k : mx_pow A k = A ^+ k.
Proof. by elim: k => [|k IH]; rewrite ?expr0 // mx_powS exprS IH. Qed.

Lemma exp_uptoE (F : fieldType) (n : nat) (A : 'M[F]_n.+1) N :
  exp_upto N A = \sum_(k < N) (k`!%:R)^-1 *: A ^+ k.
Proof. by apply: eq_bigr => k _; rewrite /exp_coeff mx_powE. Qed.

(** * Powers and truncated exponentials of a block triangular matrix *)
Section BlockTriangular.
Variable F : fieldType.
Variables n1 n2 : nat.
Variables (A : 'M[F]_n1) (B : 'M[F]_(n1, n2)) (D : 'M[F]_n2).

Local Notation M := (block_mx A B 0 D).
Local Notation G := (ur_pow A B D).

Lemma ur_pow0 : G 0 = 0.
Proof. by []. Qed.

Lemma ur_powS k : G k.+1 = A *m G k + B *m mx_pow D k.
Proof. by []. Qed.

Lemma pow_block_gen k :
  mx_pow M k = block_mx (mx_pow A k) (G k) 0 (mx_pow D k).
Proof.
elim: k => [|k IH]; first by rewrite !mx_pow0 -scalar_mx_block.
rewrite mx_powS IH mulmx_block !mx_powS ur_powS.
by rewrite !mulmx0 !mul0mx !addr0 !add0r.
Qed.

Lemma sum_block_mx (I : Type) (r : seq I) (P : pred I)
  (a : I -> 'M[F]_n1) (b : I -> 'M[F]_(n1, n2)) (c : I -> 'M[F]_(n2, n1)) (d : I -> 'M[F]_n2) :
  \sum_(i <- r | P i) block_mx (a i) (b i) (c i) (d i) =
  block_mx (\sum_(i <- r | P i) a i) (\sum_(i <- r | P i) b i)
           (\sum_(i <- r | P i) c i) (\sum_(i <- r | P i) d i).
Proof.
elim: r => [|i r IH]; first by rewrite !big_nil block_mx0.
by rewrite !big_cons; case: (P i); rewrite // IH add_block_mx.
Qed.

Lemma exp_coeff_block_tri k :
  exp_coeff M k = block_mx (exp_coeff A k) ((k`!%:R)^-1 *: G k) 0 (exp_coeff D k).
Proof. by rewrite /exp_coeff pow_block_gen scale_block_mx scaler0. Qed.

Lemma exp_upto_block N (t : F) :
  exp_upto N (t *: M) =
  block_mx (exp_upto N (t *: A))
           (\sum_(k < N) ((k`!%:R)^-1 * t ^+ k) *: G k)
           0
           (exp_upto N (t *: D)).
Proof.
rewrite !exp_upto_scale.
transitivity (\sum_(k < N) block_mx (t ^+ k *: exp_coeff A k) (((k`!%:R)^-1 * t ^+ k) *: G k)
                                     0 (t ^+ k *: exp_coeff D k)).
  by apply: eq_bigr => k _; rewrite exp_coeff_block_tri scale_block_mx scaler0 (scalerA _ _ (G k)) mulrC.
by rewrite sum_block_mx big1_eq.
Qed.

End BlockTriangular.

(** * Composition over sub-steps, for any exponential obeying the laws of
      the exact one (hypotheses explicit: [vl_exp_laws]) *)
Section Composition.
Variable F : fieldType.
Variable n : nat.
Variable E : F -> 'M[F]_(n + n).

Definition vl_Phi (t : F) : 'M[F]_n := ulsubmx (E t).
Definition vl_Qd (t : F) : 'M[F]_n := ursubmx (E t) *m (ulsubmx (E t))^T.

Hypothesis laws : vl_exp_laws E.

Local Notation E11 t := (ulsubmx (E t)).
Local Notation E12 t := (ursubmx (E t)).
Local Notation E22 t := (drsubmx (E t)).

Lemma E_semigroup s t : E (s + t) = E s *m E t.
Proof. by case: laws. Qed.

Lemma E_dl0 t : dlsubmx (E t) = 0.
Proof. by case: laws. Qed.

Lemma E22_E11T t : E22 t *m (E11 t)^T = 1%:M.
Proof. by case: laws. Qed.

Lemma E_block t : E t = block_mx (E11 t) (E12 t) 0 (E22 t).
Proof. by rewrite -[LHS]submxK E_dl0. Qed.

Lemma E_block_add s t :
  E (s + t) = block_mx (E11 s *m E11 t) (E11 s *m E12 t + E12 s *m E22 t)
                       0 (E22 s *m E22 t).
Proof.
rewrite E_semigroup [in LHS](E_block s) [in LHS](E_block t) mulmx_block.
by rewrite !mulmx0 !mul0mx !addr0 !add0r.
Qed.

Lemma vl_Phi_add s t : vl_Phi (s + t) = vl_Phi s *m vl_Phi t.
Proof. by rewrite /vl_Phi E_block_add block_mxKul. Qed.

Lemma E12_add s t : E12 (s + t) = E11 s *m E12 t + E12 s *m E22 t.
Proof. by rewrite E_block_add block_mxKur. Qed.

(** the noise accumulates through the later transition *)
Lemma vl_Qd_add s t :
  vl_Qd (s + t) = vl_Phi s *m vl_Qd t *m (vl_Phi s)^T + vl_Qd s.
Proof.
rewrite /vl_Qd E12_add -/(vl_Phi (s + t)) vl_Phi_add /vl_Phi trmx_mul.
rewrite mulmxDl !mulmxA; congr (_ + _).
by rewrite -(mulmxA (E12 s)) E22_E11T mulmx1.
Qed.

(** one step of s+t = step t followed by step s *)
Lemma propagate_add s t (P : 'M[F]_n) :
  propagate (vl_Phi (s + t)) (vl_Qd (s + t)) P =
  propagate (vl_Phi s) (vl_Qd s) (propagate (vl_Phi t) (vl_Qd t) P).
Proof.
rewrite /propagate vl_Qd_add vl_Phi_add trmx_mul addrA; congr (_ + _).
by rewrite mulmxDr mulmxDl !mulmxA.
Qed.

(** the transition matrix is invertible, with explicit inverse E22^T; hence Phi(0) = 1,
    Phi(-t) = Phi(t)^-1 and Qd(0) = 0 *)
Lemma E11_E22T t : E11 t *m (E22 t)^T = 1%:M.
Proof. by rewrite -[LHS]trmxK trmx_mul trmxK E22_E11T trmx1. Qed.

Lemma vl_Phi_unit t : vl_Phi t \in unitmx.
Proof. by have [] := mulmx1_unit (E11_E22T t). Qed.

Lemma vl_Phi_inv t : invmx (vl_Phi t) = (E22 t)^T.
Proof. exact/invmx_uniq/E11_E22T. Qed.

Lemma vl_Phi_0 : vl_Phi 0 = 1%:M.
Proof. by rewrite -[LHS](mulKmx (vl_Phi_unit 0)) -vl_Phi_add addr0 mulVmx ?vl_Phi_unit. Qed.

Lemma vl_Phi_opp t : vl_Phi (- t) = invmx (vl_Phi t).
Proof. by apply/esym/invmx_uniq; rewrite -vl_Phi_add subrr vl_Phi_0. Qed.

Lemma vl_Qd_0 : vl_Qd 0 = 0.
Proof.
have := vl_Qd_add 0 0; rewrite addr0 vl_Phi_0 mul1mx trmx1 mulmx1.
by move/(congr1 (fun X => X - vl_Qd 0)); rewrite subrr addrK.
Qed.

(** covariance propagation over a list of sub-steps, first element first *)
Definition propagate_steps (P : 'M[F]_n) (ts : seq F) : 'M[F]_n :=
  foldl (fun P t => propagate (vl_Phi t) (vl_Qd t) P) P ts.

(** product of the transitions of the sub-steps, later steps on the left *)
Definition transition_steps (ts : seq F) : 'M[F]_n :=
  foldl (fun M t => vl_Phi t *m M) 1%:M ts.

Lemma propagate_partition (P : 'M[F]_n) (t0 : F) (ts : seq F) :
  propagate_steps P (t0 :: ts) =
  propagate (vl_Phi (\sum_(t <- t0 :: ts) t)) (vl_Qd (\sum_(t <- t0 :: ts) t)) P.
Proof.
rewrite /propagate_steps.
elim: ts t0 P => [|t1 ts IH] t0 P; first by rewrite big_cons big_nil addr0.
by rewrite big_cons addrC propagate_add -IH.
Qed.

Lemma transition_partition (t0 : F) (ts : seq F) :
  transition_steps (t0 :: ts) = vl_Phi (\sum_(t <- t0 :: ts) t).
Proof.
rewrite /transition_steps /= mulmx1.
elim: ts t0 => [|t1 ts IH] t0; first by rewrite big_cons big_nil addr0.
by rewrite /= -vl_Phi_add IH !big_cons addrA [t1 + t0]addrC.
Qed.

Lemma propagate_partition_indep (P : 'M[F]_n) (t0 u0 : F) (ts us : seq F) :
  \sum_(t <- t0 :: ts) t = \sum_(u <- u0 :: us) u ->
  propagate_steps P (t0 :: ts) = propagate_steps P (u0 :: us).
Proof. by move=> eq_sum; rewrite !propagate_partition eq_sum. Qed.

End Composition.

(** * Characterising lemmas: the only place where the generated
      definitions are unfolded. *)
Section Characterise.
Variable F : fieldType.
Variable n : nat.
Variable expm : 'M[F]_(n + n) -> 'M[F]_(n + n).
Variables (A Q : 'M[F]_n) (dt : F).

Local Notation E := (fun t : F => expm (t *: vl_mx A Q)).

Lemma cpm_ret0_eq : cpm_ret0 expm A Q dt = vl_Phi E dt.
Proof. by []. Qed.

Lemma cpm_ret1_eq : cpm_ret1 expm A Q dt = vl_Qd E dt.
Proof. by []. Qed.

End Characterise.

(** * The generated code with [expm := exp_upto N] *)
Section Series.
Variable F : fieldType.
Variable n : nat.
Variables (A Q : 'M[F]_n).

Local Notation G := (ur_pow A Q (- A^T)).

Theorem pow_block k :
  mx_pow (cpm_H0 A Q) k = block_mx (mx_pow A k) (G k) 0 (mx_pow (- A^T) k)
  /\ G 0 = 0 /\ G k.+1 = A *m G k + Q *m mx_pow (- A^T) k.
Proof. by rewrite /cpm_H0 /vl_mx pow_block_gen. Qed.

(** upper-right block of the truncated series *)
Definition E12_upto (N : nat) (t : F) : 'M[F]_n :=
  \sum_(k < N) ((k`!%:R)^-1 * t ^+ k) *: G k.

Theorem cpm_H1_series N (dt : F) :
  cpm_H1 (@exp_upto F (n + n) N) A Q dt =
  block_mx (exp_upto N (dt *: A)) (E12_upto N dt) 0 (exp_upto N (dt *: - A^T)).
Proof. by rewrite /cpm_H1 /cpm_H0 /vl_mx exp_upto_block. Qed.

(** Phi is the same functional calculus applied to A alone *)
Theorem cpm_ret0_series N (dt : F) :
  cpm_ret0 (@exp_upto F (n + n) N) A Q dt = exp_upto N (dt *: A).
Proof. by rewrite cpm_ret0_eq /vl_Phi /vl_mx exp_upto_block block_mxKul. Qed.

Theorem cpm_ret1_series N (dt : F) :
  cpm_ret1 (@exp_upto F (n + n) N) A Q dt =
  E12_upto N dt *m (exp_upto N (dt *: A))^T.
Proof. by rewrite cpm_ret1_eq /vl_Qd /vl_mx exp_upto_block block_mxKul block_mxKur. Qed.

Lemma exp_upto_0 p (B : 'M[F]_p) N : exp_upto N.+1 (0 *: B) = 1%:M.
Proof.
rewrite exp_upto_scale big_ord_recl expr0 scale1r exp_coeff0 big1 ?addr0 //.
by move=> i _; rewrite lift0 exprS mul0r scale0r.
Qed.

Lemma E12_upto_0 N : E12_upto N 0 = 0.
Proof.
rewrite /E12_upto big1 // => -[[|k] lt_k] _ /=; first by rewrite scaler0.
by rewrite exprS mul0r mulr0 scale0r.
Qed.

Theorem zero_step N : (0 < N)%N ->
  cpm_ret0 (@exp_upto F (n + n) N) A Q 0 = 1%:M /\
  cpm_ret1 (@exp_upto F (n + n) N) A Q 0 = 0.
Proof.
case: N => // N _; rewrite cpm_ret0_series cpm_ret1_series exp_upto_0.
by rewrite E12_upto_0 mul0mx.
Qed.

End Series.

(** * Composition over sub-steps, for the generated code *)
Section CompositionGen.
Variable F : fieldType.
Variable n : nat.
Variable expm : 'M[F]_(n + n) -> 'M[F]_(n + n).
Variables (A Q : 'M[F]_n).

Local Notation E := (fun t : F => expm (t *: vl_mx A Q)).
Local Notation Phi := (cpm_ret0 expm A Q).
Local Notation Qd := (cpm_ret1 expm A Q).

(** covariance propagation through the generated code over a list of sub-steps *)
Definition cpm_propagate_steps (P : 'M[F]_n) (ts : seq F) : 'M[F]_n :=
  foldl (fun P t => propagate (Phi t) (Qd t) P) P ts.

Lemma cpm_propagate_stepsE P ts :
  cpm_propagate_steps P ts = propagate_steps E P ts.
Proof.
rewrite /cpm_propagate_steps /propagate_steps.
by elim: ts P => //= t ts IH P; rewrite IH cpm_ret0_eq cpm_ret1_eq.
Qed.

Hypothesis laws : vl_exp_laws E.

Theorem composition :
  [/\ forall s t, Phi (s + t) = Phi s *m Phi t,
      forall s t, Qd (s + t) = Phi s *m Qd t *m (Phi s)^T + Qd s,
      forall s t P, propagate (Phi (s + t)) (Qd (s + t)) P
                    = propagate (Phi s) (Qd s) (propagate (Phi t) (Qd t) P)
    & forall P t0 ts,
        cpm_propagate_steps P (t0 :: ts)
        = propagate (Phi (\sum_(t <- t0 :: ts) t)) (Qd (\sum_(t <- t0 :: ts) t)) P].
Proof.
split=> [s t|s t|s t P|P t0 ts]; rewrite ?cpm_propagate_stepsE !cpm_ret0_eq ?cpm_ret1_eq.
- exact: vl_Phi_add.
- exact: vl_Qd_add.
- exact: propagate_add.
- exact: propagate_partition.
Qed.

Corollary partition_independent P t0 ts u0 us :
  \sum_(t <- t0 :: ts) t = \sum_(u <- u0 :: us) u ->
  cpm_propagate_steps P (t0 :: ts) = cpm_propagate_steps P (u0 :: us).
Proof. by move=> eq_sum; rewrite !cpm_propagate_stepsE; apply: propagate_partition_indep. Qed.

Theorem transition_invertible (dt : F) :
  [/\ Phi dt \in unitmx,
      invmx (Phi dt) = (drsubmx (expm (dt *: vl_mx A Q)))^T,
      Phi 0 = 1%:M
    & Phi (- dt) = invmx (Phi dt)].
Proof.
rewrite !cpm_ret0_eq.
by split; [exact: vl_Phi_unit | exact: vl_Phi_inv | exact: vl_Phi_0 | exact: vl_Phi_opp].
Qed.

Lemma cpm_ret1_0 : Qd 0 = 0.
Proof. by rewrite cpm_ret1_eq (vl_Qd_0 laws). Qed.

End CompositionGen.

(** what the laws give toward positive semidefiniteness of the noise matrix: it is inherited by
    composed steps *)
Section NoisePsd.
Variable F : realFieldType.
Variable n : nat.
Variable expm : 'M[F]_(n + n) -> 'M[F]_(n + n).
Variables (A Q : 'M[F]_n).
Hypothesis laws : vl_exp_laws (fun t : F => expm (t *: vl_mx A Q)).

Local Notation Phi := (cpm_ret0 expm A Q).
Local Notation Qd := (cpm_ret1 expm A Q).

Theorem noise_psd_add :
  (forall s t, Qd (s + t) - Phi s *m Qd t *m (Phi s)^T = Qd s) /\
  (forall s t, psd (Qd s) -> psd (Qd t) -> psd (Qd (s + t))).
Proof.
have [_ hQ _ _] := composition laws; split=> s t.
- by rewrite hQ addrC addKr.
- by move=> ps pt; rewrite hQ; apply: psd_step.
Qed.

Theorem noise_psd_multiples (h : F) (k : nat) : psd (Qd h) -> psd (Qd (k%:R * h)).
Proof.
move=> ph; elim: k => [|k IH]; first by rewrite mul0r (cpm_ret1_0 laws); apply: psd0.
by rewrite mulrS mulrDl mul1r; have [_] := noise_psd_add; apply.
Qed.

End NoisePsd.

(** * Formal power series with matrix coefficients: the Cauchy product *)
Section CauchyAlgebra.
Variable F : fieldType.
Variable n : nat.
Implicit Types (a b u v : nat -> 'M[F]_n) (C : 'M[F]_n).

Lemma eq_cauchy a a' b b' : a =1 a' -> b =1 b' -> cauchy a b =1 cauchy a' b'.
Proof. by move=> ea eb d; apply: eq_bigr => i _; rewrite ea eb. Qed.

Lemma cauchy0 a b : cauchy a b 0 = a 0%N *m b 0%N.
Proof. by rewrite /cauchy big_ord_recl big_ord0 addr0 subnn. Qed.

Lemma cauchy_mulmxl C a b d : cauchy (fun k => C *m a k) b d = C *m cauchy a b d.
Proof. by rewrite /cauchy mulmx_sumr; apply: eq_bigr => i _; rewrite mulmxA. Qed.

Lemma cauchy_mulmxr a b C d : cauchy a (fun k => b k *m C) d = cauchy a b d *m C.
Proof. by rewrite /cauchy mulmx_suml; apply: eq_bigr => i _; rewrite mulmxA. Qed.

Lemma cauchy_mid a C b d :
  cauchy (fun k => a k *m C) b d = cauchy a (fun k => C *m b k) d.
Proof. by apply: eq_bigr => i _; rewrite mulmxA. Qed.

Lemma cauchy_addl a a' b d :
  cauchy (fun k => a k + a' k) b d = cauchy a b d + cauchy a' b d.
Proof. by rewrite /cauchy -big_split; apply: eq_bigr => i _; rewrite mulmxDl. Qed.

Lemma cauchy_oppl a b d : cauchy (fun k => - a k) b d = - cauchy a b d.
Proof. by rewrite /cauchy -sumrN; apply: eq_bigr => i _; rewrite mulNmx. Qed.

End CauchyAlgebra.

(** * Formal derivative, Leibniz rule, uniqueness of the solution of a first-order
      recurrence.  Characteristic 0 is needed ([numFieldType]): k+1 must be invertible. *)
Section FormalSeries.
Variable F : numFieldType.
Variable n : nat.
Implicit Types (a b u v : nat -> 'M[F]_n) (A B C : 'M[F]_n).

(** formal derivative of a coefficient sequence *)
Definition sderiv a (k : nat) : 'M[F]_n := k.+1%:R *: a k.+1.

Lemma eq_sderiv a a' : a =1 a' -> sderiv a =1 sderiv a'.
Proof. by move=> e k; rewrite /sderiv e. Qed.

(** Leibniz rule for the product of formal series *)
Lemma cauchy_sderiv a b d :
  sderiv (cauchy a b) d = cauchy (sderiv a) b d + cauchy a (sderiv b) d.
Proof.
rewrite /sderiv /cauchy scaler_sumr.
have split_i (i : 'I_d.+2) :
    d.+1%:R *: (a i *m b (d.+1 - i)%N) =
    i%:R *: (a i *m b (d.+1 - i)%N) + (d.+1 - i)%:R *: (a i *m b (d.+1 - i)%N).
  by rewrite -scalerDl -natrD subnKC // -ltnS.
rewrite (eq_bigr _ (fun i _ => split_i i)) big_split /=; congr (_ + _).
- rewrite big_ord_recl /= scale0r add0r; apply: eq_bigr => i _.
  by rewrite /bump /= add1n subSS -scalemxAl.
- rewrite big_ord_recr /= subnn scale0r addr0; apply: eq_bigr => i _.
  by rewrite -scalemxAr subSn // -ltnS.
Qed.

(** the product of solutions of  a' = A a  and  b' = b B  solves  X' = A X + X B *)
Lemma sderiv_cauchy_lin a b A B :
  (forall k, sderiv a k = A *m a k) -> (forall k, sderiv b k = b k *m B) ->
  forall d, sderiv (cauchy a b) d = A *m cauchy a b d + cauchy a b d *m B.
Proof.
move=> ha hb d; rewrite cauchy_sderiv (eq_cauchy ha (fun=> erefl)) cauchy_mulmxl.
by rewrite (eq_cauchy (fun=> erefl) hb) cauchy_mulmxr.
Qed.

Lemma series_ode_unique (Phi : nat -> 'M[F]_n -> 'M[F]_n) u v :
  (forall k, sderiv u k = Phi k (u k)) -> (forall k, sderiv v k = Phi k (v k)) ->
  u 0%N = v 0%N -> forall k, u k = v k.
Proof.
move=> hu hv h0; elim=> [//|k IH].
have nz : k.+1%:R != 0 :> F by rewrite pnatr_eq0.
by apply: (scalerI nz); rewrite -/(sderiv u k) -/(sderiv v k) hu hv IH.
Qed.

Lemma fact_ratio k : k.+1%:R * (k.+1`!%:R)^-1 = (k`!%:R)^-1 :> F.
Proof.
have nz : k.+1%:R != 0 :> F by rewrite pnatr_eq0.
by rewrite factS natrM invfM mulrA mulfV // mul1r.
Qed.

Lemma sderiv_exp_coeff A k : sderiv (exp_coeff A) k = A *m exp_coeff A k.
Proof. by rewrite /sderiv /exp_coeff scalerA fact_ratio mx_powS -scalemxAr. Qed.

Lemma sderiv_exp_coeff_r A k : sderiv (exp_coeff A) k = exp_coeff A k *m A.
Proof. by rewrite /sderiv /exp_coeff scalerA fact_ratio mx_powSr -scalemxAl. Qed.

(** coefficients of the constant series 1 *)
Definition one_coeff (k : nat) : 'M[F]_n := if k is 0 then 1%:M else 0.

Lemma sderiv_one_coeff k : sderiv one_coeff k = 0.
Proof. by rewrite /sderiv /= scaler0. Qed.

(** exp(-B s) exp(B s) = 1 as formal series *)
Lemma exp_coeff_inv B d : cauchy (exp_coeff (- B)) (exp_coeff B) d = one_coeff d.
Proof.
(* both sides have derivative 0 and the same constant term *)
apply: (@series_ode_unique (fun _ _ => 0)) d => [k|k|].
- rewrite cauchy_sderiv (eq_cauchy (b:=exp_coeff B) (sderiv_exp_coeff_r (- B)) (fun=> erefl)).
  rewrite (eq_cauchy (a:=exp_coeff (- B)) (fun=> erefl) (sderiv_exp_coeff B)).
  rewrite (eq_cauchy (a':=fun k => - (exp_coeff (- B) k *m B)) (b':=exp_coeff B) _ (fun=> erefl)); last first.
    by move=> j; rewrite mulmxN.
  by rewrite cauchy_oppl cauchy_mid addNr.
- exact: sderiv_one_coeff.
- by rewrite cauchy0 !exp_coeff0 mulmx1.
Qed.

End FormalSeries.

(** * Van Loan's identity: the coefficients of E12(s) E11(s)^T are those
      of the term-by-term integral of exp(A u) Q exp(A^T u).  Both sequences
      solve the Lyapunov recurrence  X' = A X + X A^T + Q,  X(0) = 0. *)
Section VanLoan.
Variable F : numFieldType.
Variable n : nat.
Variables (A Q : 'M[F]_n).

Local Notation a := (vl_E12 A Q).
Local Notation bT := (fun k => (vl_E11 A k)^T).
Local Notation qd := (vl_Qd_coeff A Q).
Local Notation w := (integral_coeff A Q).
Local Notation W := (integrand_coeff A Q).

(** right-hand side of the Lyapunov recurrence  X' = A X + X A^T + Q *)
Definition lyap_rhs (k : nat) (X : 'M[F]_n) : 'M[F]_n :=
  A *m X + X *m A^T + (if k is 0 then Q else 0).

Lemma vl_E11_tr k : (vl_E11 A k)^T = exp_coeff A^T k.
Proof. by rewrite /vl_E11 /exp_coeff linearZ /= mx_pow_tr. Qed.

Lemma sderiv_vl_E12 k : sderiv a k = A *m a k + Q *m vl_E22 A k.
Proof.
rewrite /sderiv /vl_E12 /vl_E22 /exp_coeff scalerA fact_ratio ur_powS scalerDr.
by rewrite -!scalemxAr.
Qed.

Lemma mulmx_one_coeff k : Q *m one_coeff F n k = if k is 0 then Q else 0.
Proof. by case: k => [|k] /=; rewrite ?mulmx1 ?mulmx0. Qed.

Lemma vl_Qd_ode k : sderiv qd k = lyap_rhs k (qd k).
Proof.
rewrite /vl_Qd_coeff cauchy_sderiv /lyap_rhs.
rewrite (eq_cauchy (b:=bT) sderiv_vl_E12 vl_E11_tr).
rewrite cauchy_addl !cauchy_mulmxl.
rewrite [cauchy (vl_E22 A) _ k]exp_coeff_inv mulmx_one_coeff.
have -> : cauchy a (sderiv bT) k = cauchy a bT k *m A^T.
  rewrite -cauchy_mulmxr; apply: eq_cauchy => // j.
  by rewrite (eq_sderiv vl_E11_tr) sderiv_exp_coeff_r vl_E11_tr.
rewrite (eq_cauchy (a:=a) (fun=> erefl) vl_E11_tr).
by rewrite addrAC.
Qed.


(** the integrand exp(A s) Q exp(A^T s) is a product of formal series *)
Lemma integrand_cauchy d :
  W d = cauchy (exp_coeff A) (fun k => Q *m exp_coeff A^T k) d.
Proof.
apply: eq_bigr => i _.
by rewrite /exp_coeff -scalemxAr -scalemxAl -scalemxAr scalerA mulmxA natrM invfM.
Qed.

Lemma sderiv_integrand d : sderiv W d = A *m W d + W d *m A^T.
Proof.
rewrite (eq_sderiv integrand_cauchy) !integrand_cauchy.
apply: sderiv_cauchy_lin => k; first exact: sderiv_exp_coeff.
by rewrite /sderiv scalemxAr -/(sderiv _ k) sderiv_exp_coeff_r mulmxA.
Qed.

Lemma sderiv_integral k : sderiv w k = W k.
Proof.
have nz : k.+1%:R != 0 :> F by rewrite pnatr_eq0.
by rewrite /sderiv /= scalerA mulfV // scale1r.
Qed.

Lemma integral_ode k : sderiv w k = lyap_rhs k (w k).
Proof.
rewrite sderiv_integral /lyap_rhs; case: k => [|k].
  by rewrite /= mulmx0 mul0mx !add0r integrand_cauchy cauchy0 !exp_coeff0 mulmx1 mul1mx.
have nz : k.+1%:R != 0 :> F by rewrite pnatr_eq0.
rewrite addr0 /= -scalemxAr -scalemxAl -scalerDr -sderiv_integrand.
by rewrite /sderiv scalerA mulVf // scale1r.
Qed.

Theorem van_loan_coeff d : qd d = w d.
Proof.
apply: (series_ode_unique (Phi:=lyap_rhs)) d.
- exact: vl_Qd_ode.
- exact: integral_ode.
- by rewrite /vl_Qd_coeff cauchy0 /vl_E12 ur_pow0 scaler0 mul0mx.
Qed.

Theorem integral_coeff_sym d : Q^T = Q -> (w d)^T = w d.
Proof.
move=> sQ; apply: (series_ode_unique (Phi:=lyap_rhs) (u:=fun k => (w k)^T)) d.
- move=> k; rewrite /sderiv -linearZ /= -/(sderiv w k) integral_ode /lyap_rhs.
  rewrite !linearD /= !trmx_mul trmxK [X in X + _]addrC; congr (_ + _).
  by case: k => [|k]; rewrite ?sQ ?trmx0.
- exact: integral_ode.
- by rewrite /= trmx0.
Qed.

Corollary vl_Qd_coeff_sym d : Q^T = Q -> (qd d)^T = qd d.
Proof. by move=> sQ; rewrite van_loan_coeff integral_coeff_sym. Qed.

(** the series of Qd starts  Qd(s) = s Q + O(s^2) *)
Theorem noise_first_order :
  vl_Qd_coeff A Q 0 = 0 /\ vl_Qd_coeff A Q 1 = Q.
Proof.
rewrite !van_loan_coeff /=; split=> //.
rewrite /integrand_coeff big_ord_recl big_ord0 addr0 subnn fact0 muln1 !mx_pow0 mulmx1 mul1mx.
by rewrite !invr1 !scale1r.
Qed.

End VanLoan.

(** * The semigroup law and the other laws of the exponential, for the
      formal series *)
Section Semigroup.
Variable F : numFieldType.
Variable n : nat.
Variable A : 'M[F]_n.

Lemma exp_coeff_comm (c : F) k : A *m exp_coeff (c *: A) k = exp_coeff (c *: A) k *m A.
Proof.
by rewrite /exp_coeff mx_pow_scale -!scalemxAr -!scalemxAl -mx_powS mx_powSr.
Qed.

(** exp((s+t)A) = exp(sA) exp(tA) as formal series *)
Theorem exp_coeff_add (s t : F) d :
  exp_coeff ((s + t) *: A) d = cauchy (exp_coeff (s *: A)) (exp_coeff (t *: A)) d.
Proof.
apply: (series_ode_unique (Phi := fun _ X => (s *: A) *m X + X *m (t *: A))) d.
- move=> k; rewrite sderiv_exp_coeff [X in X *m _]scalerDl mulmxDl; congr (_ + _).
  by rewrite -scalemxAl exp_coeff_comm scalemxAr.
- by apply: sderiv_cauchy_lin => k; [exact: sderiv_exp_coeff | exact: sderiv_exp_coeff_r].
- by rewrite cauchy0 !exp_coeff0 mulmx1.
Qed.

End Semigroup.

(** the three laws of [vl_exp_laws], coefficient by coefficient, for the formal
    series  E(t) = sum_k t^k exp_coeff (vl_mx A Q) k *)
Section FormalLaws.
Variable F : numFieldType.
Variable n : nat.
Variables (A Q : 'M[F]_n).

Lemma exp_coeff_block (t : F) k :
  exp_coeff (t *: vl_mx A Q) k =
  block_mx (t ^+ k *: vl_E11 A k) (t ^+ k *: vl_E12 A Q k) 0 (t ^+ k *: vl_E22 A k).
Proof. by rewrite exp_coeff_scale /vl_mx exp_coeff_block_tri scale_block_mx scaler0. Qed.

Theorem formal_exp_laws :
  [/\ forall (s t : F) d,
        exp_coeff ((s + t) *: vl_mx A Q) d =
        cauchy (exp_coeff (s *: vl_mx A Q)) (exp_coeff (t *: vl_mx A Q)) d,
      forall (t : F) k, dlsubmx (exp_coeff (t *: vl_mx A Q) k) = 0
    & forall d, cauchy (vl_E22 A) (fun k => (vl_E11 A k)^T) d = one_coeff F n d].
Proof.
split; first exact: exp_coeff_add.
- by move=> t k; rewrite exp_coeff_block block_mxKdl.
- by move=> d; rewrite (eq_cauchy (fun=> erefl) (vl_E11_tr A)) exp_coeff_inv.
Qed.

End FormalLaws.

(** [transition_invertible] for the formal series: exp(A s) exp(-A s) = 1 on both sides,
    i.e. E11(s) E22(s)^T = E22(s)^T E11(s) = 1 *)
Section TransitionInvertibleSeries.
Variable F : numFieldType.
Variable n : nat.
Variable A : 'M[F]_n.

Lemma vl_E22_tr k : (vl_E22 A k)^T = exp_coeff (- A) k.
Proof. by rewrite /vl_E22 /exp_coeff linearZ /= -mx_pow_tr linearN /= trmxK. Qed.

Theorem formal_transition_invertible d :
  cauchy (vl_E11 A) (fun k => (vl_E22 A k)^T) d = one_coeff F n d /\
  cauchy (fun k => (vl_E22 A k)^T) (vl_E11 A) d = one_coeff F n d.
Proof.
split.
- rewrite (eq_cauchy (a':=exp_coeff (- - A)) (b':=exp_coeff (- A)) _ vl_E22_tr) ?exp_coeff_inv //.
  by move=> k; rewrite opprK.
- by rewrite (eq_cauchy (b':=exp_coeff A) vl_E22_tr (fun=> erefl)) exp_coeff_inv.
Qed.

End TransitionInvertibleSeries.

(** * An exact instance: zero dynamics (random-walk states), where the series
      terminates: expm := exp_upto 2 is the exact exponential. *)
Section ZeroDynamics.
Variable F : fieldType.
Variable n : nat.
Variable Q : 'M[F]_n.

Lemma exp_upto2_vl0 (t : F) :
  exp_upto 2 (t *: vl_mx 0 Q) = block_mx 1%:M (t *: Q) 0 1%:M.
Proof.
rewrite exp_upto_scale 2!big_ord_recl big_ord0 addr0 expr0 scale1r exp_coeff0 expr1.
rewrite /exp_coeff /= -[bump 0 0]/1%N -[1`!]/1%N invr1 scale1r mx_pow1 /vl_mx scale_block_mx scalar_mx_block add_block_mx.
by rewrite trmx0 oppr0 !scaler0 !addr0 add0r.
Qed.

Theorem zero_dynamics_laws : vl_exp_laws (fun t : F => exp_upto 2 (t *: vl_mx 0 Q)).
Proof.
split=> [s t|t|t]; rewrite !exp_upto2_vl0.
- rewrite mulmx_block !mulmx1 !mul1mx !mulmx0 !mul0mx !addr0 add0r.
  by rewrite scalerDl addrC.
- by rewrite block_mxKdl.
- by rewrite block_mxKdr block_mxKul trmx1 mulmx1.
Qed.

Theorem zero_dynamics (dt : F) :
  cpm_ret0 (@exp_upto F (n + n) 2) 0 Q dt = 1%:M /\
  cpm_ret1 (@exp_upto F (n + n) 2) 0 Q dt = dt *: Q.
Proof.
by rewrite cpm_ret0_eq cpm_ret1_eq /vl_Phi /vl_Qd exp_upto2_vl0 block_mxKul block_mxKur trmx1 mulmx1.
Qed.

End ZeroDynamics.

(** * Tie between the truncated series the generated code computes with
      [expm := exp_upto N] and the coefficient sequences above *)
Section TruncatedProduct.
Variable F : fieldType.
Variable n : nat.
Implicit Types (a b : nat -> 'M[F]_n) (h : nat -> 'M[F]_n).

Lemma shift_sum N i h :
  \sum_(d < N | (i <= d)%N) h (d - i)%N = \sum_(l < N | (i + l < N)%N) h l.
Proof.
transitivity (\sum_(0 <= l < N - i) h l).
  rewrite (eq_bigl (fun d : 'I_N => xpredT d && (i <= d)%N)) //.
  rewrite -(big_geq_mkord i N xpredT (fun d => h (d - i)%N)).
  rewrite -{1}[i]add0n big_addn; apply: eq_bigr => l _.
  by rewrite addnK.
rewrite big_mkord (big_ord_widen _ h (leq_subr i N)).
by apply: eq_bigl => l; rewrite ltn_subRL.
Qed.

(** product of two truncated series = truncated Cauchy product + terms of degree >= N *)
Lemma trunc_prod N a b (t : F) :
  (\sum_(k < N) t ^+ k *: a k) *m (\sum_(l < N) t ^+ l *: b l) =
  \sum_(d < N) t ^+ d *: cauchy a b d +
  \sum_(k < N) \sum_(l < N | (N <= k + l)%N) t ^+ (k + l) *: (a k *m b l).
Proof.
pose g (k l : nat) := t ^+ (k + l) *: (a k *m b l).
have -> : (\sum_(k < N) t ^+ k *: a k) *m (\sum_(l < N) t ^+ l *: b l) =
          \sum_(k < N) \sum_(l < N) g k l.
  rewrite mulmx_suml; apply: eq_bigr => k _; rewrite mulmx_sumr; apply: eq_bigr => l _.
  by rewrite /g -scalemxAl -scalemxAr scalerA exprD.
have -> : \sum_(d < N) t ^+ d *: cauchy a b d = \sum_(k < N) \sum_(l < N | (k + l < N)%N) g k l.
  transitivity (\sum_(d < N) \sum_(i < N | (i < d.+1)%N) g i (d - i)%N).
    apply: eq_bigr => d _; rewrite /cauchy scaler_sumr.
    rewrite (big_ord_widen N (fun i => t ^+ d *: (a i *m b (d - i)%N))) //.
    by apply: eq_bigr => i le_id; rewrite /g subnKC.
  rewrite (exchange_big_dep xpredT) //=; apply: eq_bigr => k _.
  by rewrite -shift_sum.
rewrite -big_split /=; apply: eq_bigr => k _.
rewrite (bigID (fun l : 'I_N => (k + l < N)%N)) /=; congr (_ + _).
by apply: eq_bigl => l; rewrite -leqNgt.
Qed.

End TruncatedProduct.

(** the generated code with the N-term series: every coefficient of dt^d, d < N,
    of the returned noise matrix is the coefficient of the integral *)
Section GeneratedCoefficients.
Variable F : numFieldType.
Variable n : nat.
Variables (A Q : 'M[F]_n).

Lemma E12_upto_scale N (t : F) :
  E12_upto A Q N t = \sum_(k < N) t ^+ k *: vl_E12 A Q k.
Proof. by apply: eq_bigr => k _; rewrite /vl_E12 scalerA mulrC. Qed.

Theorem cpm_ret0_coeff N (dt : F) :
  cpm_ret0 (@exp_upto F (n + n) N) A Q dt = \sum_(k < N) dt ^+ k *: exp_coeff A k.
Proof. by rewrite cpm_ret0_series exp_upto_scale. Qed.

Theorem cpm_ret1_coeff N (dt : F) :
  cpm_ret1 (@exp_upto F (n + n) N) A Q dt =
  \sum_(d < N) dt ^+ d *: integral_coeff A Q d +
  \sum_(k < N) \sum_(l < N | (N <= k + l)%N)
     dt ^+ (k + l) *: (vl_E12 A Q k *m (vl_E11 A l)^T).
Proof.
rewrite cpm_ret1_series E12_upto_scale exp_upto_scale.
have -> : (\sum_(k < N) dt ^+ k *: exp_coeff A k)^T =
          \sum_(l < N) dt ^+ l *: (vl_E11 A l)^T.
  by rewrite raddf_sum; apply: eq_bigr => l _; rewrite /= linearZ.
rewrite (trunc_prod N (vl_E12 A Q) (fun l => (vl_E11 A l)^T)); congr (_ + _).
by apply: eq_bigr => d _; rewrite -van_loan_coeff.
Qed.

End GeneratedCoefficients.
