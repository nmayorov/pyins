(** C13 — no-altitude mode keeps altitude frozen and vertical velocity zero.

    Part A  facts about the GENERATED real-number formulas (Gen/NumbaIntegrate.v: one kernel
            step; Gen/C13Gen.v: the 2D parts of error_model.py);
    Part B  a whole-trajectory invariant of the Integrator model (Model/Integrator.v) in 2D mode,
            for arbitrary row types with an altitude projection and a "vertical velocity is zero"
            predicate, by induction over the call history.  The generic invariant of
            IntegratorProofs.v (Section Inv2D) speaks of buffer rows and stops at the latest supply;
            this one follows the altitude column of the public rows across supplies, so it needs
            the projections on both row kinds and how [to_pub] / [zero_vd] carry them;
    Part C  the instance: rows are the 15 reals of the buffers / the 9 reals of a pva, the kernel
            step is the generated one; attitude conversions stay arbitrary functions. *)
From Coq Require Import List Arith Lia Reals.
From PV Require Import Base.ListFacts Model.Integrator Proofs.IntegratorProofs Gen.NumbaIntegrate Gen.C13Gen.
Import ListNotations.
Local Close Scope R_scope.      (* the Gen files open it globally *)

(** * Part A: the generated formulas *)

Section GeneratedFormulas.
  Open Scope R_scope.

  (** velocity_n[j + 1, 2] = 0.0 *)
  Lemma step2d_VD_zero dt lat lon alt VN VE VD C00 C01 C02 C10 C11 C12 C20 C21 C22 th0 th1 th2 dv0 dv1 dv2 :
    step2d_VD dt lat lon alt VN VE VD C00 C01 C02 C10 C11 C12 C20 C21 C22 th0 th1 th2 dv0 dv1 dv2 = 0.
  Proof. unfold step2d_VD. autounfold with step2d_db. field. Qed.

  (** V3 = 0.5 * (V3 + velocity_n[j + 1, 2]);  lla[j + 1, 2] = lla[j, 2] - V3 * dt *)
  Lemma step2d_alt_formula dt lat lon alt VN VE VD C00 C01 C02 C10 C11 C12 C20 C21 C22 th0 th1 th2 dv0 dv1 dv2 :
    step2d_alt dt lat lon alt VN VE VD C00 C01 C02 C10 C11 C12 C20 C21 C22 th0 th1 th2 dv0 dv1 dv2
    = alt - (1 / 2 * (VD + 0)) * dt.
  (* [field], not [ring]: the source may spell the half as [VD / 2] *)
  Proof. unfold step2d_alt. autounfold with step2d_db. field. Qed.

  Lemma step2d_alt_frozen dt lat lon alt VN VE VD C00 C01 C02 C10 C11 C12 C20 C21 C22 th0 th1 th2 dv0 dv1 dv2 :
    VD = 0 ->
    step2d_alt dt lat lon alt VN VE VD C00 C01 C02 C10 C11 C12 C20 C21 C22 th0 th1 th2 dv0 dv1 dv2 = alt.
  Proof. intros H. rewrite step2d_alt_formula, H. ring. Qed.

  Lemma step2d_row dt lat lon alt VN VE VD C00 C01 C02 C10 C11 C12 C20 C21 C22 th0 th1 th2 dv0 dv1 dv2 :
    step2d_VD dt lat lon alt VN VE VD C00 C01 C02 C10 C11 C12 C20 C21 C22 th0 th1 th2 dv0 dv1 dv2 = 0 /\
    step2d_alt dt lat lon alt VN VE VD C00 C01 C02 C10 C11 C12 C20 C21 C22 th0 th1 th2 dv0 dv1 dv2
      = alt - (1 / 2 * (VD + 0)) * dt /\
    (VD = 0 ->
     step2d_alt dt lat lon alt VN VE VD C00 C01 C02 C10 C11 C12 C20 C21 C22 th0 th1 th2 dv0 dv1 dv2 = alt).
  Proof.
    split; [apply step2d_VD_zero|]. split; [apply step2d_alt_formula|apply step2d_alt_frozen].
  Qed.

  (** the same step traced into buffers whose row j+1 held garbage: same functions *)
  Lemma fresh2d_alt_same dt lat lon alt VN VE VD C00 C01 C02 C10 C11 C12 C20 C21 C22 th0 th1 th2 dv0 dv1 dv2 :
    c13_kstep2d_fresh_alt dt lat lon alt VN VE VD C00 C01 C02 C10 C11 C12 C20 C21 C22 th0 th1 th2 dv0 dv1 dv2 =
    step2d_alt dt lat lon alt VN VE VD C00 C01 C02 C10 C11 C12 C20 C21 C22 th0 th1 th2 dv0 dv1 dv2.
  Proof.
    unfold c13_kstep2d_fresh_alt, step2d_alt. autounfold with step2d_db c13_kstep2d_fresh_db.
    ring.
  Qed.

  Lemma fresh2d_VD_same dt lat lon alt VN VE VD C00 C01 C02 C10 C11 C12 C20 C21 C22 th0 th1 th2 dv0 dv1 dv2 :
    c13_kstep2d_fresh_VD dt lat lon alt VN VE VD C00 C01 C02 C10 C11 C12 C20 C21 C22 th0 th1 th2 dv0 dv1 dv2 =
    step2d_VD dt lat lon alt VN VE VD C00 C01 C02 C10 C11 C12 C20 C21 C22 th0 th1 th2 dv0 dv1 dv2.
  Proof.
    unfold c13_kstep2d_fresh_VD, step2d_VD. autounfold with step2d_db c13_kstep2d_fresh_db.
    ring.
  Qed.

  (** correct_pva in 2D: altitude and vertical velocity are returned unchanged, for every error vector *)
  Lemma correct2d_alt_same lat lon alt VN VE VD roll pitch heading x0 x1 x2 x3 x4 x5 x6 :
    c13_correct2d_alt lat lon alt VN VE VD roll pitch heading x0 x1 x2 x3 x4 x5 x6 = alt.
  Proof. unfold c13_correct2d_alt. autounfold with c13_correct2d_db. field. Qed.

  Lemma correct2d_VD_same lat lon alt VN VE VD roll pitch heading x0 x1 x2 x3 x4 x5 x6 :
    c13_correct2d_VD lat lon alt VN VE VD roll pitch heading x0 x1 x2 x3 x4 x5 x6 = VD.
  Proof. unfold c13_correct2d_VD. autounfold with c13_correct2d_db. field. Qed.

  (** _transform_3d_2d: the DR3 row is zero; the DV3 row is (0,0,0,0,VE,-VN,0) *)
  Definition t3d2d_row_DR3 (VN VE : R) : list R :=
    [c13_t3d2d_t20 VN VE; c13_t3d2d_t21 VN VE; c13_t3d2d_t22 VN VE; c13_t3d2d_t23 VN VE; c13_t3d2d_t24 VN VE;
     c13_t3d2d_t25 VN VE; c13_t3d2d_t26 VN VE].
  Definition t3d2d_row_DV3 (VN VE : R) : list R :=
    [c13_t3d2d_t50 VN VE; c13_t3d2d_t51 VN VE; c13_t3d2d_t52 VN VE; c13_t3d2d_t53 VN VE; c13_t3d2d_t54 VN VE;
     c13_t3d2d_t55 VN VE; c13_t3d2d_t56 VN VE].

  (** transform_to_output in 2D: rows "down" (2) and "VD" (5) *)
  Definition out2d_row_down (lat lon alt VN VE VD roll pitch heading : R) : list R :=
    [c13_out2d_o20 lat lon alt VN VE VD roll pitch heading; c13_out2d_o21 lat lon alt VN VE VD roll pitch heading;
     c13_out2d_o22 lat lon alt VN VE VD roll pitch heading; c13_out2d_o23 lat lon alt VN VE VD roll pitch heading;
     c13_out2d_o24 lat lon alt VN VE VD roll pitch heading; c13_out2d_o25 lat lon alt VN VE VD roll pitch heading;
     c13_out2d_o26 lat lon alt VN VE VD roll pitch heading].
  Definition out2d_row_VD (lat lon alt VN VE VD roll pitch heading : R) : list R :=
    [c13_out2d_o50 lat lon alt VN VE VD roll pitch heading; c13_out2d_o51 lat lon alt VN VE VD roll pitch heading;
     c13_out2d_o52 lat lon alt VN VE VD roll pitch heading; c13_out2d_o53 lat lon alt VN VE VD roll pitch heading;
     c13_out2d_o54 lat lon alt VN VE VD roll pitch heading; c13_out2d_o55 lat lon alt VN VE VD roll pitch heading;
     c13_out2d_o56 lat lon alt VN VE VD roll pitch heading].

  Lemma out2d_rows_zero lat lon alt VN VE VD roll pitch heading :
    out2d_row_down lat lon alt VN VE VD roll pitch heading = repeat 0 7 /\
    out2d_row_VD lat lon alt VN VE VD roll pitch heading = repeat 0 7.
  Proof.
    unfold out2d_row_down, out2d_row_VD, c13_out2d_o20, c13_out2d_o21, c13_out2d_o22, c13_out2d_o23, c13_out2d_o24, c13_out2d_o25,
      c13_out2d_o26, c13_out2d_o50, c13_out2d_o51, c13_out2d_o52, c13_out2d_o53, c13_out2d_o54, c13_out2d_o55, c13_out2d_o56.
    autounfold with c13_out2d_db. cbn [repeat]. split; repeat f_equal; field.
  Qed.

  (** variance of an output component: (T P T^T)_kk = sum_i sum_j T_ki P_ij T_kj, P any matrix *)
  Definition dotl (u v : list R) : R :=
    fold_right Rplus 0 (map (fun xy => fst xy * snd xy) (combine u v)).
  Definition quad (row : list R) (P : list (list R)) : R := dotl row (map (fun Pi => dotl Pi row) P).

  Lemma dotl_zero_l n v : dotl (repeat 0 n) v = 0.
  Proof.
    revert v. induction n as [|n IH]; intros v; [reflexivity|].
    destruct v as [|y v]; [reflexivity|]. unfold dotl in *. cbn. rewrite IH. ring.
  Qed.

  Lemma sd2d_zero lat lon alt VN VE VD roll pitch heading (P : list (list R)) :
    sqrt (quad (out2d_row_down lat lon alt VN VE VD roll pitch heading) P) = 0 /\
    sqrt (quad (out2d_row_VD lat lon alt VN VE VD roll pitch heading) P) = 0.
  Proof.
    destruct (out2d_rows_zero lat lon alt VN VE VD roll pitch heading) as [H1 H2].
    rewrite H1, H2. unfold quad. rewrite dotl_zero_l. split; apply sqrt_0.
  Qed.

  (** position / NED velocity Jacobians in 2D: the two horizontal rows only *)
  Definition poserr2d_matrix (lat lon alt VN VE VD roll pitch heading : R) : list (list R) :=
    [[c13_poserr2d_h00 lat lon alt VN VE VD roll pitch heading; c13_poserr2d_h01 lat lon alt VN VE VD roll pitch heading;
      c13_poserr2d_h02 lat lon alt VN VE VD roll pitch heading; c13_poserr2d_h03 lat lon alt VN VE VD roll pitch heading;
      c13_poserr2d_h04 lat lon alt VN VE VD roll pitch heading; c13_poserr2d_h05 lat lon alt VN VE VD roll pitch heading;
      c13_poserr2d_h06 lat lon alt VN VE VD roll pitch heading];
     [c13_poserr2d_h10 lat lon alt VN VE VD roll pitch heading; c13_poserr2d_h11 lat lon alt VN VE VD roll pitch heading;
      c13_poserr2d_h12 lat lon alt VN VE VD roll pitch heading; c13_poserr2d_h13 lat lon alt VN VE VD roll pitch heading;
      c13_poserr2d_h14 lat lon alt VN VE VD roll pitch heading; c13_poserr2d_h15 lat lon alt VN VE VD roll pitch heading;
      c13_poserr2d_h16 lat lon alt VN VE VD roll pitch heading]].
  Definition velerr2d_matrix (lat lon alt VN VE VD roll pitch heading : R) : list (list R) :=
    [[c13_velerr2d_h00 lat lon alt VN VE VD roll pitch heading; c13_velerr2d_h01 lat lon alt VN VE VD roll pitch heading;
      c13_velerr2d_h02 lat lon alt VN VE VD roll pitch heading; c13_velerr2d_h03 lat lon alt VN VE VD roll pitch heading;
      c13_velerr2d_h04 lat lon alt VN VE VD roll pitch heading; c13_velerr2d_h05 lat lon alt VN VE VD roll pitch heading;
      c13_velerr2d_h06 lat lon alt VN VE VD roll pitch heading];
     [c13_velerr2d_h10 lat lon alt VN VE VD roll pitch heading; c13_velerr2d_h11 lat lon alt VN VE VD roll pitch heading;
      c13_velerr2d_h12 lat lon alt VN VE VD roll pitch heading; c13_velerr2d_h13 lat lon alt VN VE VD roll pitch heading;
      c13_velerr2d_h14 lat lon alt VN VE VD roll pitch heading; c13_velerr2d_h15 lat lon alt VN VE VD roll pitch heading;
      c13_velerr2d_h16 lat lon alt VN VE VD roll pitch heading]].
End GeneratedFormulas.

(** * Part B: whole-trajectory invariant of the model in 2D mode *)

Lemma map_const_repeat {A B} (f : A -> B) (b : B) (l : list A) :
  Forall (fun x => f x = b) l -> map f l = repeat b (length l).
Proof. induction 1 as [|x l Hx _ IH]; cbn; [reflexivity|]. rewrite Hx, IH. reflexivity. Qed.

Lemma last_opt_In {A} (l : list A) x : last_opt l = Some x -> In x l.
Proof.
  induction l as [|y [|z l] IH]; cbn [last_opt]; [discriminate| |].
  - intros [= ->]. left. reflexivity.
  - intros H. right. exact (IH H).
Qed.

Section Whole2D.
  Variables brow prow inc time : Type.
  Variable kstep : bool -> brow -> inc -> brow.
  Variable to_pub : brow -> prow.
  Variable of_pub : prow -> brow.
  Variable zero_vd : prow -> prow.
  Variable inc_time : inc -> time.
  (** altitude projections and "vertical velocity is zero" predicates of both row kinds *)
  Variable A : Type.
  Variable balt : brow -> A.
  Variable bvd0 : brow -> Prop.
  Variable palt : prow -> A.
  Variable pvd0 : prow -> Prop.
  Hypothesis Hstep : forall r i, bvd0 r -> bvd0 (kstep false r i) /\ balt (kstep false r i) = balt r.
  Hypothesis Hto : forall r, palt (to_pub r) = balt r /\ (bvd0 r -> pvd0 (to_pub r)).
  Hypothesis Hsup : forall p, bvd0 (of_pub (zero_vd p)) /\ balt (of_pub (zero_vd p)) = palt p /\
                              pvd0 (zero_vd p) /\ palt (zero_vd p) = palt p.

  Local Notation State := (state brow prow time).
  Local Notation Op := (op prow inc).
  Local Notation stepg g := (step kstep to_pub of_pub zero_vd inc_time g).
  Local Notation rung g := (run kstep to_pub of_pub zero_vd inc_time g).
  Local Notation run_initg g := (run_init kstep to_pub of_pub zero_vd inc_time g).
  Local Notation ralt := (fun tp : time * prow => palt (snd tp)).
  Local Notation rvd0 := (fun tp : time * prow => pvd0 (snd tp)).
  Local Notation smtraj := (sm_traj brow prow inc time kstep to_pub of_pub zero_vd inc_time false).
  Local Notation smstep := (sm_step brow prow inc time kstep to_pub of_pub zero_vd inc_time false).
  Local Notation smrun := (sm_run brow prow inc time kstep to_pub of_pub zero_vd inc_time false).
  Local Notation smcur := (sm_cur brow prow inc time kstep of_pub zero_vd false).
  Local Notation Rep2 := (Rep brow prow inc time kstep to_pub of_pub zero_vd inc_time false).

  (** The SPECIFICATION of the altitude column: (expected altitudes of all rows so far,
      altitude most recently supplied).  [Integrate c] appends |c| copies of the latest supplied
      altitude; [SetPva q] replaces the last entry by the altitude of [q]. *)
  Definition alt_step (st : list A * A) (o : Op) : list A * A :=
    match o with
    | Integrate c => (fst st ++ repeat (snd st) (length c), snd st)
    | SetPva q => (removelast (fst st) ++ [palt q], palt q)
    | _ => st
    end.
  Definition alt_run (a0 : A) (ops : list Op) : list A * A := fold_left alt_step ops ([a0], a0).

  Lemma rows_alts a cur c :
    bvd0 cur -> balt cur = a ->
    map ralt (rows_from kstep to_pub inc_time false cur c) = repeat a (length c) /\
    Forall rvd0 (rows_from kstep to_pub inc_time false cur c).
  Proof.
    intros Hv Ha.
    destruct (scanl_keeps kstep bvd0 balt Hstep a c cur Hv Ha) as [HF _].
    unfold rows_from. split.
    - rewrite <- (map_map snd palt), map_snd_combine, map_map
        by (rewrite !map_length, scanl_length; reflexivity).
      rewrite <- (scanl_length (kstep false) cur c). apply map_const_repeat.
      eapply Forall_impl; [|exact HF]. cbn. intros r [_ Hr]. rewrite (proj1 (Hto r)). exact Hr.
    - apply Forall_forall. intros [t q] Hin. apply in_combine_r, in_map_iff in Hin.
      destruct Hin as [r [<- Hr]]. rewrite Forall_forall in HF. apply (proj2 (Hto r)), (HF r Hr).
  Qed.

  (** a history summary [m] of a 2D integrator meets the specification state [st] *)
  Definition AltSpec (m : summary prow inc time) (st : list A * A) : Prop :=
    map ralt (smtraj m) = fst st /\ Forall rvd0 (smtraj m) /\ palt (sm_q _ _ _ m) = snd st.

  Lemma AltSpec_step m st o : AltSpec m st -> AltSpec (smstep m o) (alt_step st o).
  Proof.
    intros (Hm & Hf & Hq). unfold AltSpec.
    rewrite <- (proj1 (sm_step_nf kstep to_pub of_pub zero_vd inc_time false m o)).
    rewrite sm_traj_snoc in Hm, Hf.
    destruct o as [c|i| | |q]; cbn [ntraj alt_step sm_step sm_q fst snd]; auto.
    - destruct (Hsup (sm_q _ _ _ m)) as (S1 & S2 & _). rewrite Hq in S2.
      destruct (scanl_keeps kstep bvd0 balt Hstep _ (sm_incs _ _ _ m) _ S1 S2) as (_ & Hv & Ha).
      destruct (rows_alts (snd st) (smcur m) c Hv Ha) as [R1 R2].
      rewrite map_app, Hm, R1. split; [reflexivity|]. split; [apply Forall_app; auto|exact Hq].
    - destruct (Hsup q) as (_ & _ & S3 & S4). cbn [supplied].
      rewrite <- Hm, !map_app. cbn [map snd]. rewrite removelast_last, S4.
      split; [reflexivity|]. split; [|reflexivity].
      apply Forall_app in Hf. apply Forall_app. split; [apply Hf|]. constructor; [exact S3|constructor].
  Qed.

  Lemma AltSpec_run ops : forall m st, AltSpec m st -> AltSpec (smrun m ops) (fold_left alt_step ops st).
  Proof.
    induction ops as [|o ops IH]; intros m st HG; [exact HG|].
    rewrite sm_run_cons. apply IH, AltSpec_step, HG.
  Qed.

  Lemma AltSpec_init (t0 : time) p : AltSpec (sm_init prow inc time t0 p) ([palt p], palt p).
  Proof.
    destruct (Hsup p) as (_ & _ & S3 & S4). split; [cbn; rewrite S4; reflexivity|].
    split; [constructor; [exact S3|constructor]|reflexivity].
  Qed.

  Theorem whole2d_gen g cap (t0 : time) p ops :
    1 <= cap ->
    exists s os,
      run_initg g false cap t0 p ops = Some (s, os) /\
      map ralt (traj s) = fst (alt_run (palt p) ops) /\
      Forall rvd0 (traj s).
  Proof.
    intros Hc.
    destruct (run_init_traj kstep to_pub of_pub zero_vd inc_time g false cap t0 p ops Hc)
      as (s & os & E & Ht).
    destruct (AltSpec_run ops _ _ (AltSpec_init t0 p)) as (Hm & Hf & _).
    exists s, os. rewrite Ht. auto.
  Qed.

  Lemma alt_run_snd ops : forall l p,
    snd (fold_left alt_step ops (l, palt p)) = palt (latest_pva p ops).
  Proof.
    induction ops as [|o ops IH]; intros l p; [reflexivity|].
    destruct o; cbn [fold_left alt_step latest_pva fst snd]; apply IH.
  Qed.

  (** the second conjunct only keeps the induction going: [removelast] needs a non-empty list *)
  Lemma alt_run_length ops : forall l a,
    l <> [] ->
    length (fst (fold_left alt_step ops (l, a))) = length l + length (all_incs ops) /\
    fst (fold_left alt_step ops (l, a)) <> [].
  Proof.
    induction ops as [|o ops IH]; intros l a Hl.
    - cbn. split; [lia|exact Hl].
    - destruct o as [c|i| | |q]; cbn [fold_left alt_step all_incs fst snd].
      + destruct (IH (l ++ repeat a (length c)) a) as [L N].
        { destruct l; [contradiction|discriminate]. }
        split; [|exact N]. rewrite L, !app_length, repeat_length. lia.
      + apply IH. exact Hl.
      + apply IH. exact Hl.
      + apply IH. exact Hl.
      + destruct (IH (removelast l ++ [palt q]) (palt q)) as [L N].
        { destruct (removelast l); discriminate. }
        split; [|exact N]. rewrite L, app_length. cbn [length].
        destruct (exists_last Hl) as [l' [x El]]. rewrite El, removelast_last, app_length. cbn. lia.
  Qed.

  (** ** histories in which every overwrite keeps the altitude of the current last row
         (the feedback filter: set_pva (correct_pva (get_pva ()) x)) *)
  Variable X : Type.
  Variable correct : prow -> X -> prow.
  Hypothesis Hcorr : forall p x, palt (correct p x) = palt p.

  Fixpoint fb_hist (g : brow) (s : State) (ops : list Op) : Prop :=
    match ops with
    | [] => True
    | o :: rest =>
        match o with
        | SetPva q => exists x tl, last_opt (traj s) = Some tl /\ q = correct (snd tl) x
        | _ => True
        end /\
        match stepg g s o with
        | Some (s', _) => fb_hist g s' rest
        | None => False
        end
    end.

  (** along such a history the specification state stays constant *)
  Lemma fb_hist_run g a ops : forall s m st,
    Rep2 s m -> AltSpec m st -> Forall (fun x => x = a) (fst st) -> snd st = a -> fb_hist g s ops ->
    exists s' os, rung g s ops = Some (s', os) /\
                  Forall (fun tp => palt (snd tp) = a /\ pvd0 (snd tp)) (traj s').
  Proof.
    induction ops as [|o ops IH]; intros s m st HR HG Hall Ha Hfb.
    - exists s, []. split; [reflexivity|].
      destruct HR as (_ & -> & _). destruct HG as (Hm & Hf & _).
      rewrite <- Hm, Forall_map in Hall. apply Forall_and; assumption.
    - destruct (Rep_step kstep to_pub of_pub zero_vd inc_time g false s m o HR) as (s1 & E & HR1).
      cbn [fb_hist] in Hfb. rewrite E in Hfb. destruct Hfb as [Ho Hrest].
      assert (Hst : Forall (fun x => x = a) (fst (alt_step st o)) /\ snd (alt_step st o) = a).
      { destruct o as [c|i| | |q]; cbn [alt_step fst snd]; auto.
        - split; [|exact Ha]. apply Forall_app. split; [exact Hall|].
          apply Forall_forall. intros x Hx. rewrite Ha in Hx. exact (repeat_spec _ _ _ Hx).
        - destruct Ho as (x & tl & Hl & ->). destruct HR as (_ & Ht & _). destruct HG as (Hm & _).
          rewrite <- Hm in Hall |- *. rewrite Forall_map in Hall.
          assert (Hq : palt (correct (snd tl) x) = a).
          { rewrite Hcorr. rewrite Forall_forall in Hall. apply Hall. rewrite <- Ht.
            apply last_opt_In, Hl. }
          split; [|exact Hq]. rewrite sm_traj_snoc in Hall |- *. rewrite map_app. cbn [map].
          rewrite removelast_last.
          apply Forall_app in Hall. apply Forall_app. split; [apply Forall_map, Hall|].
          constructor; [exact Hq|constructor]. }
      destruct (IH s1 _ _ HR1 (AltSpec_step m st o HG) (proj1 Hst) (proj2 Hst) Hrest) as (s2 & os & E2 & HF2).
      eexists s2, (_ :: os). cbn [run]. rewrite E, E2. auto.
  Qed.

  Theorem feedback2d_gen g cap (t0 : time) p ops s0 :
    init of_pub zero_vd g false cap t0 p = Some s0 ->
    fb_hist g s0 ops ->
    exists s os,
      run_initg g false cap t0 p ops = Some (s, os) /\
      Forall (fun tp => palt (snd tp) = palt p /\ pvd0 (snd tp)) (traj s).
  Proof.
    intros Ei Hfb. unfold run_init. rewrite Ei.
    apply (init_inv of_pub zero_vd) in Ei as [Hc ->].
    refine (fb_hist_run g (palt p) ops _ _ _ _ (AltSpec_init t0 p) _ eq_refl Hfb).
    - split; [reflexivity|]. split; [reflexivity|]. exists [], (repeat g (cap - 1)). split; reflexivity.
    - constructor; [reflexivity|constructor].
  Qed.
End Whole2D.

(** * Part C: the instance with the generated kernel step *)

Record mat9 := mkM { m00 : R; m01 : R; m02 : R; m10 : R; m11 : R; m12 : R; m20 : R; m21 : R; m22 : R }.
(** one row of the buffers lla, velocity_n, mat_nb *)
Record krow := mkK { k_lat : R; k_lon : R; k_alt : R; k_VN : R; k_VE : R; k_VD : R; k_C : mat9 }.
(** one row of Increments: dt, theta, dv *)
Record kinc := mkI { i_dt : R; i_th0 : R; i_th1 : R; i_th2 : R; i_dv0 : R; i_dv1 : R; i_dv2 : R }.
(** one public row: lat lon alt VN VE VD roll pitch heading *)
Record pva := mkP { p_lat : R; p_lon : R; p_alt : R; p_VN : R; p_VE : R; p_VD : R;
                    p_roll : R; p_pitch : R; p_heading : R }.
(** error vector of the 2D filter (DR1 DR2 DV1 DV2 PHI1 PHI2 PHI3) *)
Record err7 := mkE { e0 : R; e1 : R; e2 : R; e3 : R; e4 : R; e5 : R; e6 : R }.

Definition app22
  (f : R -> R -> R -> R -> R -> R -> R -> R -> R -> R -> R -> R -> R -> R -> R -> R -> R -> R -> R -> R -> R -> R -> R)
  (r : krow) (i : kinc) : R :=
  f (i_dt i) (k_lat r) (k_lon r) (k_alt r) (k_VN r) (k_VE r) (k_VD r)
    (m00 (k_C r)) (m01 (k_C r)) (m02 (k_C r)) (m10 (k_C r)) (m11 (k_C r)) (m12 (k_C r))
    (m20 (k_C r)) (m21 (k_C r)) (m22 (k_C r))
    (i_th0 i) (i_th1 i) (i_th2 i) (i_dv0 i) (i_dv1 i) (i_dv2 i).

(** row j+1 as written by [_numba_integrate.integrate] (generated formulas) *)
Definition kstep_gen (b : bool) (r : krow) (i : kinc) : krow :=
  if b then
    mkK (app22 step3d_lat r i) (app22 step3d_lon r i) (app22 step3d_alt r i)
        (app22 step3d_VN r i) (app22 step3d_VE r i) (app22 step3d_VD r i)
        (mkM (app22 step3d_C00 r i) (app22 step3d_C01 r i) (app22 step3d_C02 r i)
             (app22 step3d_C10 r i) (app22 step3d_C11 r i) (app22 step3d_C12 r i)
             (app22 step3d_C20 r i) (app22 step3d_C21 r i) (app22 step3d_C22 r i))
  else
    mkK (app22 step2d_lat r i) (app22 step2d_lon r i) (app22 step2d_alt r i)
        (app22 step2d_VN r i) (app22 step2d_VE r i) (app22 step2d_VD r i)
        (mkM (app22 step2d_C00 r i) (app22 step2d_C01 r i) (app22 step2d_C02 r i)
             (app22 step2d_C10 r i) (app22 step2d_C11 r i) (app22 step2d_C12 r i)
             (app22 step2d_C20 r i) (app22 step2d_C21 r i) (app22 step2d_C22 r i)).

(** pva.copy(); pva.VD = 0.0 *)
Definition pva_zero_vd (p : pva) : pva :=
  mkP (p_lat p) (p_lon p) (p_alt p) (p_VN p) (p_VE p) 0%R (p_roll p) (p_pitch p) (p_heading p).

Definition app16
  (f : R -> R -> R -> R -> R -> R -> R -> R -> R -> R -> R -> R -> R -> R -> R -> R -> R)
  (p : pva) (x : err7) : R :=
  f (p_lat p) (p_lon p) (p_alt p) (p_VN p) (p_VE p) (p_VD p) (p_roll p) (p_pitch p) (p_heading p)
    (e0 x) (e1 x) (e2 x) (e3 x) (e4 x) (e5 x) (e6 x).

(** InsErrorModel(with_altitude=False).correct_pva (generated formulas) *)
Definition correct2d (p : pva) (x : err7) : pva :=
  mkP (app16 c13_correct2d_lat p x) (app16 c13_correct2d_lon p x) (app16 c13_correct2d_alt p x)
      (app16 c13_correct2d_VN p x) (app16 c13_correct2d_VE p x) (app16 c13_correct2d_VD p x)
      (app16 c13_correct2d_roll p x) (app16 c13_correct2d_pitch p x) (app16 c13_correct2d_heading p x).

Lemma correct2d_keeps_vertical p x :
  p_alt (correct2d p x) = p_alt p /\ p_VD (correct2d p x) = p_VD p.
Proof.
  unfold correct2d, app16. cbn [p_alt p_VD]. split;
    [apply correct2d_alt_same|apply correct2d_VD_same].
Qed.

Section Instance.
  Variable time : Type.
  (** transform.mat_to_rph / transform.mat_from_rph: arbitrary functions *)
  Variable rph_of : mat9 -> R * R * R.
  Variable mat_of : R -> R -> R -> mat9.

  Definition kinc_t : Type := (kinc * time)%type.
  Definition kstep_t (b : bool) (r : krow) (i : kinc_t) : krow := kstep_gen b r (fst i).
  (** hstack (lla, velocity_n, mat_to_rph mat_nb) *)
  Definition k_to_pub (r : krow) : pva :=
    mkP (k_lat r) (k_lon r) (k_alt r) (k_VN r) (k_VE r) (k_VD r)
        (fst (fst (rph_of (k_C r)))) (snd (fst (rph_of (k_C r)))) (snd (rph_of (k_C r))).
  (** (pva[LLA], pva[VEL], mat_from_rph pva[RPH]) *)
  Definition k_of_pub (p : pva) : krow :=
    mkK (p_lat p) (p_lon p) (p_alt p) (p_VN p) (p_VE p) (p_VD p)
        (mat_of (p_roll p) (p_pitch p) (p_heading p)).

  Definition k_run_init :=
    run_init kstep_t k_to_pub k_of_pub pva_zero_vd (fun i : kinc_t => snd i).
  Definition k_step :=
    step kstep_t k_to_pub k_of_pub pva_zero_vd (fun i : kinc_t => snd i).

  Lemma k_Hstep (r : krow) (i : kinc_t) :
    k_VD r = 0%R -> k_VD (kstep_t false r i) = 0%R /\ k_alt (kstep_t false r i) = k_alt r.
  Proof.
    intros H. unfold kstep_t, kstep_gen. cbn [k_VD k_alt]. unfold app22. split.
    - apply step2d_VD_zero.
    - apply step2d_alt_frozen. exact H.
  Qed.

  Lemma k_Hto (r : krow) :
    p_alt (k_to_pub r) = k_alt r /\ (k_VD r = 0%R -> p_VD (k_to_pub r) = 0%R).
  Proof. split; [reflexivity|]. intros H. exact H. Qed.

  Lemma k_Hsup (p : pva) :
    k_VD (k_of_pub (pva_zero_vd p)) = 0%R /\ k_alt (k_of_pub (pva_zero_vd p)) = p_alt p /\
    p_VD (pva_zero_vd p) = 0%R /\ p_alt (pva_zero_vd p) = p_alt p.
  Proof. repeat split. Qed.

  Definition k_alt_run (a0 : R) (ops : list (op pva kinc_t)) : list R * R :=
    alt_run pva kinc_t R p_alt a0 ops.

  Theorem integrator2d_whole (g : krow) cap (t0 : time) (p : pva) ops :
    1 <= cap ->
    exists s os,
      k_run_init g false cap t0 p ops = Some (s, os) /\
      map (fun tp => p_alt (snd tp)) (traj s) = fst (k_alt_run (p_alt p) ops) /\
      snd (k_alt_run (p_alt p) ops) = p_alt (latest_pva p ops) /\
      length (traj s) = S (length (all_incs ops)) /\
      Forall (fun tp => p_VD (snd tp) = 0%R) (traj s).
  Proof.
    intros Hc.
    destruct (whole2d_gen krow pva kinc_t time kstep_t k_to_pub k_of_pub pva_zero_vd
                (fun i : kinc_t => snd i) R k_alt (fun r => k_VD r = 0%R) p_alt
                (fun q => p_VD q = 0%R) k_Hstep k_Hto k_Hsup g cap t0 p ops Hc)
      as [s [os [E [Hm Hf]]]].
    exists s, os. split; [exact E|]. split; [exact Hm|]. split; [|split; [|exact Hf]].
    - apply (alt_run_snd pva kinc_t R p_alt).
    - rewrite <- (map_length (fun tp => p_alt (snd tp))), Hm.
      destruct (alt_run_length pva kinc_t R p_alt ops [p_alt p] (p_alt p)) as [L _];
        [discriminate|].
      unfold k_alt_run, alt_run. rewrite L. reflexivity.
  Qed.

  Theorem integrator2d_since_supply (g : krow) cap (t0 : time) (p : pva) ops :
    1 <= cap ->
    exists s os pre t rs cur,
      k_run_init g false cap t0 p ops = Some (s, os) /\
      traj s = pre ++ (t, pva_zero_vd (latest_pva p ops))
                   :: combine (map (fun i : kinc_t => snd i) (incs_since [] ops)) (map k_to_pub rs) /\
      length rs = length (incs_since [] ops) /\
      Forall (fun r => p_VD (k_to_pub r) = 0%R /\ p_alt (k_to_pub r) = p_alt (latest_pva p ops)) rs /\
      nth_error (buf s) (length (traj s) - 1) = Some cur /\
      k_VD cur = 0%R /\ k_alt cur = p_alt (latest_pva p ops).
  Proof.
    intros Hc.
    destruct (inv2d_since_supply krow pva kinc_t time kstep_t k_to_pub k_of_pub pva_zero_vd
                (fun i : kinc_t => snd i) R (fun r => k_VD r = 0%R) k_alt k_Hstep
                (fun q => proj1 (k_Hsup q)) g cap t0 p ops Hc)
      as [s [os [pre [t [rs [cur [E [Ht [Ers [HF [Hn [Hv Hk]]]]]]]]]]]].
    exists s, os, pre, t, rs, cur.
    split; [exact E|]. split; [exact Ht|]. split; [rewrite Ers; apply scanl_length|].
    split; [|split; [exact Hn|split; [exact Hv|exact Hk]]].
    eapply Forall_impl; [|exact HF]. cbn. intros r [H1 H2]. split; assumption.
  Qed.

  Theorem integrator2d_produced (g : krow) cap (t0 : time) (p : pva) ops s os :
    k_run_init g false cap t0 p ops = Some (s, os) ->
    (forall g' c s' ob,
        k_step g' s (Integrate c) = Some (s', ob) ->
        exists new, traj s' = traj s ++ new /\ length new = length c /\
                    Forall (fun tp => p_VD (snd tp) = 0%R /\
                                      p_alt (snd tp) = p_alt (latest_pva p ops)) new) /\
    (forall g' i s' ob,
        k_step g' s (Predict i) = Some (s', ob) ->
        exists row, ob = ORow (snd i, row) /\ traj s' = traj s /\
                    p_VD row = 0%R /\ p_alt row = p_alt (latest_pva p ops)).
  Proof.
    intros E.
    destruct (inv2d_step krow pva kinc_t time kstep_t k_to_pub k_of_pub pva_zero_vd
                (fun i : kinc_t => snd i) R (fun r => k_VD r = 0%R) k_alt k_Hstep
                (fun q => proj1 (k_Hsup q)) g cap t0 p ops s os E) as [HI HP].
    split.
    - intros g' c s' ob Es. destruct (HI g' c s' ob Es) as [rs [Ht [Hl HF]]].
      exists (combine (map (fun i : kinc_t => snd i) c) (map k_to_pub rs)).
      split; [exact Ht|]. split; [rewrite combine_length, !map_length, Hl; apply Nat.min_id|].
      apply Forall_forall. intros [t q] Hin. apply in_combine_r, in_map_iff in Hin.
      destruct Hin as [r [<- Hr]]. rewrite Forall_forall in HF. destruct (HF r Hr). split; assumption.
    - intros g' i s' ob Es. destruct (HP g' i s' ob Es) as [r [Eo [Ht [H1 H2]]]].
      exists (k_to_pub r). split; [exact Eo|]. split; [exact Ht|]. split; assumption.
  Qed.

  (** feedback filter: every overwrite is correct_pva applied to the current last row *)
  Definition k_fb_hist := fb_hist krow pva kinc_t time kstep_t k_to_pub k_of_pub pva_zero_vd
                            (fun i : kinc_t => snd i) err7 correct2d.

  Theorem feedback2d (g : krow) cap (t0 : time) (p : pva) ops s0 :
    init k_of_pub pva_zero_vd g false cap t0 p = Some s0 ->
    k_fb_hist g s0 ops ->
    exists s os,
      k_run_init g false cap t0 p ops = Some (s, os) /\
      Forall (fun tp => p_alt (snd tp) = p_alt p /\ p_VD (snd tp) = 0%R) (traj s).
  Proof.
    intros Ei Hfb.
    exact (feedback2d_gen krow pva kinc_t time kstep_t k_to_pub k_of_pub pva_zero_vd
             (fun i : kinc_t => snd i) R k_alt (fun r => k_VD r = 0%R) p_alt
             (fun q => p_VD q = 0%R) k_Hstep k_Hto k_Hsup err7 correct2d
             (fun q x => proj1 (correct2d_keeps_vertical q x)) g cap t0 p ops s0 Ei Hfb).
  Qed.
End Instance.
