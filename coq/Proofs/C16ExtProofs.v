(** C16, continued: theorems about the GENERATED definitions of Gen/Earth.v and Gen/Transform.v that relate
    several of them to each other.
      - lla_to_ned o perturb_lla has Jacobian I at 0            (lla_to_ned_first_order);
      - curvature_matrix is the rotation rate of the NED frame under displacement
                                                                (curvature_is_frame_rotation);
      - ecef_to_lla (Olson): the step after the series guess is a Newton step of the forward map, with the
        exact guess as fixed point (olson_newton_step); exact inverse on the equatorial plane and on the
        polar axis; longitude round trip for every point off the axis. *)
From Coq Require Import Reals Lra.
From Coquelicot Require Import Coquelicot.
From PV Require Import Base.RealTac Spec.LibSpecs Spec.LibSpecsFacts Spec.Ellipsoid.
From PV Require Import Gen.Earth Gen.Transform Proofs.C16Proofs.
Open Scope R_scope.

(** * local NED coordinates of a metre-perturbed point: first order = identity *)
Ltac unf_ned := unfold lla_to_ned_n0, lla_to_ned_n1, lla_to_ned_n2;
                repeat autounfold with lla_to_ned_db.

Lemma lla_to_ned_as_frame lat lon alt lat0 lon0 alt0 :
  let dx := lla_to_ecef_r0 lat lon alt - lla_to_ecef_r0 lat0 lon0 alt0 in
  let dy := lla_to_ecef_r1 lat lon alt - lla_to_ecef_r1 lat0 lon0 alt0 in
  let dz := lla_to_ecef_r2 lat lon alt - lla_to_ecef_r2 lat0 lon0 alt0 in
  lla_to_ned_n0 lat lon alt lat0 lon0 alt0 =
    mat_en_from_ll_m00 lat0 lon0 * dx + mat_en_from_ll_m10 lat0 lon0 * dy + mat_en_from_ll_m20 lat0 lon0 * dz /\
  lla_to_ned_n1 lat lon alt lat0 lon0 alt0 =
    mat_en_from_ll_m01 lat0 lon0 * dx + mat_en_from_ll_m11 lat0 lon0 * dy + mat_en_from_ll_m21 lat0 lon0 * dz /\
  lla_to_ned_n2 lat lon alt lat0 lon0 alt0 =
    mat_en_from_ll_m02 lat0 lon0 * dx + mat_en_from_ll_m12 lat0 lon0 * dy + mat_en_from_ll_m22 lat0 lon0 * dz.
Proof.
  cbv zeta. unf_ned. unf_en. unf_ecef. repeat split; ring.
Qed.

Lemma derive_dot_offset (F0 F1 F2 : R -> R) (a0 a1 a2 c0 c1 c2 l0 l1 l2 : R) :
  is_derive F0 0 l0 -> is_derive F1 0 l1 -> is_derive F2 0 l2 ->
  is_derive (fun d => a0 * (F0 d - c0) + a1 * (F1 d - c1) + a2 * (F2 d - c2)) 0
            (a0 * l0 + a1 * l1 + a2 * l2).
Proof.
  intros H0 H1 H2.
  auto_derive.
  - repeat split; eexists; eassumption.
  - replace (Derive (fun x : R => F0 x) 0) with l0 by (symmetry; apply is_derive_unique; exact H0).
    replace (Derive (fun x : R => F1 x) 0) with l1 by (symmetry; apply is_derive_unique; exact H1).
    replace (Derive (fun x : R => F2 x) 0) with l2 by (symmetry; apply is_derive_unique; exact H2).
    ring.
Qed.

(* A displacement s e (metres, NED) applied by perturb_lla and read back by lla_to_ned moves the local
   coordinates at unit rate along e: the ECEF velocity is e0 north + e1 east - e2 up, and the rows of
   mat_en^T are that orthonormal frame. *)
Lemma lla_to_ned_perturb_derive lat lon alt e0 e1 e2 :
  -90 < lat < 90 -> -6000000 < alt ->
  let la s := perturb_lla_lat lat lon alt (s * e0) (s * e1) (s * e2) in
  let lo s := perturb_lla_lon lat lon alt (s * e0) (s * e1) (s * e2) in
  let al s := perturb_lla_alt lat lon alt (s * e0) (s * e1) (s * e2) in
  is_derive (fun s => lla_to_ned_n0 (la s) (lo s) (al s) lat lon alt) 0 e0 /\
  is_derive (fun s => lla_to_ned_n1 (la s) (lo s) (al s) lat lon alt) 0 e1 /\
  is_derive (fun s => lla_to_ned_n2 (la s) (lo s) (al s) lat lon alt) 0 e2.
Proof.
  intros Hlat Halt la lo al.
  pose proof (rn_neq0 lat alt Halt) as Hrn. pose proof (rp_neq0 lat alt Hlat Halt) as Hrp.
  pose proof PI_neq0 as Hpi.
  set (cn := / principal_radii_rn lat alt * (180 / PI)). set (ce := / principal_radii_rp lat alt * (180 / PI)).
  assert (Hla : is_derive la 0 (e0 * cn)).
  { eapply is_derive_ext; [intro s; symmetry; apply (proj1 (perturb_dir _ _ _ _ _ _))|].
    auto_derive; [exact I|unfold cn; ring]. }
  assert (Hlo : is_derive lo 0 (e1 * ce)).
  { eapply is_derive_ext; [intro s; symmetry; apply (proj1 (proj2 (perturb_dir _ _ _ _ _ _)))|].
    auto_derive; [exact I|unfold ce; ring]. }
  assert (Hal : is_derive al 0 (- e2)).
  { eapply is_derive_ext; [intro s; symmetry; apply (proj2 (proj2 (perturb_dir _ _ _ _ _ _)))|].
    auto_derive; [exact I|ring]. }
  destruct (ecef_derive_along la lo al 0 _ _ _ Hla Hlo Hal) as (D0 & D1 & D2). cbv zeta in D0, D1, D2.
  assert (L0 : la 0 = lat) by (unfold la; rewrite (proj1 (perturb_dir _ _ _ _ _ _)); ring).
  assert (O0 : lo 0 = lon) by (unfold lo; rewrite (proj1 (proj2 (perturb_dir _ _ _ _ _ _))); ring).
  assert (A0 : al 0 = alt) by (unfold al; rewrite (proj2 (proj2 (perturb_dir _ _ _ _ _ _))); ring).
  rewrite L0, O0, A0 in D0, D1, D2.
  assert (Hkn : e0 * cn * (PI / 180) * (R_meridian A_ E2_ (lat * (PI / 180)) + alt) = e0).
  { rewrite <- (proj1 (radii_char lat alt)). unfold cn. field. auto. }
  assert (Hke : e1 * ce * (PI / 180) *
                ((R_transverse A_ E2_ (lat * (PI / 180)) + alt) * cos (lat * (PI / 180))) = e1).
  { rewrite <- (sqrt_1msin2 (lat * (PI / 180))) by (apply cos_d2r_nonneg; lra).
    rewrite <- (proj2 (proj2 (radii_char lat alt))). unfold ce. field. auto. }
  rewrite Hkn, Hke in D0, D1, D2.
  destruct (mat_en_columns lat lon) as ((N0 & N1 & N2) & (E0 & E1 & E2) & (U0 & U1 & U2)).
  unfold d2r in *.
  pose proof (fun s => lla_to_ned_as_frame (la s) (lo s) (al s) lat lon alt) as F. cbv zeta in F.
  split; [|split];
    [ apply (is_derive_ext _ _ _ _ (fun s => eq_sym (proj1 (F s))))
    | apply (is_derive_ext _ _ _ _ (fun s => eq_sym (proj1 (proj2 (F s)))))
    | apply (is_derive_ext _ _ _ _ (fun s => eq_sym (proj2 (proj2 (F s))))) ];
    (evar_last; [apply (derive_dot_offset _ _ _ _ _ _ _ _ _ _ _ _ D0 D1 D2)|]);
    rewrite ?N0, ?N1, ?N2, ?E0, ?E1, ?E2, ?U0, ?U1, ?U2;
    unfold north_x, north_y, north_z, east_x, east_y, east_z, up_x, up_y, up_z;
    ring [(s2c (lat * (PI / 180))) (s2c (lon * (PI / 180)))].
Qed.

Lemma lla_to_ned_first_order lat lon alt :
  -90 < lat < 90 -> -6000000 < alt ->
  let ned0 d0 d1 d2 := lla_to_ned_n0 (perturb_lla_lat lat lon alt d0 d1 d2) (perturb_lla_lon lat lon alt d0 d1 d2)
                         (perturb_lla_alt lat lon alt d0 d1 d2) lat lon alt in
  let ned1 d0 d1 d2 := lla_to_ned_n1 (perturb_lla_lat lat lon alt d0 d1 d2) (perturb_lla_lon lat lon alt d0 d1 d2)
                         (perturb_lla_alt lat lon alt d0 d1 d2) lat lon alt in
  let ned2 d0 d1 d2 := lla_to_ned_n2 (perturb_lla_lat lat lon alt d0 d1 d2) (perturb_lla_lon lat lon alt d0 d1 d2)
                         (perturb_lla_alt lat lon alt d0 d1 d2) lat lon alt in
  (is_derive (fun d => ned0 d 0 0) 0 1 /\ is_derive (fun d => ned1 d 0 0) 0 0 /\ is_derive (fun d => ned2 d 0 0) 0 0) /\
  (is_derive (fun d => ned0 0 d 0) 0 0 /\ is_derive (fun d => ned1 0 d 0) 0 1 /\ is_derive (fun d => ned2 0 d 0) 0 0) /\
  (is_derive (fun d => ned0 0 0 d) 0 0 /\ is_derive (fun d => ned1 0 0 d) 0 0 /\ is_derive (fun d => ned2 0 0 d) 0 1).
Proof.
  intros Hlat Halt. cbv zeta.
  destruct (lla_to_ned_perturb_derive lat lon alt 1 0 0 Hlat Halt) as (N0 & N1 & N2).
  destruct (lla_to_ned_perturb_derive lat lon alt 0 1 0 Hlat Halt) as (E0 & E1 & E2).
  destruct (lla_to_ned_perturb_derive lat lon alt 0 0 1 Hlat Halt) as (D0 & D1 & D2).
  split; [|split]; (split; [|split]);
    [refine (is_derive_ext _ _ _ _ _ N0)|refine (is_derive_ext _ _ _ _ _ N1)|refine (is_derive_ext _ _ _ _ _ N2)
    |refine (is_derive_ext _ _ _ _ _ E0)|refine (is_derive_ext _ _ _ _ _ E1)|refine (is_derive_ext _ _ _ _ _ E2)
    |refine (is_derive_ext _ _ _ _ _ D0)|refine (is_derive_ext _ _ _ _ _ D1)|refine (is_derive_ext _ _ _ _ _ D2)];
    intro d; cbv beta; rewrite ?Rmult_1_r, ?Rmult_0_r; reflexivity.
Qed.

(* minimum of the meridian radius is a(1-e2) > 6.3e6 m: altitudes above -6000 km keep Rn + alt > 0 *)
Lemma rn_pos6 lat alt : -6000000 < alt ->
  0 < 6378137 / sqrt (1 - 66943799901413 / 10000000000000000 * (sin lat * sin lat)) *
      (9933056200098587 / 10000000000000000) /
      (1 - 66943799901413 / 10000000000000000 * (sin lat * sin lat)) + alt.
Proof.
  intro Ha. pose proof (R_meridian_ge lat) as H. unfold R_meridian, W2, A_, E2_ in H.
  with_q lat.
  match goal with |- 0 < ?r + alt => replace r with
    (6378137 * (1 - 66943799901413 / 10000000000000000) /
     ((1 - 66943799901413 / 10000000000000000 * (sin lat * sin lat)) * q)) by (field; lra) end.
  lra.
Qed.

(** * curvature matrix = rotation of the NED frame under displacement *)

Ltac unf_curv := unfold curvature_matrix_F00, curvature_matrix_F01, curvature_matrix_F02,
                   curvature_matrix_F10, curvature_matrix_F11, curvature_matrix_F12,
                   curvature_matrix_F20, curvature_matrix_F21, curvature_matrix_F22;
                 repeat autounfold with curvature_matrix_db.

Lemma curvature_entries lat alt :
  -90 < lat < 90 ->
  curvature_matrix_F00 lat alt = 0 /\ curvature_matrix_F01 lat alt = / principal_radii_re lat alt /\
  curvature_matrix_F02 lat alt = 0 /\
  curvature_matrix_F10 lat alt = - / principal_radii_rn lat alt /\ curvature_matrix_F11 lat alt = 0 /\
  curvature_matrix_F12 lat alt = 0 /\
  curvature_matrix_F20 lat alt = 0 /\
  curvature_matrix_F21 lat alt = - (sin (lat * d2r) / principal_radii_rp lat alt) /\
  curvature_matrix_F22 lat alt = 0.
Proof.
  intro Hlat. unf_curv. unf_radii. unfold d2r, tan.
  rewrite (sqrt_1msin2 (lat * (PI/180))) by (apply cos_d2r_nonneg; lra).
  pose proof (cos_d2r_pos lat Hlat) as Hc.
  repeat split; try reflexivity; unfold Rdiv; try ring.
  rewrite Rinv_mult. ring.
Qed.

Lemma frame_rotation_core (phi lam a b : R) :
  let ph s := phi + s * a in let la s := lam + s * b in
  let rel (r0 r1 r2 : R) (c0 c1 c2 : R -> R -> R) :=
    fun s => r0 * c0 (ph s) (la s) + r1 * c1 (ph s) (la s) + r2 * c2 (ph s) (la s) in
  let w0 := b * cos phi in let w1 := - a in let w2 := - (b * sin phi) in
  let dx p l := - up_x p l in let dy p l := - up_y p l in let dz p l := - up_z p l in
  (is_derive (rel (north_x phi lam) (north_y phi lam) (north_z phi lam) north_x north_y north_z) 0 0 /\
   is_derive (rel (north_x phi lam) (north_y phi lam) (north_z phi lam) east_x east_y east_z) 0 (- w2) /\
   is_derive (rel (north_x phi lam) (north_y phi lam) (north_z phi lam) dx dy dz) 0 w1) /\
  (is_derive (rel (east_x phi lam) (east_y phi lam) (east_z phi lam) north_x north_y north_z) 0 w2 /\
   is_derive (rel (east_x phi lam) (east_y phi lam) (east_z phi lam) east_x east_y east_z) 0 0 /\
   is_derive (rel (east_x phi lam) (east_y phi lam) (east_z phi lam) dx dy dz) 0 (- w0)) /\
  (is_derive (rel (dx phi lam) (dy phi lam) (dz phi lam) north_x north_y north_z) 0 (- w1) /\
   is_derive (rel (dx phi lam) (dy phi lam) (dz phi lam) east_x east_y east_z) 0 w0 /\
   is_derive (rel (dx phi lam) (dy phi lam) (dz phi lam) dx dy dz) 0 0).
Proof.
  cbv zeta. unfold north_x, north_y, north_z, east_x, east_y, east_z, up_x, up_y, up_z. cbv beta.
  assert (Hp : sin phi * sin phi = 1 - cos phi * cos phi) by (pose proof (sc1 phi); lra).
  assert (Hl : sin lam * sin lam = 1 - cos lam * cos lam) by (pose proof (sc1 lam); lra).
  split; [|split]; (split; [|split]); (auto_derive; [exact I|]);
    replace (phi + 0 * a) with phi by ring; replace (lam + 0 * b) with lam by ring; ring [Hp Hl].
Qed.

Lemma curvature_is_frame_rotation lat lon alt e0 e1 e2 :
  -90 < lat < 90 -> -6000000 < alt ->
  let lat' s := perturb_lla_lat lat lon alt (s * e0) (s * e1) (s * e2) in
  let lon' s := perturb_lla_lon lat lon alt (s * e0) (s * e1) (s * e2) in
  let rel (r0 r1 r2 : R) (c0 c1 c2 : R -> R -> R) :=
    fun s => r0 * c0 (lat' s) (lon' s) + r1 * c1 (lat' s) (lon' s) + r2 * c2 (lat' s) (lon' s) in
  let w0 := curvature_matrix_F00 lat alt * e0 + curvature_matrix_F01 lat alt * e1 + curvature_matrix_F02 lat alt * e2 in
  let w1 := curvature_matrix_F10 lat alt * e0 + curvature_matrix_F11 lat alt * e1 + curvature_matrix_F12 lat alt * e2 in
  let w2 := curvature_matrix_F20 lat alt * e0 + curvature_matrix_F21 lat alt * e1 + curvature_matrix_F22 lat alt * e2 in
  let n0 := mat_en_from_ll_m00 lat lon in let n1 := mat_en_from_ll_m10 lat lon in let n2 := mat_en_from_ll_m20 lat lon in
  let a0 := mat_en_from_ll_m01 lat lon in let a1 := mat_en_from_ll_m11 lat lon in let a2 := mat_en_from_ll_m21 lat lon in
  let d0 := mat_en_from_ll_m02 lat lon in let d1 := mat_en_from_ll_m12 lat lon in let d2 := mat_en_from_ll_m22 lat lon in
  (is_derive (rel n0 n1 n2 mat_en_from_ll_m00 mat_en_from_ll_m10 mat_en_from_ll_m20) 0 0 /\
   is_derive (rel n0 n1 n2 mat_en_from_ll_m01 mat_en_from_ll_m11 mat_en_from_ll_m21) 0 (- w2) /\
   is_derive (rel n0 n1 n2 mat_en_from_ll_m02 mat_en_from_ll_m12 mat_en_from_ll_m22) 0 w1) /\
  (is_derive (rel a0 a1 a2 mat_en_from_ll_m00 mat_en_from_ll_m10 mat_en_from_ll_m20) 0 w2 /\
   is_derive (rel a0 a1 a2 mat_en_from_ll_m01 mat_en_from_ll_m11 mat_en_from_ll_m21) 0 0 /\
   is_derive (rel a0 a1 a2 mat_en_from_ll_m02 mat_en_from_ll_m12 mat_en_from_ll_m22) 0 (- w0)) /\
  (is_derive (rel d0 d1 d2 mat_en_from_ll_m00 mat_en_from_ll_m10 mat_en_from_ll_m20) 0 (- w1) /\
   is_derive (rel d0 d1 d2 mat_en_from_ll_m01 mat_en_from_ll_m11 mat_en_from_ll_m21) 0 w0 /\
   is_derive (rel d0 d1 d2 mat_en_from_ll_m02 mat_en_from_ll_m12 mat_en_from_ll_m22) 0 0).
Proof.
  intros Hlat Halt. cbv zeta.
  pose proof (rn_neq0 lat alt Halt) as Hrn.
  pose proof (rp_neq0 lat alt Hlat Halt) as Hrp.
  pose proof PI_neq0 as Hpi.
  destruct (curvature_entries lat alt Hlat) as [F00 [F01 [F02 [F10 [F11 [F12 [F20 [F21 F22]]]]]]]].
  rewrite F00, F01, F02, F10, F11, F12, F20, F21, F22.
  assert (Hre : principal_radii_rp lat alt = principal_radii_re lat alt * cos (lat * d2r)).
  { unf_radii. unfold d2r. rewrite (sqrt_1msin2 (lat * (PI/180))) by (apply cos_d2r_nonneg; lra). reflexivity. }
  pose proof (cos_d2r_pos lat Hlat) as Hc. fold d2r in Hc.
  assert (Hre0 : principal_radii_re lat alt <> 0).
  { intro E. rewrite E in Hre. apply Hrp. rewrite Hre. ring. }
  set (a := e0 * (/ principal_radii_rn lat alt * (180 / PI)) * d2r).
  set (b := e1 * (/ principal_radii_rp lat alt * (180 / PI)) * d2r).
  destruct (frame_rotation_core (lat * d2r) (lon * d2r) a b)
    as [[C00 [C01 C02]] [[C10 [C11 C12]] [C20 [C21 C22]]]].
  cbv zeta in *.
  destruct (mat_en_columns lat lon) as [[N0 [N1 N2]] [[E0 [E1 E2]] [D0 [D1 D2]]]].
  cbv zeta in *. rewrite N0, N1, N2, E0, E1, E2, D0, D1, D2.
  assert (Hext : forall s,
     let la' := perturb_lla_lat lat lon alt (s * e0) (s * e1) (s * e2) in
     let lo' := perturb_lla_lon lat lon alt (s * e0) (s * e1) (s * e2) in
     (mat_en_from_ll_m00 la' lo' = north_x (lat * d2r + s * a) (lon * d2r + s * b) /\
      mat_en_from_ll_m10 la' lo' = north_y (lat * d2r + s * a) (lon * d2r + s * b) /\
      mat_en_from_ll_m20 la' lo' = north_z (lat * d2r + s * a) (lon * d2r + s * b)) /\
     (mat_en_from_ll_m01 la' lo' = east_x (lat * d2r + s * a) (lon * d2r + s * b) /\
      mat_en_from_ll_m11 la' lo' = east_y (lat * d2r + s * a) (lon * d2r + s * b) /\
      mat_en_from_ll_m21 la' lo' = east_z (lat * d2r + s * a) (lon * d2r + s * b)) /\
     (mat_en_from_ll_m02 la' lo' = - up_x (lat * d2r + s * a) (lon * d2r + s * b) /\
      mat_en_from_ll_m12 la' lo' = - up_y (lat * d2r + s * a) (lon * d2r + s * b) /\
      mat_en_from_ll_m22 la' lo' = - up_z (lat * d2r + s * a) (lon * d2r + s * b))).
  { intro s. cbv zeta.
    destruct (perturb_dir lat lon alt (s * e0) (s * e1) (s * e2)) as [P1 [P2 _]].
    rewrite P1, P2.
    replace (lat * d2r + s * a) with ((lat + s * e0 * (/ principal_radii_rn lat alt * (180 / PI))) * d2r)
      by (unfold a; ring).
    replace (lon * d2r + s * b) with ((lon + s * e1 * (/ principal_radii_rp lat alt * (180 / PI))) * d2r)
      by (unfold b; ring).
    apply mat_en_columns. }
  assert (Ha : a = e0 / principal_radii_rn lat alt) by (unfold a, d2r; field; auto).
  assert (Hb : b = e1 / principal_radii_rp lat alt) by (unfold b, d2r; field; auto).
  split; [|split]; (split; [|split]);
    (evar_last;
     [ eapply is_derive_ext;
       [ intro s; destruct (Hext s) as [[X0 [X1 X2]] [[Y0 [Y1 Y2]] [Z0 [Z1 Z2]]]]; cbv zeta in *; cbv beta;
         rewrite ?X0, ?X1, ?X2, ?Y0, ?Y1, ?Y2, ?Z0, ?Z1, ?Z2; reflexivity
       | first [exact C00|exact C01|exact C02|exact C10|exact C11|exact C12|exact C20|exact C21|exact C22] ]
     | rewrite ?Ha, ?Hb, ?Hre; field; repeat split; auto; apply Rgt_not_eq; exact Hc ]).
Qed.

(** * ecef_to_lla (Olson) *)

(* What ecef_to_lla computes after its series guess (s, c) of the sine and cosine of the latitude, from
   w = sqrt(x^2 + y^2) and az = |z|: with N the transverse radius at that latitude, (w - N c, az - (1-e2) N s) is
   the residual of the forward map at altitude 0 in the meridian plane, f / m its normal / tangential
   components, p the latitude correction. *)
Definition ol_N (s : R) := A_ / sqrt (1 - E2_ * (s * s)).
Definition ol_f (s c w az : R) := c * (w - ol_N s * c) + s * (az - (1 - E2_) * ol_N s * s).
Definition ol_m (s c w az : R) := c * (az - (1 - E2_) * ol_N s * s) - s * (w - ol_N s * c).
Definition ol_p (s c w az : R) :=
  ol_m s c w az / ((1 - E2_) * ol_N s / (1 - E2_ * (s * s)) + ol_f s c w az).

(* branch c2 > 0.3: the guess is the sine [ecef_to_lla__10] *)
Lemma olson_tail_sin x y z :
  let s := ecef_to_lla__10 x y z in let c := sqrt (1 - s * s) in
  let w := ecef_to_lla__0 x y in let az := Rabs z in
  ecef_to_lla__18 x y z = ol_f s c w az /\ ecef_to_lla__19 x y z = ol_m s c w az /\
  ecef_to_lla__20 x y z = ol_p s c w az /\ ecef_to_lla__21 x y z = asin s + ol_p s c w az /\
  ecef_to_lla__23 x y z = ol_f s c w az + 1 / 2 * ol_m s c w az * ol_p s c w az.
Proof.
  intros s c w az.
  assert (E12 : ecef_to_lla__12 x y z = 1 - E2_ * (s * s))
    by (unfold ecef_to_lla__12, ecef_to_lla__11, E2_; fold s; ring).
  assert (E13 : ecef_to_lla__13 x y z = ol_N s) by (unfold ecef_to_lla__13; rewrite E12; reflexivity).
  assert (E14 : ecef_to_lla__14 x y z = (1 - E2_) * ol_N s)
    by (unfold ecef_to_lla__14; rewrite E13; unfold E2_; lra).
  unfold ecef_to_lla__23, ecef_to_lla__21, ecef_to_lla__20, ecef_to_lla__19, ecef_to_lla__18,
    ecef_to_lla__17, ecef_to_lla__16, ecef_to_lla__15, ecef_to_lla__11, ecef_to_lla__9.
  rewrite E14, E13, E12. fold s c w az. unfold ol_p, ol_m, ol_f, Rdiv. repeat split; ring.
Qed.

(* branch c2 <= 0.3: the guess is the cosine [ecef_to_lla__24] *)
Lemma olson_tail_cos x y z :
  let c := ecef_to_lla__24 x y z in let s := sqrt (1 - c * c) in
  let w := ecef_to_lla__0 x y in let az := Rabs z in
  s * s = 1 - c * c ->
  ecef_to_lla__32 x y z = ol_f s c w az /\ ecef_to_lla__33 x y z = ol_m s c w az /\
  ecef_to_lla__34 x y z = ol_p s c w az /\ ecef_to_lla__35 x y z = acos c + ol_p s c w az /\
  ecef_to_lla__36 x y z = ol_f s c w az + 1 / 2 * ol_m s c w az * ol_p s c w az.
Proof.
  intros c s w az H.
  assert (E27 : ecef_to_lla__27 x y z = 1 - E2_ * (s * s))
    by (rewrite H; unfold ecef_to_lla__27, ecef_to_lla__25, E2_; fold c; ring).
  assert (E28 : ecef_to_lla__28 x y z = ol_N s) by (unfold ecef_to_lla__28; rewrite E27; reflexivity).
  assert (E29 : ecef_to_lla__29 x y z = (1 - E2_) * ol_N s)
    by (unfold ecef_to_lla__29; rewrite E28; unfold E2_; lra).
  unfold ecef_to_lla__36, ecef_to_lla__35, ecef_to_lla__34, ecef_to_lla__33, ecef_to_lla__32,
    ecef_to_lla__31, ecef_to_lla__30, ecef_to_lla__26, ecef_to_lla__25, ecef_to_lla__9.
  rewrite E29, E28, E27. fold c. fold s w az. unfold ol_p, ol_m, ol_f, Rdiv. repeat split; ring.
Qed.

(* At the image of a point at altitude h whose latitude has sine s and cosine c the residual is h (c, s):
   purely normal, so the correction vanishes and the step returns (latitude, h). *)
Lemma ol_exact s c h w az :
  s * s + c * c = 1 -> w = (ol_N s + h) * c -> az = ((1 - E2_) * ol_N s + h) * s ->
  ol_f s c w az = h /\ ol_m s c w az = 0 /\ ol_p s c w az = 0.
Proof.
  intros SC -> ->.
  assert (M : ol_m s c ((ol_N s + h) * c) (((1 - E2_) * ol_N s + h) * s) = 0) by (unfold ol_m; ring).
  split; [|split; [exact M|unfold ol_p; rewrite M; unfold Rdiv; ring]].
  unfold ol_f. transitivity (h * (s * s + c * c)); [ring|rewrite SC; ring].
Qed.

Lemma olson_step_sin x y z s c h :
  ecef_to_lla__10 x y z = s -> sqrt (1 - s * s) = c -> s * s + c * c = 1 ->
  ecef_to_lla__0 x y = (ol_N s + h) * c -> Rabs z = ((1 - E2_) * ol_N s + h) * s ->
  ecef_to_lla__18 x y z = h /\ ecef_to_lla__19 x y z = 0 /\ ecef_to_lla__20 x y z = 0 /\
  ecef_to_lla__21 x y z = asin s /\ ecef_to_lla__23 x y z = h.
Proof.
  intros G C SC W Z. pose proof (olson_tail_sin x y z) as T. cbv zeta in T. rewrite G, C in T.
  destruct (ol_exact s c h _ _ SC W Z) as (F & M & P).
  rewrite F, M, P, Rplus_0_r, Rmult_0_r, Rplus_0_r in T. exact T.
Qed.

Lemma olson_step_cos x y z s c h :
  ecef_to_lla__24 x y z = c -> sqrt (1 - c * c) = s -> s * s + c * c = 1 ->
  ecef_to_lla__0 x y = (ol_N s + h) * c -> Rabs z = ((1 - E2_) * ol_N s + h) * s ->
  ecef_to_lla__32 x y z = h /\ ecef_to_lla__33 x y z = 0 /\ ecef_to_lla__34 x y z = 0 /\
  ecef_to_lla__35 x y z = acos c /\ ecef_to_lla__36 x y z = h.
Proof.
  intros G C SC W Z. pose proof (olson_tail_cos x y z) as T. cbv zeta in T. rewrite G, C in T.
  destruct (ol_exact s c h _ _ SC W Z) as (F & M & P).
  rewrite F, M, P, Rplus_0_r, Rmult_0_r, Rplus_0_r in T. apply T. lra.
Qed.

Lemma sqrt_1mcos2 x : 0 <= sin x -> sqrt (1 - cos x * cos x) = sin x.
Proof. intro H. rewrite <- (s2c x). apply sqrt_square. exact H. Qed.

(* the code's Rn at the guess: M = (1-e2) N / W^2 *)
Lemma meridian_from_transverse phi :
  R_meridian A_ E2_ phi = (1 - E2_) * R_transverse A_ E2_ phi / W2 E2_ phi.
Proof.
  unfold R_meridian, R_transverse. pose proof (W_pos phi). fold (W2 E2_ phi) in *.
  assert (0 < sqrt (W2 E2_ phi)) by (apply sqrt_lt_R0; assumption). field. lra.
Qed.

Lemma sin_abs_d2r lat : -90 <= lat <= 90 ->
  sin (Rabs lat * (PI / 180)) = Rabs (sin (lat * (PI / 180))) /\
  cos (Rabs lat * (PI / 180)) = cos (lat * (PI / 180)) /\
  0 <= Rabs lat * (PI / 180) <= PI / 2.
Proof.
  intros [H1 H2]. pose proof PI_RGT_0 as Hpi.
  destruct (Rle_dec 0 lat) as [Hl|Hl].
  - rewrite (Rabs_right lat) by lra.
    assert (0 <= sin (lat * (PI / 180))) by (apply sin_ge_0; nra).
    rewrite Rabs_right by lra. repeat split; try reflexivity; nra.
  - rewrite (Rabs_left lat) by lra.
    replace (- lat * (PI / 180)) with (- (lat * (PI / 180))) by ring.
    rewrite sin_neg, cos_neg.
    assert (sin (lat * (PI / 180)) < 0) by (apply sin_lt_0_var; nra).
    rewrite Rabs_left1 by lra. repeat split; try reflexivity; nra.
Qed.

(* the ECEF image of a geodetic point in cylindrical form, as ecef_to_lla sees it *)
Lemma ecef_cylindrical lat lon alt :
  -90 < lat < 90 -> -6000000 < alt ->
  let phi := Rabs lat * (PI / 180) in let N := R_transverse A_ E2_ phi in
  let k := (N + alt) * cos phi in
  let x := lla_to_ecef_r0 lat lon alt in let y := lla_to_ecef_r1 lat lon alt in
  let z := lla_to_ecef_r2 lat lon alt in
  (0 <= sin phi /\ 0 <= cos phi) /\
  (0 < k /\ x = k * cos (lon * (PI / 180)) /\ y = k * sin (lon * (PI / 180)) /\ ecef_to_lla__0 x y = k) /\
  (Rabs z = ((1 - E2_) * N + alt) * sin phi /\ (z < 0 <-> lat < 0)).
Proof.
  intros Hlat Halt. cbv zeta.
  destruct (sin_abs_d2r lat ltac:(lra)) as (Hs & Hc & Hr).
  pose proof (ecef_char lat lon alt) as X. cbv zeta in X. destruct X as (-> & -> & ->).
  replace (R_transverse A_ E2_ (Rabs lat * (PI / 180))) with (R_transverse A_ E2_ (lat * (PI / 180)))
    by (unfold R_transverse, W2; rewrite Hs, <- Rabs_mult, Rabs_right by nra; reflexivity).
  rewrite Hs, Hc. set (phi := lat * (PI / 180)). set (lam := lon * (PI / 180)).
  set (N := R_transverse A_ E2_ phi). assert (HN : 6378137 <= N) by apply R_transverse_ge.
  pose proof (cos_d2r_pos lat Hlat) as Hcp. fold phi in Hcp. pose proof one_minus_E2 as He.
  assert (Hk : 0 < (N + alt) * cos phi) by (apply Rmult_lt_0_compat; lra).
  assert (HK : 0 < (1 - E2_) * N + alt) by (rewrite He; lra).
  split; [split; [apply Rabs_pos|lra]|split].
  - split; [exact Hk|]. split; [reflexivity|]. split; [reflexivity|].
    unfold ecef_to_lla__0. set (k := (N + alt) * cos phi) in *.
    replace (k * cos lam * (k * cos lam) + k * sin lam * (k * sin lam)) with (k * k)
      by (pose proof (sc1 lam); nra).
    apply sqrt_square. lra.
  - pose proof PI_RGT_0 as Hpi. split.
    + rewrite Rabs_mult, (Rabs_right (_ + alt)) by lra. reflexivity.
    + split; intro Hz.
      * destruct (Rlt_dec lat 0) as [|Hn]; [assumption|exfalso].
        assert (0 <= sin phi) by (apply sin_ge_0; unfold phi; nra). nra.
      * assert (sin phi < 0) by (apply sin_lt_0_var; unfold phi; nra). nra.
Qed.

Lemma ecef_to_lla_lon_is_atan2 x y z : ecef_to_lla_lon x y z = atan2 y x * r2d.
Proof.
  unfold ecef_to_lla_lon, ecef_to_lla_lon__p0, ecef_to_lla_lon__p1, ecef_to_lla_lon__p2,
    ecef_to_lla_lon__p3, ecef_to_lla__22, r2d.
  destruct (Rgt_dec _ _); destruct (Rlt_dec z 0); reflexivity.
Qed.

Lemma lon_round_trip lat lon alt z' :
  -90 < lat < 90 -> -180 < lon <= 180 -> -6000000 < alt ->
  ecef_to_lla_lon (lla_to_ecef_r0 lat lon alt) (lla_to_ecef_r1 lat lon alt) z' = lon.
Proof.
  intros Hlat Hlon Halt.
  destruct (ecef_cylindrical lat lon alt Hlat Halt) as (_ & (Hk & Hx & Hy & _) & _).
  cbv zeta in *. rewrite ecef_to_lla_lon_is_atan2, Hx, Hy.
  pose proof PI_RGT_0 as Hpi.
  rewrite atan2_sin_cos; [unfold r2d; field; lra|exact Hk|].
  split; nra.
Qed.

(** If the series guess is exact, the Newton correction vanishes and the output is the exact
    geodetic triple. *)
Lemma olson_newton_step lat lon alt :
  -90 < lat < 90 -> -180 < lon <= 180 -> -6000000 < alt ->
  let x := lla_to_ecef_r0 lat lon alt in let y := lla_to_ecef_r1 lat lon alt in
  let z := lla_to_ecef_r2 lat lon alt in
  (ecef_to_lla__4 x y z > 3 / 10 -> ecef_to_lla__10 x y z = sin (Rabs lat * d2r)) ->
  (~ ecef_to_lla__4 x y z > 3 / 10 -> ecef_to_lla__24 x y z = cos (lat * d2r)) ->
  ((ecef_to_lla__4 x y z > 3 / 10 -> ecef_to_lla__19 x y z = 0 /\ ecef_to_lla__20 x y z = 0) /\
   (~ ecef_to_lla__4 x y z > 3 / 10 -> ecef_to_lla__33 x y z = 0 /\ ecef_to_lla__34 x y z = 0)) /\
  ecef_to_lla_lat x y z = lat /\ ecef_to_lla_lon x y z = lon /\ ecef_to_lla_alt x y z = alt.
Proof.
  intros Hlat Hlon Halt. cbv zeta. unfold d2r. intros GA GB.
  destruct (ecef_cylindrical lat lon alt Hlat Halt) as ((Hs0 & Hc0) & (_ & _ & _ & HW) & (HZ & Hsign)).
  destruct (sin_abs_d2r lat ltac:(lra)) as (_ & Hc & Hr). rewrite <- Hc in GB.
  cbv zeta in *.
  set (x := lla_to_ecef_r0 lat lon alt) in *. set (y := lla_to_ecef_r1 lat lon alt) in *.
  set (z := lla_to_ecef_r2 lat lon alt) in *. set (phi := Rabs lat * (PI / 180)) in *.
  pose proof PI_RGT_0 as Hpi.
  pose proof (fun Hb => olson_step_sin x y z _ _ alt (GA Hb) (sqrt_1msin2 phi Hc0) (sc1 phi) HW HZ) as Hsin.
  pose proof (fun Hb => olson_step_cos x y z _ _ alt (GB Hb) (sqrt_1mcos2 phi Hs0) (sc1 phi) HW HZ) as Hcos.
  rewrite asin_sin in Hsin by lra. rewrite acos_cos in Hcos by lra.
  (* the sign of z gives the latitude its sign back *)
  assert (Hback : (if Rlt_dec z 0 then - phi * (180 / PI) else phi * (180 / PI)) = lat).
  { unfold phi. destruct (Rlt_dec z 0) as [Hz|Hz].
    - rewrite Rabs_left by (apply Hsign; exact Hz). field. lra.
    - rewrite Rabs_right by (apply Rnot_lt_ge; intro Hl; apply Hz, Hsign; exact Hl). field. lra. }
  split; [split|split; [|split; [apply lon_round_trip; assumption|]]].
  - intro Hb. destruct (Hsin Hb) as (_ & H19 & H20 & _). split; assumption.
  - intro Hb. destruct (Hcos Hb) as (_ & H33 & H34 & _). split; assumption.
  - unfold ecef_to_lla_lat, ecef_to_lla_lat__p0, ecef_to_lla_lat__p1, ecef_to_lla_lat__p2, ecef_to_lla_lat__p3.
    destruct (Rgt_dec _ _) as [Hb|Hb].
    + destruct (Hsin Hb) as (_ & _ & _ & -> & _). exact Hback.
    + destruct (Hcos Hb) as (_ & _ & _ & -> & _). exact Hback.
  - unfold ecef_to_lla_alt, ecef_to_lla_alt__p0, ecef_to_lla_alt__p1, ecef_to_lla_alt__p2, ecef_to_lla_alt__p3.
    destruct (Rgt_dec _ _) as [Hb|Hb].
    + destruct (Hsin Hb) as (_ & _ & _ & _ & ->). destruct (Rlt_dec z 0); reflexivity.
    + destruct (Hcos Hb) as (_ & _ & _ & _ & ->). destruct (Rlt_dec z 0); reflexivity.
Qed.

(** Sub-domains where the series guess is exact by construction. *)

Lemma ol_N_0 : ol_N 0 = A_.
Proof. unfold ol_N. replace (1 - E2_ * (0 * 0)) with 1 by ring. rewrite sqrt_1. field. Qed.

Lemma ecef_to_lla_equatorial_plane x y :
  0 < x * x + y * y ->
  ecef_to_lla_lat x y 0 = 0 /\ ecef_to_lla_lon x y 0 = atan2 y x * r2d /\
  ecef_to_lla_alt x y 0 = sqrt (x * x + y * y) - A_.
Proof.
  intro Hxy.
  assert (Hw : 0 < sqrt (x * x + y * y)) by (apply sqrt_lt_R0; exact Hxy).
  set (w := sqrt (x * x + y * y)) in *.
  assert (H4 : ecef_to_lla__4 x y 0 = 1).
  { unfold ecef_to_lla__4, ecef_to_lla__3, ecef_to_lla__2, ecef_to_lla__1, ecef_to_lla__0. fold w.
    field. lra. }
  assert (H10 : ecef_to_lla__10 x y 0 = 0).
  { unfold ecef_to_lla__10, ecef_to_lla__9. rewrite Rabs_R0. unfold Rdiv. ring. }
  assert (Hc : sqrt (1 - 0 * 0) = 1) by (replace (1 - 0 * 0) with 1 by ring; apply sqrt_1).
  destruct (olson_step_sin x y 0 0 1 (w - A_) H10 Hc ltac:(ring)) as (_ & _ & _ & H21 & H23).
  { rewrite ol_N_0. unfold ecef_to_lla__0. fold w. ring. }
  { rewrite Rabs_R0. ring. }
  split; [|split; [apply ecef_to_lla_lon_is_atan2|]].
  - unfold ecef_to_lla_lat. destruct (Rgt_dec _ _) as [Hb|Hb]; [|exfalso; apply Hb; rewrite H4; lra].
    destruct (Rlt_dec 0 0) as [Hz|Hz]; [lra|].
    unfold ecef_to_lla_lat__p1. rewrite H21, asin_0. ring.
  - unfold ecef_to_lla_alt. destruct (Rgt_dec _ _) as [Hb|Hb]; [|exfalso; apply Hb; rewrite H4; lra].
    destruct (Rlt_dec 0 0) as [Hz|Hz]; [lra|].
    unfold ecef_to_lla_alt__p1. exact H23.
Qed.

Lemma ecef_at_equator lon alt :
  lla_to_ecef_r0 0 lon alt = (A_ + alt) * cos (lon * (PI / 180)) /\
  lla_to_ecef_r1 0 lon alt = (A_ + alt) * sin (lon * (PI / 180)) /\
  lla_to_ecef_r2 0 lon alt = 0.
Proof.
  pose proof (ecef_char 0 lon alt) as X. cbv zeta in X. destruct X as (-> & -> & ->).
  replace (0 * (PI / 180)) with 0 by ring.
  replace (R_transverse A_ E2_ 0) with A_
    by (symmetry; unfold R_transverse, W2; rewrite sin_0; exact ol_N_0).
  rewrite sin_0, cos_0. repeat split; ring.
Qed.

Lemma equator_round_trip lon alt :
  -180 < lon <= 180 -> - A_ < alt ->
  let x := lla_to_ecef_r0 0 lon alt in let y := lla_to_ecef_r1 0 lon alt in
  let z := lla_to_ecef_r2 0 lon alt in
  ecef_to_lla_lat x y z = 0 /\ ecef_to_lla_lon x y z = lon /\ ecef_to_lla_alt x y z = alt.
Proof.
  intros Hlon Halt. cbv zeta.
  pose proof PI_RGT_0 as Hpi.
  destruct (ecef_at_equator lon alt) as (-> & -> & ->).
  set (k := A_ + alt). set (lam := lon * (PI / 180)).
  assert (Hk : 0 < k) by (unfold k; lra).
  assert (Hn : k * cos lam * (k * cos lam) + k * sin lam * (k * sin lam) = k * k)
    by (pose proof (sc1 lam); nra).
  destruct (ecef_to_lla_equatorial_plane (k * cos lam) (k * sin lam)) as (E1 & E2 & E3); [nra|].
  split; [exact E1|split].
  - rewrite E2, atan2_sin_cos; [unfold r2d, lam; field; lra|exact Hk|unfold lam; split; nra].
  - rewrite E3, Hn, sqrt_square by lra. unfold k. ring.
Qed.

(* non-vacuity of the hypotheses of [olson_newton_step]: on the equator the series guess IS exact *)
Lemma olson_guess_exact_on_equator lon alt :
  -180 < lon <= 180 -> - A_ < alt ->
  let x := lla_to_ecef_r0 0 lon alt in let y := lla_to_ecef_r1 0 lon alt in
  let z := lla_to_ecef_r2 0 lon alt in
  (ecef_to_lla__4 x y z > 3 / 10 -> ecef_to_lla__10 x y z = sin (Rabs 0 * d2r)) /\
  (~ ecef_to_lla__4 x y z > 3 / 10 -> ecef_to_lla__24 x y z = cos (0 * d2r)).
Proof.
  intros Hlon Halt. cbv zeta.
  destruct (ecef_at_equator lon alt) as (-> & -> & ->).
  set (k := A_ + alt). set (lam := lon * (PI / 180)).
  assert (Hk : 0 < k) by (unfold k; lra).
  assert (Hn : 0 < k * cos lam * (k * cos lam) + k * sin lam * (k * sin lam))
    by (pose proof (sc1 lam); nra).
  assert (Hw : 0 < sqrt (k * cos lam * (k * cos lam) + k * sin lam * (k * sin lam)))
    by (apply sqrt_lt_R0; exact Hn).
  split.
  - intros _. unfold ecef_to_lla__10, ecef_to_lla__9. rewrite Rabs_R0.
    replace (0 * d2r) with 0 by ring. rewrite sin_0. unfold Rdiv. ring.
  - intro Hb. exfalso. apply Hb.
    unfold ecef_to_lla__4, ecef_to_lla__3, ecef_to_lla__2, ecef_to_lla__1, ecef_to_lla__0.
    set (w := sqrt (k * cos lam * (k * cos lam) + k * sin lam * (k * sin lam))) in *.
    replace (w * w / (0 * 0 + w * w)) with 1 by (field; lra). lra.
Qed.

(* (1-e2) * a / sqrt(1-e2) is the semi-minor axis b = sqrt(a^2 (1-e2)) *)
Lemma semi_minor_axis : (1 - E2_) * ol_N 1 = sqrt (b2 A_ E2_).
Proof.
  unfold b2, ol_N. replace (1 - E2_ * (1 * 1)) with (1 - E2_) by ring.
  set (t := 1 - E2_). assert (Ht : 0 < t) by (unfold t, E2_; lra).
  assert (Hs : 0 < sqrt t) by (apply sqrt_lt_R0; exact Ht).
  assert (Hss : sqrt t * sqrt t = t) by (apply sqrt_sqrt; lra).
  rewrite sqrt_mult, sqrt_square by (unfold A_; lra).
  rewrite <- Hss at 1. field. lra.
Qed.

Lemma ecef_to_lla_polar_axis z :
  z <> 0 ->
  ecef_to_lla_lat 0 0 z = (if Rlt_dec z 0 then -90 else 90) /\ ecef_to_lla_lon 0 0 z = 0 /\
  ecef_to_lla_alt 0 0 z = Rabs z - sqrt (b2 A_ E2_).
Proof.
  intro Hz0.
  pose proof PI_RGT_0 as Hpi.
  assert (Hw : ecef_to_lla__0 0 0 = 0).
  { unfold ecef_to_lla__0. replace (0 * 0 + 0 * 0) with 0 by ring. apply sqrt_0. }
  assert (H4 : ecef_to_lla__4 0 0 z = 0).
  { unfold ecef_to_lla__4, ecef_to_lla__1. rewrite Hw. unfold Rdiv. ring. }
  assert (H24 : ecef_to_lla__24 0 0 z = 0).
  { unfold ecef_to_lla__24. rewrite Hw. unfold Rdiv. ring. }
  assert (Hc : sqrt (1 - 0 * 0) = 1) by (replace (1 - 0 * 0) with 1 by ring; apply sqrt_1).
  destruct (olson_step_cos 0 0 z 1 0 (Rabs z - sqrt (b2 A_ E2_)) H24 Hc ltac:(ring))
    as (_ & _ & _ & H35 & H36).
  { rewrite Hw. ring. }
  { rewrite semi_minor_axis. ring. }
  split; [|split].
  - unfold ecef_to_lla_lat. destruct (Rgt_dec _ _) as [Hg|Hg]; [rewrite H4 in Hg; lra|].
    destruct (Rlt_dec z 0) as [Hz|Hz].
    + unfold ecef_to_lla_lat__p2. rewrite H35, acos_0. field. lra.
    + unfold ecef_to_lla_lat__p3. rewrite H35, acos_0. field. lra.
  - rewrite ecef_to_lla_lon_is_atan2. unfold atan2.
    destruct (Rlt_dec 0 0) as [H|H]; [lra|]. unfold r2d. ring.
  - unfold ecef_to_lla_alt. destruct (Rgt_dec _ _) as [Hg|Hg]; [rewrite H4 in Hg; lra|].
    destruct (Rlt_dec z 0); [unfold ecef_to_lla_alt__p2|unfold ecef_to_lla_alt__p3]; exact H36.
Qed.

Lemma ecef_at_poles lon alt :
  (lla_to_ecef_r0 90 lon alt = 0 /\ lla_to_ecef_r1 90 lon alt = 0 /\
   lla_to_ecef_r2 90 lon alt = sqrt (b2 A_ E2_) + alt) /\
  (lla_to_ecef_r0 (-90) lon alt = 0 /\ lla_to_ecef_r1 (-90) lon alt = 0 /\
   lla_to_ecef_r2 (-90) lon alt = - (sqrt (b2 A_ E2_) + alt)).
Proof.
  pose proof PI_RGT_0 as Hpi.
  assert (A1 : 90 * (PI / 180) = PI / 2) by field.
  assert (A2 : -90 * (PI / 180) = - (PI / 2)) by field.
  assert (HN : forall phi, sin phi * sin phi = 1 * 1 -> (1 - E2_) * R_transverse A_ E2_ phi = sqrt (b2 A_ E2_)).
  { intros phi H. rewrite <- semi_minor_axis. unfold R_transverse, W2. rewrite H. reflexivity. }
  pose proof (ecef_char 90 lon alt) as X. pose proof (ecef_char (-90) lon alt) as Y. cbv zeta in X, Y.
  destruct X as (-> & -> & ->). destruct Y as (-> & -> & ->).
  rewrite A1, A2, !HN by (rewrite ?sin_neg, sin_PI2; ring).
  rewrite cos_neg, sin_neg, cos_PI2, sin_PI2. repeat split; ring.
Qed.

Lemma pole_round_trip lon alt :
  -6000000 < alt ->
  (let x := lla_to_ecef_r0 90 lon alt in let y := lla_to_ecef_r1 90 lon alt in
   let z := lla_to_ecef_r2 90 lon alt in
   ecef_to_lla_lat x y z = 90 /\ ecef_to_lla_alt x y z = alt) /\
  (let x := lla_to_ecef_r0 (-90) lon alt in let y := lla_to_ecef_r1 (-90) lon alt in
   let z := lla_to_ecef_r2 (-90) lon alt in
   ecef_to_lla_lat x y z = -90 /\ ecef_to_lla_alt x y z = alt).
Proof.
  intro Halt. cbv zeta.
  assert (Hbpos : 0 < sqrt (b2 A_ E2_) + alt).
  { rewrite <- semi_minor_axis, one_minus_E2.
    pose proof (R_transverse_ge (PI / 2)) as H. unfold R_transverse, W2 in H. rewrite sin_PI2 in H.
    fold (ol_N 1) in H. lra. }
  destruct (ecef_at_poles lon alt) as ((-> & -> & ->) & (-> & -> & ->)).
  split.
  - destruct (ecef_to_lla_polar_axis (sqrt (b2 A_ E2_) + alt)) as (-> & _ & ->); [lra|].
    destruct (Rlt_dec _ 0) as [H|H]; [lra|]. rewrite Rabs_right by lra. split; [reflexivity|ring].
  - destruct (ecef_to_lla_polar_axis (- (sqrt (b2 A_ E2_) + alt))) as (-> & _ & ->); [lra|].
    destruct (Rlt_dec _ 0) as [H|H]; [|lra]. rewrite Rabs_left by lra. split; [reflexivity|ring].
Qed.
