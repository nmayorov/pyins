(** C01 — strapdown integration is consistent with, and (conditionally) converges to, the
    navigation ODE of Spec/NavODE.v.

    The generated text is opened in three places only, each time to identify it with a hand-written form:
    section 1 (the step of Gen/NumbaIntegrate.v = the transcription of Model/KernelHand.v), [mfr_small]
    (the polynomial branch of mat_from_rotvec) and the [inc_*_char] lemmas of section 6 (Gen/C01Gen.v);
    everything else is about the hand-written forms.  Consistency is differentiation at dt = 0 along curves
    of increments that pass through 0: products of two such curves, and everything multiplied by dt^2, drop out. *)
From Coq Require Import Reals Lra.
From Coquelicot Require Import Coquelicot.
From PV Require Import Base.RealTac Spec.Ellipsoid Spec.EllipsoidFacts Spec.NavODE Gen.NumbaIntegrate Gen.C01Gen Model.KernelHand.
Open Scope R_scope.

(** * 0. Differentiable curves at t = 0 *)

Lemma is_derive_via (f g : R -> R) (x l : R) : (forall t, f t = g t) -> is_derive g x l -> is_derive f x l.
Proof. intro E. apply is_derive_ext. intro t. symmetry. apply E. Qed.

Lemma is_derive_Rmult (u v : R -> R) (x u' v' : R) :
  is_derive u x u' -> is_derive v x v' -> is_derive (fun t => u t * v t) x (u' * v x + u x * v').
Proof. intros Du Dv. exact (is_derive_mult u v x u' v' Du Dv Rmult_comm). Qed.

(** a product of two curves through 0 vanishes to second order *)
Lemma deriv0_mul_vanish (u v : R -> R) :
  u 0 = 0 -> v 0 = 0 -> ex_derive u 0 -> ex_derive v 0 -> is_derive (fun t => u t * v t) 0 0.
Proof.
  intros Hu Hv [u' Du] [v' Dv]. evar_last; [exact (is_derive_Rmult u v 0 u' v' Du Dv)|].
  rewrite Hu, Hv. ring.
Qed.

Lemma deriv0_mul_t (g : R -> R) : ex_derive g 0 -> is_derive (fun t => g t * t) 0 (g 0).
Proof.
  intros [g' Dg]. evar_last; [exact (is_derive_Rmult g (fun t => t) 0 g' 1 Dg (is_derive_id 0))|].
  cbv beta. ring.
Qed.

(** one explicit step  x + a(t) + g(t) t  of an update rule *)
Lemma deriv0_affine (x : R) (a g : R -> R) (a' : R) :
  is_derive a 0 a' -> ex_derive g 0 -> is_derive (fun t => x + a t + g t * t) 0 (a' + g 0).
Proof.
  intros Da Eg. evar_last.
  - exact (is_derive_plus _ _ _ _ _ (is_derive_plus _ _ _ _ _ (is_derive_const x 0) Da) (deriv0_mul_t g Eg)).
  - cbv [plus zero]; simpl. ring.
Qed.

(** the same when the slope is a function Phi of the average of the old value V and the new value v(t)
    of a quantity that is itself updated in the step *)
Lemma deriv0_avg_step (f Phi v : R -> R) (x V l : R) :
  (forall t, f t = x + Phi (h_avg V (v t)) * t) ->
  ex_derive v 0 -> v 0 = V -> ex_derive Phi V -> l = Phi V -> is_derive f 0 l.
Proof.
  intros E Ev Hv EP ->. apply (is_derive_via _ _ _ _ E).
  assert (A : h_avg V (v 0) = V) by (rewrite Hv; unfold h_avg; field).
  evar_last.
  - apply (is_derive_plus (fun _ => x) (fun t => Phi (h_avg V (v t)) * t)); [apply is_derive_const|].
    apply (deriv0_mul_t (fun t => Phi (h_avg V (v t)))).
    apply (ex_derive_comp Phi (fun t => h_avg V (v t))); [rewrite A; exact EP|].
    unfold h_avg. auto_derive. exact Ev.
  - cbv [plus zero]; simpl. rewrite A. ring.
Qed.

(** row times column, constant row and moving row *)
Lemma rc_const_deriv (c0 c1 c2 : R) (B0 B1 B2 : R -> R) (b0 b1 b2 x : R) :
  is_derive B0 x b0 -> is_derive B1 x b1 -> is_derive B2 x b2 ->
  is_derive (fun t => h_rc c0 c1 c2 (B0 t) (B1 t) (B2 t)) x (h_rc c0 c1 c2 b0 b1 b2).
Proof.
  intros D0 D1 D2.
  exact (is_derive_plus _ _ _ _ _ (is_derive_plus _ _ _ _ _ (is_derive_scal B0 x c0 b0 D0) (is_derive_scal B1 x c1 b1 D1))
                                  (is_derive_scal B2 x c2 b2 D2)).
Qed.

Lemma rc_deriv (A0 A1 A2 B0 B1 B2 : R -> R) (a0 a1 a2 b0 b1 b2 x : R) :
  is_derive A0 x a0 -> is_derive A1 x a1 -> is_derive A2 x a2 ->
  is_derive B0 x b0 -> is_derive B1 x b1 -> is_derive B2 x b2 ->
  is_derive (fun t => h_rc (A0 t) (A1 t) (A2 t) (B0 t) (B1 t) (B2 t)) x
    (h_rc a0 a1 a2 (B0 x) (B1 x) (B2 x) + h_rc (A0 x) (A1 x) (A2 x) b0 b1 b2).
Proof.
  intros HA0 HA1 HA2 HB0 HB1 HB2. unfold h_rc. evar_last.
  - exact (is_derive_plus _ _ _ _ _ (is_derive_plus _ _ _ _ _ (is_derive_Rmult A0 B0 x a0 b0 HA0 HB0)
                                                              (is_derive_Rmult A1 B1 x a1 b1 HA1 HB1))
                                    (is_derive_Rmult A2 B2 x a2 b2 HA2 HB2)).
  - cbv [plus]; simpl. ring.
Qed.

(** * 1. Characterising lemmas: generated kernel step = hand model *)

(** The characterising lemmas must survive behaviour-preserving rewrites of the Python source
    (x**0.5 <-> sqrt, s*s hoisted, 0.5*x <-> x/2, -(a*b) <-> -a*b, hoisted common sums, ...), which
    change the helper definitions step3d__k and the shape of every expression.  So nothing below
    refers to a helper by name or to the shape of an expression: everything generated is unfolded
    through the hint databases, the NON-RATIONAL atoms (sin, sqrt, inverses of non-constant terms)
    are brought to the canonical folded forms of the hand model (h_sin, h_w, h_cos, h_x, h_re, h_rn)
    by proving their ARGUMENTS equal as rational expressions; after that no inverse of a non-numeral
    has to be cancelled, and the goal is closed by [lra], for which the monomials (inverses of
    non-numerals included) are atoms and which computes with the numerals. *)

Ltac unf_gen := unfold nb_gravity_g; repeat autounfold with step3d_db nb_gravity_db.

(* side conditions of [field] in which only numerals and PI are divided by *)
Ltac const_nz := repeat split; try apply PI_neq0; try (intro; lra).

(* identities between polynomials in the atoms, with numeral coefficients *)
Ltac rat_eq := first [ reflexivity | lra ].

Ltac fold_sin lat :=
  repeat match goal with |- context [sin ?a] =>
    replace (sin a) with (h_sin lat)
      by (unfold h_sin; first [ reflexivity | f_equal; unfold Rdiv; first [ ring | field; const_nz ] ]) end.

Ltac fold_sqrt lat :=
  repeat match goal with |- context [sqrt ?a] =>
    first [ replace (sqrt a) with (h_w lat) by (unfold h_w, h_x, E2_; f_equal; rat_eq)
          | replace (sqrt a) with (h_cos lat) by (unfold h_cos; f_equal; rat_eq) ] end.

Ltac unf_slow := unfold h_rn, h_re, h_re0, h_x, A_, E2_.

Ltac fold_inv lat alt :=
  repeat match goal with |- context [/ ?d] =>
    lazymatch d with
    | IZR _ => fail | PI => fail
    | h_w _ => fail | h_x _ => fail | h_cos _ => fail | h_re _ _ => fail | h_rn _ _ => fail
    | _ => idtac end;
    first [ replace d with (h_w lat) by (unf_slow; rat_eq)
          | replace d with (h_x lat) by (unf_slow; rat_eq)
          | replace d with (h_cos lat) by (unf_slow; rat_eq)
          | replace d with (h_re lat alt) by (unf_slow; rat_eq)
          | replace d with (h_rn lat alt) by (unf_slow; rat_eq) ] end.

(* canonical form of everything generated *)
Ltac gen_norm lat alt := unf_gen; unfold Rdiv; fold_sin lat; fold_sqrt lat; fold_inv lat alt.

(* the hand model down to the same atoms *)
Ltac unf_hand :=
  unfold hand_lat, hand_lon, hand_alt, hand_xi1, hand_xi2, hand_xi3, hand_VNa, hand_VEa, hand_VDa,
    hand_VN, hand_VE, hand_VD,
    h_newlat, h_newlon, h_newalt, h_avg, h_newVN, h_newVE, h_newVD, h_dvn, h_xi1, h_xi2, h_xi3,
    h_chi1, h_chi2, h_chi3, h_rho3, h_rho1, h_rho2, h_Om1, h_Om2, h_Om3, h_tan, h_gravity, h_g0;
  unfold RATE_, GE_, FG_, A_.

Lemma gravity_char lat alt : nb_gravity_g lat alt = h_gravity lat alt.
Proof. gen_norm lat alt. unf_hand. rat_eq. Qed.

Section Char.
Variables dt lat lon alt VN VE VD C00 C01 C02 C10 C11 C12 C20 C21 C22 th0 th1 th2 dv0 dv1 dv2 : R.
Notation ARGS f :=
  (f dt lat lon alt VN VE VD C00 C01 C02 C10 C11 C12 C20 C21 C22 th0 th1 th2 dv0 dv1 dv2) (only parsing).

(* one conjunction, because the six share their sines, square roots and inverses *)
Lemma step3d_PV_char :
  ARGS step3d_lat = ARGS hand_lat /\ ARGS step3d_lon = ARGS hand_lon /\ ARGS step3d_alt = ARGS hand_alt /\
  ARGS step3d_VN = ARGS hand_VN /\ ARGS step3d_VE = ARGS hand_VE /\ ARGS step3d_VD = ARGS hand_VD.
Proof.
  unfold step3d_lat, step3d_lon, step3d_alt, step3d_VN, step3d_VE, step3d_VD.
  gen_norm lat alt. unf_hand. repeat split; rat_eq.
Qed.

Lemma step3d_lat_char : ARGS step3d_lat = ARGS hand_lat.
Proof. apply step3d_PV_char. Qed.
Lemma step3d_lon_char : ARGS step3d_lon = ARGS hand_lon.
Proof. apply step3d_PV_char. Qed.
Lemma step3d_alt_char : ARGS step3d_alt = ARGS hand_alt.
Proof. apply step3d_PV_char. Qed.
Lemma step3d_VN_char : ARGS step3d_VN = ARGS hand_VN.
Proof. apply step3d_PV_char. Qed.
Lemma step3d_VE_char : ARGS step3d_VE = ARGS hand_VE.
Proof. apply step3d_PV_char. Qed.
Lemma step3d_VD_char : ARGS step3d_VD = ARGS hand_VD.
Proof. apply step3d_PV_char. Qed.

(* bring the rotation-vector arguments of dBn = R(xi) into hand form; the dBb = R(theta) calls
   have the variables th0 th1 th2 as arguments and are left alone.  [mat_from_rotvec_mij] stay
   opaque atoms. *)
Ltac xi_args :=
  repeat match goal with
  | |- context [?M ?a ?b ?c] =>
      lazymatch M with
      | mat_from_rotvec_m00 => idtac | mat_from_rotvec_m01 => idtac | mat_from_rotvec_m02 => idtac
      | mat_from_rotvec_m10 => idtac | mat_from_rotvec_m11 => idtac | mat_from_rotvec_m12 => idtac
      | mat_from_rotvec_m20 => idtac | mat_from_rotvec_m21 => idtac | mat_from_rotvec_m22 => idtac
      end;
      lazymatch a with
      | th0 => fail
      | hand_xi1 _ _ _ _ _ _ _ _ _ _ _ _ _ _ _ _ _ _ _ _ _ _ => fail
      | _ => idtac
      end;
      let E := fresh in
      assert (E : a = ARGS hand_xi1 /\ b = ARGS hand_xi2 /\ c = ARGS hand_xi3)
        by (gen_norm lat alt; unf_hand; repeat split; rat_eq);
      destruct E as (-> & -> & ->)
  end.

(* the three arguments are the same in all nine entries *)
Lemma step3d_C_char :
  ARGS step3d_C00 = ARGS hand_C00 /\ ARGS step3d_C01 = ARGS hand_C01 /\ ARGS step3d_C02 = ARGS hand_C02 /\
  ARGS step3d_C10 = ARGS hand_C10 /\ ARGS step3d_C11 = ARGS hand_C11 /\ ARGS step3d_C12 = ARGS hand_C12 /\
  ARGS step3d_C20 = ARGS hand_C20 /\ ARGS step3d_C21 = ARGS hand_C21 /\ ARGS step3d_C22 = ARGS hand_C22.
Proof.
  unfold step3d_C00, step3d_C01, step3d_C02, step3d_C10, step3d_C11, step3d_C12, step3d_C20, step3d_C21, step3d_C22,
    hand_C00, hand_C01, hand_C02, hand_C10, hand_C11, hand_C12, hand_C20, hand_C21, hand_C22.
  xi_args. unfold h_att, h_rc. repeat split; lra.
Qed.

Lemma step3d_C00_char : ARGS step3d_C00 = ARGS hand_C00.
Proof. apply step3d_C_char. Qed.
Lemma step3d_C01_char : ARGS step3d_C01 = ARGS hand_C01.
Proof. apply step3d_C_char. Qed.
Lemma step3d_C02_char : ARGS step3d_C02 = ARGS hand_C02.
Proof. apply step3d_C_char. Qed.
Lemma step3d_C10_char : ARGS step3d_C10 = ARGS hand_C10.
Proof. apply step3d_C_char. Qed.
Lemma step3d_C11_char : ARGS step3d_C11 = ARGS hand_C11.
Proof. apply step3d_C_char. Qed.
Lemma step3d_C12_char : ARGS step3d_C12 = ARGS hand_C12.
Proof. apply step3d_C_char. Qed.
Lemma step3d_C20_char : ARGS step3d_C20 = ARGS hand_C20.
Proof. apply step3d_C_char. Qed.
Lemma step3d_C21_char : ARGS step3d_C21 = ARGS hand_C21.
Proof. apply step3d_C_char. Qed.
Lemma step3d_C22_char : ARGS step3d_C22 = ARGS hand_C22.
Proof. apply step3d_C_char. Qed.
End Char.

(** * 2. Bridge: slow quantities of the hand model = quantities of the specification *)

Lemma h_x_pos lat : 0 < h_x lat.
Proof. unfold h_x, h_sin. pose proof (W_pos (lat * (PI / 180))). lra. Qed.

Lemma h_cos_eq lat : -90 < lat < 90 -> h_cos lat = cos (lat * d2r).
Proof. intro H. unfold h_cos, h_sin, d2r. apply sqrt_1msin2. apply cos_d2r_nonneg. lra. Qed.

Lemma h_cos_pos lat : -90 < lat < 90 -> 0 < h_cos lat.
Proof. intro H. rewrite (h_cos_eq _ H). unfold d2r. apply cos_d2r_pos. exact H. Qed.

Lemma h_tan_eq lat : -90 < lat < 90 -> h_tan lat = tan (lat * d2r).
Proof. intro H. unfold h_tan, tan. rewrite (h_cos_eq _ H). unfold h_sin, d2r. reflexivity. Qed.

Lemma W2_h_x lat : W2 E2_ (lat * d2r) = h_x lat.
Proof. unfold W2, h_x, h_sin, d2r. ring. Qed.

Lemma h_rn_eq lat alt : h_rn lat alt = nav_Rn lat + alt.
Proof.
  unfold h_rn, h_re0, h_w, nav_Rn, R_meridian. rewrite W2_h_x.
  pose proof (h_x_pos lat). assert (0 < sqrt (h_x lat)) by (apply sqrt_lt_R0; assumption).
  field. split; lra.
Qed.

Lemma h_re_eq lat alt : h_re lat alt = nav_Re lat + alt.
Proof. unfold h_re, h_re0, h_w, nav_Re, R_transverse. rewrite W2_h_x. reflexivity. Qed.

(** both radii exceed 6000 km on the ellipsoid, so they stay positive down to 1000 km below it *)
Lemma h_rn_pos lat alt : -1000000 <= alt -> 0 < h_rn lat alt.
Proof. intro Ha. rewrite h_rn_eq. pose proof (R_meridian_ge (lat * d2r)). unfold nav_Rn. lra. Qed.

Lemma h_re_pos lat alt : -1000000 <= alt -> 0 < h_re lat alt.
Proof. intro Ha. rewrite h_re_eq. pose proof (R_transverse_ge (lat * d2r)). unfold nav_Re. lra. Qed.

Lemma h_gravity_eq lat alt : h_gravity lat alt = normal_gravity (lat * d2r) alt.
Proof.
  unfold h_gravity, h_g0, h_w, normal_gravity.
  replace (h_x lat) with (1 - E2_ * (sin (lat * d2r) * sin (lat * d2r))) by (unfold h_x, h_sin, d2r; ring).
  unfold h_sin, d2r. reflexivity.
Qed.

Lemma h_Om1_eq lat : -90 < lat < 90 -> h_Om1 lat = nav_Omega_N lat.
Proof. intro H. unfold h_Om1, nav_Omega_N. rewrite (h_cos_eq _ H). reflexivity. Qed.
Lemma h_Om3_eq lat : h_Om3 lat = nav_Omega_D lat.
Proof. unfold h_Om3, nav_Omega_D, h_sin, d2r. reflexivity. Qed.
Lemma h_rho1_eq lat alt VN VE : h_rho1 lat alt VE = nav_rho_N lat alt VN VE.
Proof. unfold h_rho1, nav_rho_N. rewrite h_re_eq. reflexivity. Qed.
Lemma h_rho2_eq lat alt VN VE : h_rho2 lat alt VN = nav_rho_E lat alt VN VE.
Proof. unfold h_rho2, nav_rho_E. rewrite h_rn_eq. reflexivity. Qed.
Lemma h_rho3_eq lat alt VN VE : -90 < lat < 90 -> h_rho3 lat alt VE = nav_rho_D lat alt VN VE.
Proof.
  intro H. unfold h_rho3, h_rho1, nav_rho_D. rewrite h_re_eq, (h_tan_eq _ H). unfold Rdiv. ring.
Qed.

(** * 3. mat_from_rotvec at and near the zero rotation vector *)

Ltac unf_mfr := unfold mat_from_rotvec_m00, mat_from_rotvec_m01, mat_from_rotvec_m02,
  mat_from_rotvec_m10, mat_from_rotvec_m11, mat_from_rotvec_m12,
  mat_from_rotvec_m20, mat_from_rotvec_m21, mat_from_rotvec_m22.
Ltac unf_p1 := unfold mat_from_rotvec_m00__p1, mat_from_rotvec_m01__p1, mat_from_rotvec_m02__p1,
  mat_from_rotvec_m10__p1, mat_from_rotvec_m11__p1, mat_from_rotvec_m12__p1,
  mat_from_rotvec_m20__p1, mat_from_rotvec_m21__p1, mat_from_rotvec_m22__p1;
  repeat autounfold with mat_from_rotvec_db.

Lemma if_not_gt (n k P0 P1 : R) : ~ n > k -> (if Rgt_dec n k then P0 else P1) = P1.
Proof. intro H. destruct (Rgt_dec n k); [contradiction | reflexivity]. Qed.

(** The polynomial branch in our own words: with n = |v|^2,
      R(v) = poly_k2 n  v v^T + poly_cos n  I + poly_k1 n  [v x],
    the Taylor polynomials in n = r^2 of the coefficients (1 - cos r)/r^2, cos r and sin r / r of the closed
    form (rv_k2, rv_cos, rv_k1 of Spec/LibSpecs.v).
    An entry is [poly_entry d s u v w n] with d = 1 on the diagonal, u v the two components of v
    that meet in the entry, and s w the entry of [v x]. *)
Definition sqnorm (x y z : R) : R := x * x + y * y + z * z.
Definition poly_cos (n : R) : R := 1 - n / 2 + n * n / 24.
Definition poly_k2 (n : R) : R := 1 / 2 - n / 24 + n * n / 720.
Definition poly_k1 (n : R) : R := 1 - n / 6 + n * n / 120.
Definition poly_entry (d s u v w n : R) : R := poly_k2 n * u * v + (d * poly_cos n + s * (poly_k1 n * w)).

(* small rotation vectors take the polynomial branch; the condition term is whatever the translator
   printed for the squared norm (it is only unfolded through the hint database, never named) *)
Lemma mfr_small x y z : sqnorm x y z < 1 / 1000000 ->
  mat_from_rotvec_m00 x y z = poly_entry 1 0 x x x (sqnorm x y z) /\
  mat_from_rotvec_m01 x y z = poly_entry 0 (-1) x y z (sqnorm x y z) /\
  mat_from_rotvec_m02 x y z = poly_entry 0 1 x z y (sqnorm x y z) /\
  mat_from_rotvec_m10 x y z = poly_entry 0 1 y x z (sqnorm x y z) /\
  mat_from_rotvec_m11 x y z = poly_entry 1 0 y y y (sqnorm x y z) /\
  mat_from_rotvec_m12 x y z = poly_entry 0 (-1) y z x (sqnorm x y z) /\
  mat_from_rotvec_m20 x y z = poly_entry 0 (-1) z x y (sqnorm x y z) /\
  mat_from_rotvec_m21 x y z = poly_entry 0 1 z y x (sqnorm x y z) /\
  mat_from_rotvec_m22 x y z = poly_entry 1 0 z z z (sqnorm x y z).
Proof.
  intro H. unfold sqnorm in H. unf_mfr.
  rewrite !if_not_gt by (repeat autounfold with mat_from_rotvec_db; lra).
  unf_p1. unfold poly_entry, poly_k2, poly_cos, poly_k1, sqnorm.
  (* wherever the squared norm is spelled this way it becomes one atom for [lra] *)
  set (n := x * x + y * y + z * z).
  repeat split; lra.
Qed.

Lemma poly_entry_0 d s : poly_entry d s 0 0 0 0 = d.
Proof. unfold poly_entry, poly_k2, poly_cos, poly_k1. field. Qed.

Lemma mfr_at_0 :
  mat_from_rotvec_m00 0 0 0 = 1 /\ mat_from_rotvec_m01 0 0 0 = 0 /\ mat_from_rotvec_m02 0 0 0 = 0 /\
  mat_from_rotvec_m10 0 0 0 = 0 /\ mat_from_rotvec_m11 0 0 0 = 1 /\ mat_from_rotvec_m12 0 0 0 = 0 /\
  mat_from_rotvec_m20 0 0 0 = 0 /\ mat_from_rotvec_m21 0 0 0 = 0 /\ mat_from_rotvec_m22 0 0 0 = 1.
Proof.
  assert (N : sqnorm 0 0 0 = 0) by (unfold sqnorm; ring).
  assert (S : sqnorm 0 0 0 < 1 / 1000000) by lra.
  destruct (mfr_small 0 0 0 S) as (-> & -> & -> & -> & -> & -> & -> & -> & ->).
  rewrite N. repeat split; apply poly_entry_0.
Qed.

(** R(v(t)) for a differentiable curve v = (a, b, c) with v(0) = 0: value I and derivative [v'(0) x] at t = 0.
    [near_id a b c a' b' c' M d sk] says so of one entry M of R, with d the entry of I and sk that of [. x];
    [rot_entry M d sk] says it along every such curve.  The nine lemmas [mfr_mij_near0] below are stated in the
    section for its curve; once the section is closed they have type [rot_entry mat_from_rotvec_mij d skewij]. *)
Definition near_id (a b c : R -> R) (a' b' c' : R) (M : R -> R -> R -> R) (d : R) (sk : R -> R -> R -> R) : Prop :=
  M (a 0) (b 0) (c 0) = d /\ is_derive (fun t => M (a t) (b t) (c t)) 0 (sk a' b' c').
Definition rot_entry (M : R -> R -> R -> R) (d : R) (sk : R -> R -> R -> R) : Prop :=
  forall (a b c : R -> R) (a' b' c' : R), a 0 = 0 -> b 0 = 0 -> c 0 = 0 ->
  is_derive a 0 a' -> is_derive b 0 b' -> is_derive c 0 c' -> near_id a b c a' b' c' M d sk.

Section Near0.
Variables (a b c : R -> R) (a' b' c' : R).
Hypothesis Ha0 : a 0 = 0.
Hypothesis Hb0 : b 0 = 0.
Hypothesis Hc0 : c 0 = 0.
Hypothesis Da : is_derive a 0 a'.
Hypothesis Db : is_derive b 0 b'.
Hypothesis Dc : is_derive c 0 c'.

Let n (t : R) : R := sqnorm (a t) (b t) (c t).

Lemma sqnorm_0 : n 0 = 0.
Proof. unfold n, sqnorm. rewrite Ha0, Hb0, Hc0. ring. Qed.

Lemma sqnorm_flat : is_derive n 0 0.
Proof.
  assert (S : forall u u', u 0 = 0 -> is_derive u 0 u' -> is_derive (fun t => u t * u t) 0 0)
    by (intros u u' U D; apply deriv0_mul_vanish; trivial; exists u'; exact D).
  unfold n, sqnorm. evar_last.
  - exact (is_derive_plus _ _ _ _ _ (is_derive_plus _ _ _ _ _ (S a a' Ha0 Da) (S b b' Hb0 Db)) (S c c' Hc0 Dc)).
  - cbv [plus]; simpl. ring.
Qed.

Lemma sqnorm_small : locally 0 (fun t => n t < 1 / 1000000).
Proof.
  assert (Hc : continuous n 0).
  { apply (ex_derive_continuous (K := R_AbsRing) (V := R_NormedModule) n 0). eexists; apply sqnorm_flat. }
  apply (Hc (fun y => y < 1 / 1000000)).
  rewrite sqnorm_0. apply (open_lt (1 / 1000000)). lra.
Qed.

Lemma poly_flat (K : R -> R) : ex_derive K 0 -> is_derive (fun t => K (n t)) 0 0.
Proof.
  intros [k HK]. evar_last.
  - apply (is_derive_comp K n 0 k 0); [|apply sqnorm_flat]. rewrite sqnorm_0. exact HK.
  - exact (Rmult_0_l k).
Qed.

(** the polynomial branch along the curve: derivative s w'(0), because n is flat at 0 and u v
    vanishes to second order *)
Lemma poly_entry_deriv (d s : R) (u v w : R -> R) (w' : R) :
  u 0 = 0 -> v 0 = 0 -> ex_derive u 0 -> ex_derive v 0 -> is_derive w 0 w' ->
  is_derive (fun t => poly_entry d s (u t) (v t) (w t) (n t)) 0 (s * w').
Proof.
  intros Hu Hv Eu Ev Dw.
  assert (Fb : is_derive (fun t => poly_k2 (n t)) 0 0) by (apply poly_flat; unfold poly_k2; auto_derive; trivial).
  assert (Fc : is_derive (fun t => poly_cos (n t)) 0 0) by (apply poly_flat; unfold poly_cos; auto_derive; trivial).
  assert (Fs : is_derive (fun t => poly_k1 (n t)) 0 0) by (apply poly_flat; unfold poly_k1; auto_derive; trivial).
  unfold poly_entry. evar_last.
  - apply (is_derive_plus (fun t => poly_k2 (n t) * u t * v t) (fun t => d * poly_cos (n t) + s * (poly_k1 (n t) * w t))).
    + apply (deriv0_mul_vanish (fun t => poly_k2 (n t) * u t) v); trivial.
      * rewrite Hu. ring.
      * apply ex_derive_mult; [eexists; exact Fb | exact Eu].
    + apply (is_derive_plus (fun t => d * poly_cos (n t)) (fun t => s * (poly_k1 (n t) * w t))).
      * apply is_derive_scal, Fc.
      * apply is_derive_scal, (is_derive_Rmult (fun t => poly_k1 (n t)) w); [exact Fs | exact Dw].
  - cbv [plus]; simpl. rewrite sqnorm_0. unfold poly_k1. field.
Qed.

(** hence for every function that agrees with the polynomial branch on small rotation vectors *)
Lemma small_entry (M : R -> R -> R -> R) (d s : R) (u v w : R -> R) (w' l : R) :
  (forall t, n t < 1 / 1000000 -> M (a t) (b t) (c t) = poly_entry d s (u t) (v t) (w t) (n t)) ->
  u 0 = 0 -> v 0 = 0 -> w 0 = 0 -> ex_derive u 0 -> ex_derive v 0 -> is_derive w 0 w' -> l = s * w' ->
  M (a 0) (b 0) (c 0) = d /\ is_derive (fun t => M (a t) (b t) (c t)) 0 l.
Proof.
  intros E Hu Hv Hw Eu Ev Dw ->. split.
  - rewrite E by (apply (locally_singleton _ _ sqnorm_small)).
    rewrite Hu, Hv, Hw, sqnorm_0. apply poly_entry_0.
  - apply (is_derive_ext_loc (fun t => poly_entry d s (u t) (v t) (w t) (n t))).
    + apply (filter_imp (fun t => n t < 1 / 1000000)); [|exact sqnorm_small].
      intros t Ht. symmetry. apply E, Ht.
    + apply poly_entry_deriv; assumption.
Qed.

Let Ea : ex_derive a 0 := ex_intro _ a' Da.
Let Eb : ex_derive b 0 := ex_intro _ b' Db.
Let Ec : ex_derive c 0 := ex_intro _ c' Dc.
Let small (t : R) (H : n t < 1 / 1000000) := mfr_small (a t) (b t) (c t) H.

Lemma mfr_m00_near0 : near_id a b c a' b' c' mat_from_rotvec_m00 1 skew00.
Proof. apply (small_entry _ 1 0 a a a a'); trivial; [apply small | unfold skew00; ring]. Qed.
Lemma mfr_m01_near0 : near_id a b c a' b' c' mat_from_rotvec_m01 0 skew01.
Proof. apply (small_entry _ 0 (-1) a b c c'); trivial; [apply small | unfold skew01; ring]. Qed.
Lemma mfr_m02_near0 : near_id a b c a' b' c' mat_from_rotvec_m02 0 skew02.
Proof. apply (small_entry _ 0 1 a c b b'); trivial; [apply small | unfold skew02; ring]. Qed.
Lemma mfr_m10_near0 : near_id a b c a' b' c' mat_from_rotvec_m10 0 skew10.
Proof. apply (small_entry _ 0 1 b a c c'); trivial; [apply small | unfold skew10; ring]. Qed.
Lemma mfr_m11_near0 : near_id a b c a' b' c' mat_from_rotvec_m11 1 skew11.
Proof. apply (small_entry _ 1 0 b b b b'); trivial; [apply small | unfold skew11; ring]. Qed.
Lemma mfr_m12_near0 : near_id a b c a' b' c' mat_from_rotvec_m12 0 skew12.
Proof. apply (small_entry _ 0 (-1) b c a a'); trivial; [apply small | unfold skew12; ring]. Qed.
Lemma mfr_m20_near0 : near_id a b c a' b' c' mat_from_rotvec_m20 0 skew20.
Proof. apply (small_entry _ 0 (-1) c a b b'); trivial; [apply small | unfold skew20; ring]. Qed.
Lemma mfr_m21_near0 : near_id a b c a' b' c' mat_from_rotvec_m21 0 skew21.
Proof. apply (small_entry _ 0 1 c b a a'); trivial; [apply small | unfold skew21; ring]. Qed.
Lemma mfr_m22_near0 : near_id a b c a' b' c' mat_from_rotvec_m22 1 skew22.
Proof. apply (small_entry _ 1 0 c c c c'); trivial; [apply small | unfold skew22; ring]. Qed.
End Near0.

(** * 4. step_zero: a step of zero length with zero increments returns the state *)

Section Zero.
Variables lat lon alt VN VE VD C00 C01 C02 C10 C11 C12 C20 C21 C22 th0 th1 th2 : R.
Notation DT0 f := (f 0 lat lon alt VN VE VD C00 C01 C02 C10 C11 C12 C20 C21 C22) (only parsing).

Ltac zero_pv := unfold h_newlat, h_newlon, h_newalt, h_newVN, h_newVE, h_newVD, h_dvn; rat_eq.

Lemma hand_VN_zero : DT0 hand_VN th0 th1 th2 0 0 0 = VN.
Proof. unfold hand_VN. zero_pv. Qed.
Lemma hand_VE_zero : DT0 hand_VE th0 th1 th2 0 0 0 = VE.
Proof. unfold hand_VE. zero_pv. Qed.
Lemma hand_VD_zero : DT0 hand_VD th0 th1 th2 0 0 0 = VD.
Proof. unfold hand_VD. zero_pv. Qed.
Lemma hand_lat_zero : DT0 hand_lat th0 th1 th2 0 0 0 = lat.
Proof. unfold hand_lat. zero_pv. Qed.
Lemma hand_lon_zero : DT0 hand_lon th0 th1 th2 0 0 0 = lon.
Proof. unfold hand_lon. zero_pv. Qed.
Lemma hand_alt_zero : DT0 hand_alt th0 th1 th2 0 0 0 = alt.
Proof. unfold hand_alt. zero_pv. Qed.

Lemma hand_C_zero :
  DT0 hand_C00 0 0 0 0 0 0 = C00 /\ DT0 hand_C01 0 0 0 0 0 0 = C01 /\ DT0 hand_C02 0 0 0 0 0 0 = C02 /\
  DT0 hand_C10 0 0 0 0 0 0 = C10 /\ DT0 hand_C11 0 0 0 0 0 0 = C11 /\ DT0 hand_C12 0 0 0 0 0 0 = C12 /\
  DT0 hand_C20 0 0 0 0 0 0 = C20 /\ DT0 hand_C21 0 0 0 0 0 0 = C21 /\ DT0 hand_C22 0 0 0 0 0 0 = C22.
Proof.
  unfold hand_C00, hand_C01, hand_C02, hand_C10, hand_C11, hand_C12, hand_C20, hand_C21, hand_C22,
    hand_xi1, hand_xi2, hand_xi3, h_xi1, h_xi2, h_xi3.
  rewrite !Rmult_0_r. unfold h_att. destruct mfr_at_0 as (-> & -> & -> & -> & -> & -> & -> & -> & ->).
  unfold h_rc. repeat split; lra.
Qed.
End Zero.

Lemma step_zero (lat lon alt VN VE VD C00 C01 C02 C10 C11 C12 C20 C21 C22 : R) :
  step3d_lat 0 lat lon alt VN VE VD C00 C01 C02 C10 C11 C12 C20 C21 C22 0 0 0 0 0 0 = lat /\
  step3d_lon 0 lat lon alt VN VE VD C00 C01 C02 C10 C11 C12 C20 C21 C22 0 0 0 0 0 0 = lon /\
  step3d_alt 0 lat lon alt VN VE VD C00 C01 C02 C10 C11 C12 C20 C21 C22 0 0 0 0 0 0 = alt /\
  step3d_VN 0 lat lon alt VN VE VD C00 C01 C02 C10 C11 C12 C20 C21 C22 0 0 0 0 0 0 = VN /\
  step3d_VE 0 lat lon alt VN VE VD C00 C01 C02 C10 C11 C12 C20 C21 C22 0 0 0 0 0 0 = VE /\
  step3d_VD 0 lat lon alt VN VE VD C00 C01 C02 C10 C11 C12 C20 C21 C22 0 0 0 0 0 0 = VD /\
  step3d_C00 0 lat lon alt VN VE VD C00 C01 C02 C10 C11 C12 C20 C21 C22 0 0 0 0 0 0 = C00 /\
  step3d_C01 0 lat lon alt VN VE VD C00 C01 C02 C10 C11 C12 C20 C21 C22 0 0 0 0 0 0 = C01 /\
  step3d_C02 0 lat lon alt VN VE VD C00 C01 C02 C10 C11 C12 C20 C21 C22 0 0 0 0 0 0 = C02 /\
  step3d_C10 0 lat lon alt VN VE VD C00 C01 C02 C10 C11 C12 C20 C21 C22 0 0 0 0 0 0 = C10 /\
  step3d_C11 0 lat lon alt VN VE VD C00 C01 C02 C10 C11 C12 C20 C21 C22 0 0 0 0 0 0 = C11 /\
  step3d_C12 0 lat lon alt VN VE VD C00 C01 C02 C10 C11 C12 C20 C21 C22 0 0 0 0 0 0 = C12 /\
  step3d_C20 0 lat lon alt VN VE VD C00 C01 C02 C10 C11 C12 C20 C21 C22 0 0 0 0 0 0 = C20 /\
  step3d_C21 0 lat lon alt VN VE VD C00 C01 C02 C10 C11 C12 C20 C21 C22 0 0 0 0 0 0 = C21 /\
  step3d_C22 0 lat lon alt VN VE VD C00 C01 C02 C10 C11 C12 C20 C21 C22 0 0 0 0 0 0 = C22.
Proof.
  rewrite step3d_lat_char, step3d_lon_char, step3d_alt_char, step3d_VN_char, step3d_VE_char, step3d_VD_char,
    step3d_C00_char, step3d_C01_char, step3d_C02_char, step3d_C10_char, step3d_C11_char, step3d_C12_char,
    step3d_C20_char, step3d_C21_char, step3d_C22_char.
  rewrite hand_lat_zero, hand_lon_zero, hand_alt_zero, hand_VN_zero, hand_VE_zero, hand_VD_zero.
  pose proof (hand_C_zero lat lon alt VN VE VD C00 C01 C02 C10 C11 C12 C20 C21 C22) as H.
  repeat split; try reflexivity; apply H.
Qed.

(** * 5. step_consistent: first-order consistency with the navigation ODE *)

Section Consistent.
Variables lat lon alt VN VE VD C00 C01 C02 C10 C11 C12 C20 C21 C22 w0 w1 w2 f0 f1 f2 : R.
Variables th0 th1 th2 dv0 dv1 dv2 : R -> R.
Hypothesis Hlat : -90 < lat < 90.
Hypothesis Halt : -1000000 <= alt.
Hypothesis Hth0 : th0 0 = 0.
Hypothesis Hth1 : th1 0 = 0.
Hypothesis Hth2 : th2 0 = 0.
Hypothesis Hdv0 : dv0 0 = 0.
Hypothesis Hdv1 : dv1 0 = 0.
Hypothesis Hdv2 : dv2 0 = 0.
Hypothesis Dth0 : is_derive th0 0 w0.
Hypothesis Dth1 : is_derive th1 0 w1.
Hypothesis Dth2 : is_derive th2 0 w2.
Hypothesis Ddv0 : is_derive dv0 0 f0.
Hypothesis Ddv1 : is_derive dv1 0 f1.
Hypothesis Ddv2 : is_derive dv2 0 f2.

Notation CURVE f :=
  (fun dt : R => f dt lat lon alt VN VE VD C00 C01 C02 C10 C11 C12 C20 C21 C22
                   (th0 dt) (th1 dt) (th2 dt) (dv0 dt) (dv1 dt) (dv2 dt)) (only parsing).
Notation RHS f := (f lat lon alt VN VE VD C00 C01 C02 C10 C11 C12 C20 C21 C22 w0 w1 w2 f0 f1 f2) (only parsing).

Ltac radii := pose proof (h_rn_pos lat alt Halt); pose proof (h_re_pos lat alt Halt); pose proof (h_cos_pos lat Hlat).
(* side conditions of [field] and [auto_derive] after [radii]: the denominators are h_rn, h_re, h_cos
   (positive by the hypotheses that [radii] has posed), PI and A_ *)
Ltac nz := repeat split; try (apply Rgt_not_eq; assumption); try apply PI_neq0; try (unfold A_; lra).

(* the slow quantities of the hand model in the words of the specification *)
Ltac to_spec :=
  unfold h_chi1, h_chi2, h_chi3, h_Om2;
  rewrite ?(h_rho1_eq lat alt VN VE), ?(h_rho2_eq lat alt VN VE), ?(h_rho3_eq lat alt VN VE Hlat),
          ?(h_Om1_eq lat Hlat), ?h_Om3_eq.

Lemma d_dvn (c0 c1 c2 : R) :
  is_derive (fun t => h_dvn c0 c1 c2 (dv0 t) (dv1 t) (dv2 t)) 0 (dot3 c0 c1 c2 f0 f1 f2).
Proof. exact (rc_const_deriv c0 c1 c2 dv0 dv1 dv2 f0 f1 f2 0 Ddv0 Ddv1 Ddv2). Qed.

Lemma dvn_0 (c0 c1 c2 : R) : h_dvn c0 c1 c2 (dv0 0) (dv1 0) (dv2 0) = 0.
Proof. rewrite Hdv0, Hdv1, Hdv2. unfold h_dvn. ring. Qed.

Lemma d_hand_VN : is_derive (CURVE hand_VN) 0 (RHS nav_rhs_VN).
Proof.
  unfold hand_VN, h_newVN. evar_last.
  - refine (deriv0_affine _ _ _ _ (d_dvn C00 C01 C02) _).
    unfold h_dvn. auto_derive. repeat split; trivial; eexists; eassumption.
  - cbv beta. rewrite !dvn_0. to_spec.
    unfold nav_rhs_VN, nav_cor_N, nav_cor_E, nav_cor_D, nav_Omega_E, cross0. ring.
Qed.
Lemma d_hand_VE : is_derive (CURVE hand_VE) 0 (RHS nav_rhs_VE).
Proof.
  unfold hand_VE, h_newVE. evar_last.
  - refine (deriv0_affine _ _ _ _ (d_dvn C10 C11 C12) _).
    unfold h_dvn. auto_derive. repeat split; trivial; eexists; eassumption.
  - cbv beta. rewrite !dvn_0. to_spec.
    unfold nav_rhs_VE, nav_cor_N, nav_cor_E, nav_cor_D, nav_Omega_E, cross1. ring.
Qed.
Lemma d_hand_VD : is_derive (CURVE hand_VD) 0 (RHS nav_rhs_VD).
Proof.
  unfold hand_VD, h_newVD. evar_last.
  - refine (deriv0_affine _ _ _ _ (d_dvn C20 C21 C22) _).
    unfold h_dvn, h_gravity. auto_derive. repeat split; trivial; eexists; eassumption.
  - cbv beta. rewrite !dvn_0. to_spec.
    unfold nav_rhs_VD, nav_cor_N, nav_cor_E, nav_cor_D, nav_Omega_E, cross2.
    rewrite <- h_gravity_eq. replace (alt - 1 / 2 * VD * 0) with alt by ring. ring.
Qed.

Lemma hand_V_dt0 : (CURVE hand_VN) 0 = VN /\ (CURVE hand_VE) 0 = VE /\ (CURVE hand_VD) 0 = VD.
Proof. cbv beta. rewrite Hdv0, Hdv1, Hdv2. repeat split; [apply hand_VN_zero | apply hand_VE_zero | apply hand_VD_zero]. Qed.

Lemma hand_xi_dt0 :
  (CURVE hand_xi1) 0 = 0 /\ (CURVE hand_xi2) 0 = 0 /\ (CURVE hand_xi3) 0 = 0.
Proof. cbv beta. unfold hand_xi1, hand_xi2, hand_xi3, h_xi1, h_xi2, h_xi3. repeat split; lra. Qed.

(* position and frame rotation: x + Phi(averaged velocity) dt *)
Lemma d_hand_alt : is_derive (CURVE hand_alt) 0 (RHS nav_rhs_alt).
Proof.
  apply (deriv0_avg_step _ (fun u => - u) (CURVE hand_VD) alt VD);
    [intro t; unfold hand_alt, h_newalt, hand_VDa; ring | eexists; exact d_hand_VD | apply hand_V_dt0 | auto_derive; trivial | reflexivity].
Qed.
Lemma d_hand_lat : is_derive (CURVE hand_lat) 0 (RHS nav_rhs_lat).
Proof.
  radii.
  apply (deriv0_avg_step _ (fun u => - (180 / PI * h_rho2 lat alt u)) (CURVE hand_VN) lat VN);
    [intro t; unfold hand_lat, h_newlat, hand_VNa; ring | eexists; exact d_hand_VN | apply hand_V_dt0 | unfold h_rho2; auto_derive; nz | ].
  unfold nav_rhs_lat, r2d, h_rho2. rewrite <- h_rn_eq. field. nz.
Qed.
Lemma d_hand_lon : is_derive (CURVE hand_lon) 0 (RHS nav_rhs_lon).
Proof.
  radii.
  apply (deriv0_avg_step _ (fun u => 180 / PI * h_rho1 lat alt u / h_cos lat) (CURVE hand_VE) lon VE);
    [intro t; unfold hand_lon, h_newlon, hand_VEa; ring | eexists; exact d_hand_VE | apply hand_V_dt0 | unfold h_rho1; auto_derive; nz | ].
  unfold nav_rhs_lon, r2d, h_rho1. rewrite <- h_re_eq, <- (h_cos_eq lat Hlat). field. nz.
Qed.

(* the rotation vector of the navigation frame: xi(0) = 0, xi'(0) = - (Omega + rho) *)
Lemma d_hand_xi1 : is_derive (CURVE hand_xi1) 0 (- nav_om_N lat alt VN VE).
Proof.
  radii.
  apply (deriv0_avg_step _ (fun u => - h_chi1 lat alt u) (CURVE hand_VE) 0 VE);
    [intro t; unfold hand_xi1, h_xi1, hand_VEa; ring | eexists; exact d_hand_VE | apply hand_V_dt0 | unfold h_chi1, h_rho1; auto_derive; nz | ].
  to_spec. reflexivity.
Qed.
Lemma d_hand_xi2 : is_derive (CURVE hand_xi2) 0 (- nav_om_E lat alt VN VE).
Proof.
  radii.
  apply (deriv0_avg_step _ (fun u => - h_chi2 lat alt u) (CURVE hand_VN) 0 VN);
    [intro t; unfold hand_xi2, h_xi2, hand_VNa; ring | eexists; exact d_hand_VN | apply hand_V_dt0 | unfold h_chi2, h_rho2; auto_derive; nz | ].
  to_spec. reflexivity.
Qed.
Lemma d_hand_xi3 : is_derive (CURVE hand_xi3) 0 (- nav_om_D lat alt VN VE).
Proof.
  radii.
  apply (deriv0_avg_step _ (fun u => - h_chi3 lat alt u) (CURVE hand_VE) 0 VE);
    [intro t; unfold hand_xi3, h_xi3, hand_VEa; ring | eexists; exact d_hand_VE | apply hand_V_dt0 | unfold h_chi3, h_rho3, h_rho1; auto_derive; nz | ].
  to_spec. reflexivity.
Qed.

(** derivative at 0 of an entry of  C_new = R(xi(t)) (C R(theta(t))),  built from any six entries of R:
    the entry of  [xi' x] C + C [theta' x]  *)
Lemma att_entry_deriv {Ma Mb Mc Mx My Mz ska skb skc skx sky skz : R -> R -> R -> R} {da db dc dx dy dz : R} :
  rot_entry Ma da ska -> rot_entry Mb db skb -> rot_entry Mc dc skc ->
  rot_entry Mx dx skx -> rot_entry My dy sky -> rot_entry Mz dz skz ->
  is_derive (fun dt => h_att Ma Mb Mc Mx My Mz ((CURVE hand_xi1) dt) ((CURVE hand_xi2) dt) ((CURVE hand_xi3) dt)
                             C00 C01 C02 C10 C11 C12 C20 C21 C22 (th0 dt) (th1 dt) (th2 dt)) 0
    (h_rc (ska (- nav_om_N lat alt VN VE) (- nav_om_E lat alt VN VE) (- nav_om_D lat alt VN VE))
          (skb (- nav_om_N lat alt VN VE) (- nav_om_E lat alt VN VE) (- nav_om_D lat alt VN VE))
          (skc (- nav_om_N lat alt VN VE) (- nav_om_E lat alt VN VE) (- nav_om_D lat alt VN VE))
          (h_rc C00 C01 C02 dx dy dz) (h_rc C10 C11 C12 dx dy dz) (h_rc C20 C21 C22 dx dy dz)
     + h_rc da db dc (h_rc C00 C01 C02 (skx w0 w1 w2) (sky w0 w1 w2) (skz w0 w1 w2))
                     (h_rc C10 C11 C12 (skx w0 w1 w2) (sky w0 w1 w2) (skz w0 w1 w2))
                     (h_rc C20 C21 C22 (skx w0 w1 w2) (sky w0 w1 w2) (skz w0 w1 w2))).
Proof.
  intros HA HB HC HX HY HZ. destruct hand_xi_dt0 as (X1 & X2 & X3).
  destruct (HA _ _ _ _ _ _ X1 X2 X3 d_hand_xi1 d_hand_xi2 d_hand_xi3) as [Va DA].
  destruct (HB _ _ _ _ _ _ X1 X2 X3 d_hand_xi1 d_hand_xi2 d_hand_xi3) as [Vb DB].
  destruct (HC _ _ _ _ _ _ X1 X2 X3 d_hand_xi1 d_hand_xi2 d_hand_xi3) as [Vc DC].
  destruct (HX _ _ _ _ _ _ Hth0 Hth1 Hth2 Dth0 Dth1 Dth2) as [Vx DX].
  destruct (HY _ _ _ _ _ _ Hth0 Hth1 Hth2 Dth0 Dth1 Dth2) as [Vy DY].
  destruct (HZ _ _ _ _ _ _ Hth0 Hth1 Hth2 Dth0 Dth1 Dth2) as [Vz DZ].
  unfold h_att. evar_last.
  - exact (rc_deriv _ _ _ _ _ _ _ _ _ _ _ _ 0 DA DB DC
             (rc_const_deriv C00 C01 C02 _ _ _ _ _ _ 0 DX DY DZ) (rc_const_deriv C10 C11 C12 _ _ _ _ _ _ 0 DX DY DZ)
             (rc_const_deriv C20 C21 C22 _ _ _ _ _ _ 0 DX DY DZ)).
  - cbv beta. rewrite Va, Vb, Vc, Vx, Vy, Vz. reflexivity.
Qed.

(* [using All]: the three lemmas are used with one and the same list of premises (Props/C01.v); left to itself
   each would keep only the section hypotheses that its own proof mentions (the position needs none about theta) *)
Lemma step_consistent_position :
  is_derive (CURVE step3d_lat) 0 (RHS nav_rhs_lat) /\ is_derive (CURVE step3d_lon) 0 (RHS nav_rhs_lon) /\
  is_derive (CURVE step3d_alt) 0 (RHS nav_rhs_alt).
Proof using All.
  split; [|split].
  - eapply is_derive_via; [intro; apply step3d_lat_char | exact d_hand_lat].
  - eapply is_derive_via; [intro; apply step3d_lon_char | exact d_hand_lon].
  - eapply is_derive_via; [intro; apply step3d_alt_char | exact d_hand_alt].
Qed.

Lemma step_consistent_velocity :
  is_derive (CURVE step3d_VN) 0 (RHS nav_rhs_VN) /\ is_derive (CURVE step3d_VE) 0 (RHS nav_rhs_VE) /\
  is_derive (CURVE step3d_VD) 0 (RHS nav_rhs_VD).
Proof using All.
  split; [|split].
  - eapply is_derive_via; [intro; apply step3d_VN_char | exact d_hand_VN].
  - eapply is_derive_via; [intro; apply step3d_VE_char | exact d_hand_VE].
  - eapply is_derive_via; [intro; apply step3d_VD_char | exact d_hand_VD].
Qed.

Ltac att_lra :=
  unfold nav_rhs_C00, nav_rhs_C01, nav_rhs_C02, nav_rhs_C10, nav_rhs_C11, nav_rhs_C12, nav_rhs_C20, nav_rhs_C21, nav_rhs_C22,
    h_rc, dot3, skew00, skew01, skew02, skew10, skew11, skew12, skew20, skew21, skew22; lra.

Lemma step_consistent_attitude :
  is_derive (CURVE step3d_C00) 0 (RHS nav_rhs_C00) /\ is_derive (CURVE step3d_C01) 0 (RHS nav_rhs_C01) /\
  is_derive (CURVE step3d_C02) 0 (RHS nav_rhs_C02) /\ is_derive (CURVE step3d_C10) 0 (RHS nav_rhs_C10) /\
  is_derive (CURVE step3d_C11) 0 (RHS nav_rhs_C11) /\ is_derive (CURVE step3d_C12) 0 (RHS nav_rhs_C12) /\
  is_derive (CURVE step3d_C20) 0 (RHS nav_rhs_C20) /\ is_derive (CURVE step3d_C21) 0 (RHS nav_rhs_C21) /\
  is_derive (CURVE step3d_C22) 0 (RHS nav_rhs_C22).
Proof using All.
  split; [|split; [|split; [|split; [|split; [|split; [|split; [|split]]]]]]].
  - eapply is_derive_via; [intro; apply step3d_C00_char|].
    evar_last; [exact (att_entry_deriv mfr_m00_near0 mfr_m01_near0 mfr_m02_near0 mfr_m00_near0 mfr_m10_near0 mfr_m20_near0)|]. att_lra.
  - eapply is_derive_via; [intro; apply step3d_C01_char|].
    evar_last; [exact (att_entry_deriv mfr_m00_near0 mfr_m01_near0 mfr_m02_near0 mfr_m01_near0 mfr_m11_near0 mfr_m21_near0)|]. att_lra.
  - eapply is_derive_via; [intro; apply step3d_C02_char|].
    evar_last; [exact (att_entry_deriv mfr_m00_near0 mfr_m01_near0 mfr_m02_near0 mfr_m02_near0 mfr_m12_near0 mfr_m22_near0)|]. att_lra.
  - eapply is_derive_via; [intro; apply step3d_C10_char|].
    evar_last; [exact (att_entry_deriv mfr_m10_near0 mfr_m11_near0 mfr_m12_near0 mfr_m00_near0 mfr_m10_near0 mfr_m20_near0)|]. att_lra.
  - eapply is_derive_via; [intro; apply step3d_C11_char|].
    evar_last; [exact (att_entry_deriv mfr_m10_near0 mfr_m11_near0 mfr_m12_near0 mfr_m01_near0 mfr_m11_near0 mfr_m21_near0)|]. att_lra.
  - eapply is_derive_via; [intro; apply step3d_C12_char|].
    evar_last; [exact (att_entry_deriv mfr_m10_near0 mfr_m11_near0 mfr_m12_near0 mfr_m02_near0 mfr_m12_near0 mfr_m22_near0)|]. att_lra.
  - eapply is_derive_via; [intro; apply step3d_C20_char|].
    evar_last; [exact (att_entry_deriv mfr_m20_near0 mfr_m21_near0 mfr_m22_near0 mfr_m00_near0 mfr_m10_near0 mfr_m20_near0)|]. att_lra.
  - eapply is_derive_via; [intro; apply step3d_C21_char|].
    evar_last; [exact (att_entry_deriv mfr_m20_near0 mfr_m21_near0 mfr_m22_near0 mfr_m01_near0 mfr_m11_near0 mfr_m21_near0)|]. att_lra.
  - eapply is_derive_via; [intro; apply step3d_C22_char|].
    evar_last; [exact (att_entry_deriv mfr_m20_near0 mfr_m21_near0 mfr_m22_near0 mfr_m02_near0 mfr_m12_near0 mfr_m22_near0)|]. att_lra.
Qed.
End Consistent.

(** * 6. The increments computed from IMU samples satisfy the premises of step_consistent *)

(** The increments are a main term plus coning / sculling corrections, and every correction is a
    product of two curves through 0 or carries a factor dt^2: its derivative at 0 vanishes. *)

Lemma deriv0_plus_flat (c r : R -> R) (l : R) :
  is_derive c 0 l -> is_derive r 0 0 -> is_derive (fun t => c t + r t) 0 l.
Proof. intros Dc Dr. evar_last; [exact (is_derive_plus c r 0 l 0 Dc Dr) | apply Rplus_0_r]. Qed.

Lemma flat_scal (k : R) (r : R -> R) : is_derive r 0 0 -> is_derive (fun t => k * r t) 0 0.
Proof. intro Dr. evar_last; [exact (is_derive_scal r 0 k 0 Dr) | apply Rmult_0_r]. Qed.

Lemma flat_div (k : R) (r : R -> R) : is_derive r 0 0 -> is_derive (fun t => r t / k) 0 0.
Proof. intro Dr. apply (is_derive_via _ (fun t => / k * r t)); [intro t; unfold Rdiv; ring | apply flat_scal, Dr]. Qed.

Lemma flat_mul_sq (X : R -> R) (k : R) : ex_derive X 0 -> is_derive (fun t => X t * (t * t) / k) 0 0.
Proof.
  intro E. apply (is_derive_via _ (fun t => X t * / k * t * t)); [intro t; unfold Rdiv; ring|].
  evar_last; [apply (deriv0_mul_t (fun t => X t * / k * t)); auto_derive; exact E | cbv beta; ring].
Qed.

Definition thru0 (u : R -> R) : Prop := u 0 = 0 /\ ex_derive u 0.

Lemma cross_flat (u0 u1 u2 v0 v1 v2 : R -> R) :
  thru0 u0 -> thru0 u1 -> thru0 u2 -> thru0 v0 -> thru0 v1 -> thru0 v2 ->
  is_derive (fun t => h_cross0 (u0 t) (u1 t) (u2 t) (v0 t) (v1 t) (v2 t)) 0 0 /\
  is_derive (fun t => h_cross1 (u0 t) (u1 t) (u2 t) (v0 t) (v1 t) (v2 t)) 0 0 /\
  is_derive (fun t => h_cross2 (u0 t) (u1 t) (u2 t) (v0 t) (v1 t) (v2 t)) 0 0.
Proof.
  intros U0 U1 U2 V0 V1 V2.
  assert (M : forall p q, thru0 p -> thru0 q -> forall p' q', thru0 p' -> thru0 q' ->
              is_derive (fun t => p t * q t - p' t * q' t) 0 0).
  { intros p q [] [] p' q' [] []. evar_last.
    - apply (is_derive_minus (fun t => p t * q t) (fun t => p' t * q' t)); apply deriv0_mul_vanish; assumption.
    - apply Rminus_0_r. }
  unfold h_cross0, h_cross1, h_cross2. split; [|split]; apply M; assumption.
Qed.

(** rate-type sensor: samples are the signal values w(t), f(t) at the two ends of the interval;
    epoch = 0, interval length = dt *)
Lemma rate_inc_deriv (w : R -> R) :
  ex_derive w 0 -> is_derive (fun dt => h_rate_inc dt (w 0) (w dt)) 0 (w 0).
Proof.
  intro E. unfold h_rate_inc.
  evar_last; [apply (deriv0_mul_t (fun t => w 0 + 1 / 2 * (w t - w 0))); auto_derive; exact E | cbv beta; ring].
Qed.

Lemma rate_inc_thru0 (w : R -> R) : ex_derive w 0 -> thru0 (fun dt => h_rate_inc dt (w 0) (w dt)).
Proof. intro E. split; [unfold h_rate_inc; ring | eexists; apply rate_inc_deriv, E]. Qed.

Lemma increments_consistent_rate (w0 w1 w2 f0 f1 f2 : R -> R) :
  ex_derive w0 0 -> ex_derive w1 0 -> ex_derive w2 0 ->
  ex_derive f0 0 -> ex_derive f1 0 -> ex_derive f2 0 ->
  let th0 := fun dt => h_rate_theta0 dt (w0 0) (w1 0) (w2 0) (w0 dt) (w1 dt) (w2 dt) in
  let th1 := fun dt => h_rate_theta1 dt (w0 0) (w1 0) (w2 0) (w0 dt) (w1 dt) (w2 dt) in
  let th2 := fun dt => h_rate_theta2 dt (w0 0) (w1 0) (w2 0) (w0 dt) (w1 dt) (w2 dt) in
  let dv0 := fun dt => h_rate_dv0 dt (w0 0) (w1 0) (w2 0) (w0 dt) (w1 dt) (w2 dt) (f0 0) (f1 0) (f2 0) (f0 dt) (f1 dt) (f2 dt) in
  let dv1 := fun dt => h_rate_dv1 dt (w0 0) (w1 0) (w2 0) (w0 dt) (w1 dt) (w2 dt) (f0 0) (f1 0) (f2 0) (f0 dt) (f1 dt) (f2 dt) in
  let dv2 := fun dt => h_rate_dv2 dt (w0 0) (w1 0) (w2 0) (w0 dt) (w1 dt) (w2 dt) (f0 0) (f1 0) (f2 0) (f0 dt) (f1 dt) (f2 dt) in
  (th0 0 = 0 /\ th1 0 = 0 /\ th2 0 = 0 /\ dv0 0 = 0 /\ dv1 0 = 0 /\ dv2 0 = 0) /\
  (is_derive th0 0 (w0 0) /\ is_derive th1 0 (w1 0) /\ is_derive th2 0 (w2 0)) /\
  (is_derive dv0 0 (f0 0) /\ is_derive dv1 0 (f1 0) /\ is_derive dv2 0 (f2 0)).
Proof.
  intros E0 E1 E2 E3 E4 E5. cbv zeta.
  split; [|split; (split; [|split])].
  - unfold h_rate_theta0, h_rate_theta1, h_rate_theta2, h_rate_dv0, h_rate_dv1, h_rate_dv2,
      h_rate_inc, h_cross0, h_cross1, h_cross2. repeat split; lra.
  (* the three components of theta, then of dv, go the same way *)
  1-3: unfold h_rate_theta0, h_rate_theta1, h_rate_theta2;
    apply deriv0_plus_flat; [apply rate_inc_deriv; assumption|];
    apply flat_mul_sq; unfold h_cross0, h_cross1, h_cross2; auto_derive; repeat split; assumption.
  all: unfold h_rate_dv0, h_rate_dv1, h_rate_dv2; apply deriv0_plus_flat;
    [ apply deriv0_plus_flat; [apply rate_inc_deriv; assumption|];
      apply flat_mul_sq; unfold h_cross0, h_cross1, h_cross2; auto_derive; repeat split; assumption
    | apply flat_scal, cross_flat; apply rate_inc_thru0; assumption ].
Qed.

(** increment-type sensor: the samples are integrals of the signals over the previous and the current
    interval.  With an antiderivative W of the signal they are h_prv W dt (over [-dt, 0]) and
    h_cur W dt (over [0, dt]): both curves through 0, the second with derivative W'(0). *)
Lemma integral_samples (W : R -> R) (w : R) :
  is_derive W 0 w -> thru0 (h_prv W) /\ thru0 (h_cur W) /\ is_derive (h_cur W) 0 w.
Proof.
  intro D.
  assert (Dc : is_derive (h_cur W) 0 w).
  { unfold h_cur. evar_last; [exact (is_derive_minus W (fun _ => W 0) 0 w 0 D (is_derive_const (W 0) 0)) | apply Rminus_0_r]. }
  split; [|split; [split|]]; trivial.
  - unfold h_prv. split; [rewrite Ropp_0; ring|]. auto_derive. rewrite Ropp_0. exists w. exact D.
  - unfold h_cur. ring.
  - exists w. exact Dc.
Qed.

Lemma increments_consistent_increment (G0 G1 G2 F0 F1 F2 : R -> R) (w0 w1 w2 f0 f1 f2 : R) :
  is_derive G0 0 w0 -> is_derive G1 0 w1 -> is_derive G2 0 w2 ->
  is_derive F0 0 f0 -> is_derive F1 0 f1 -> is_derive F2 0 f2 ->
  let cur := h_cur in       (* cur W dt = integral of W' over [0, dt] *)
  let prv := h_prv in       (* prv W dt = integral of W' over [-dt, 0] *)
  let th0 := fun dt => h_incr_theta0 (prv G0 dt) (prv G1 dt) (prv G2 dt) (cur G0 dt) (cur G1 dt) (cur G2 dt) in
  let th1 := fun dt => h_incr_theta1 (prv G0 dt) (prv G1 dt) (prv G2 dt) (cur G0 dt) (cur G1 dt) (cur G2 dt) in
  let th2 := fun dt => h_incr_theta2 (prv G0 dt) (prv G1 dt) (prv G2 dt) (cur G0 dt) (cur G1 dt) (cur G2 dt) in
  let dv0 := fun dt => h_incr_dv0 (prv G0 dt) (prv G1 dt) (prv G2 dt) (cur G0 dt) (cur G1 dt) (cur G2 dt)
                                  (prv F0 dt) (prv F1 dt) (prv F2 dt) (cur F0 dt) (cur F1 dt) (cur F2 dt) in
  let dv1 := fun dt => h_incr_dv1 (prv G0 dt) (prv G1 dt) (prv G2 dt) (cur G0 dt) (cur G1 dt) (cur G2 dt)
                                  (prv F0 dt) (prv F1 dt) (prv F2 dt) (cur F0 dt) (cur F1 dt) (cur F2 dt) in
  let dv2 := fun dt => h_incr_dv2 (prv G0 dt) (prv G1 dt) (prv G2 dt) (cur G0 dt) (cur G1 dt) (cur G2 dt)
                                  (prv F0 dt) (prv F1 dt) (prv F2 dt) (cur F0 dt) (cur F1 dt) (cur F2 dt) in
  (th0 0 = 0 /\ th1 0 = 0 /\ th2 0 = 0 /\ dv0 0 = 0 /\ dv1 0 = 0 /\ dv2 0 = 0) /\
  (is_derive th0 0 w0 /\ is_derive th1 0 w1 /\ is_derive th2 0 w2) /\
  (is_derive dv0 0 f0 /\ is_derive dv1 0 f1 /\ is_derive dv2 0 f2).
Proof.
  intros DG0 DG1 DG2 DF0 DF1 DF2. cbv zeta.
  destruct (integral_samples G0 w0 DG0) as (Pg0 & Cg0 & Dg0). destruct (integral_samples G1 w1 DG1) as (Pg1 & Cg1 & Dg1).
  destruct (integral_samples G2 w2 DG2) as (Pg2 & Cg2 & Dg2). destruct (integral_samples F0 f0 DF0) as (Pf0 & Cf0 & Df0).
  destruct (integral_samples F1 f1 DF1) as (Pf1 & Cf1 & Df1). destruct (integral_samples F2 f2 DF2) as (Pf2 & Cf2 & Df2).
  split; [|split; (split; [|split])].
  - unfold h_prv, h_cur. rewrite Ropp_0.
    unfold h_incr_theta0, h_incr_theta1, h_incr_theta2, h_incr_dv0, h_incr_dv1, h_incr_dv2, h_cross0, h_cross1, h_cross2.
    repeat split; lra.
  1-3: unfold h_incr_theta0, h_incr_theta1, h_incr_theta2;
    apply deriv0_plus_flat; [assumption | apply flat_div, cross_flat; assumption].
  all: unfold h_incr_dv0, h_incr_dv1, h_incr_dv2; apply deriv0_plus_flat;
    [ apply deriv0_plus_flat; [assumption|]; apply flat_div, (deriv0_plus_flat _ _ 0); apply cross_flat; assumption
    | apply flat_scal, cross_flat; assumption ].
Qed.

(** the same for the GENERATED per-row formulas of compute_increments_from_imu (Gen/C01Gen.v) *)
Section IncChar.
Variables dt a0 a1 a2 e0 e1 e2 fa0 fa1 fa2 fe0 fe1 fe2 t0 : R.
Notation GARGS f := (f dt a0 a1 a2 e0 e1 e2 fa0 fa1 fa2 fe0 fe1 fe2 t0) (only parsing).
Ltac inc_char :=
  repeat autounfold with inc_rate_db inc_incr_db;
  unfold h_rate_theta0, h_rate_theta1, h_rate_theta2, h_rate_dv0, h_rate_dv1, h_rate_dv2, h_rate_inc,
    h_incr_theta0, h_incr_theta1, h_incr_theta2, h_incr_dv0, h_incr_dv1, h_incr_dv2,
    h_cross0, h_cross1, h_cross2; rat_eq.
Lemma inc_rate_odt_char : GARGS inc_rate_odt = dt.
Proof. unfold inc_rate_odt. ring. Qed.
Lemma inc_incr_odt_char : GARGS inc_incr_odt = dt.
Proof. unfold inc_incr_odt. ring. Qed.
Lemma inc_rate_th0_char : GARGS inc_rate_th0 = h_rate_theta0 dt a0 a1 a2 e0 e1 e2.
Proof. unfold inc_rate_th0. inc_char. Qed.
Lemma inc_rate_th1_char : GARGS inc_rate_th1 = h_rate_theta1 dt a0 a1 a2 e0 e1 e2.
Proof. unfold inc_rate_th1. inc_char. Qed.
Lemma inc_rate_th2_char : GARGS inc_rate_th2 = h_rate_theta2 dt a0 a1 a2 e0 e1 e2.
Proof. unfold inc_rate_th2. inc_char. Qed.
Lemma inc_rate_dv0_char : GARGS inc_rate_dv0 = h_rate_dv0 dt a0 a1 a2 e0 e1 e2 fa0 fa1 fa2 fe0 fe1 fe2.
Proof. unfold inc_rate_dv0. inc_char. Qed.
Lemma inc_rate_dv1_char : GARGS inc_rate_dv1 = h_rate_dv1 dt a0 a1 a2 e0 e1 e2 fa0 fa1 fa2 fe0 fe1 fe2.
Proof. unfold inc_rate_dv1. inc_char. Qed.
Lemma inc_rate_dv2_char : GARGS inc_rate_dv2 = h_rate_dv2 dt a0 a1 a2 e0 e1 e2 fa0 fa1 fa2 fe0 fe1 fe2.
Proof. unfold inc_rate_dv2. inc_char. Qed.
Lemma inc_incr_th0_char : GARGS inc_incr_th0 = h_incr_theta0 a0 a1 a2 e0 e1 e2.
Proof. unfold inc_incr_th0. inc_char. Qed.
Lemma inc_incr_th1_char : GARGS inc_incr_th1 = h_incr_theta1 a0 a1 a2 e0 e1 e2.
Proof. unfold inc_incr_th1. inc_char. Qed.
Lemma inc_incr_th2_char : GARGS inc_incr_th2 = h_incr_theta2 a0 a1 a2 e0 e1 e2.
Proof. unfold inc_incr_th2. inc_char. Qed.
Lemma inc_incr_dv0_char : GARGS inc_incr_dv0 = h_incr_dv0 a0 a1 a2 e0 e1 e2 fa0 fa1 fa2 fe0 fe1 fe2.
Proof. unfold inc_incr_dv0. inc_char. Qed.
Lemma inc_incr_dv1_char : GARGS inc_incr_dv1 = h_incr_dv1 a0 a1 a2 e0 e1 e2 fa0 fa1 fa2 fe0 fe1 fe2.
Proof. unfold inc_incr_dv1. inc_char. Qed.
Lemma inc_incr_dv2_char : GARGS inc_incr_dv2 = h_incr_dv2 a0 a1 a2 e0 e1 e2 fa0 fa1 fa2 fe0 fe1 fe2.
Proof. unfold inc_incr_dv2. inc_char. Qed.
End IncChar.

(** rate-type sensor, generated formulas: epoch t0, samples w(t0), w(t0 + dt), f(t0), f(t0 + dt) *)
Lemma increments_consistent_rate_gen (w0 w1 w2 f0 f1 f2 : R -> R) (t0 : R) :
  ex_derive w0 t0 -> ex_derive w1 t0 -> ex_derive w2 t0 ->
  ex_derive f0 t0 -> ex_derive f1 t0 -> ex_derive f2 t0 ->
  let row := fun (out : R -> R -> R -> R -> R -> R -> R -> R -> R -> R -> R -> R -> R -> R -> R) (dt : R) =>
    out dt (w0 t0) (w1 t0) (w2 t0) (w0 (t0 + dt)) (w1 (t0 + dt)) (w2 (t0 + dt))
           (f0 t0) (f1 t0) (f2 t0) (f0 (t0 + dt)) (f1 (t0 + dt)) (f2 (t0 + dt)) t0 in
  (forall dt, row inc_rate_odt dt = dt) /\
  (row inc_rate_th0 0 = 0 /\ row inc_rate_th1 0 = 0 /\ row inc_rate_th2 0 = 0 /\
   row inc_rate_dv0 0 = 0 /\ row inc_rate_dv1 0 = 0 /\ row inc_rate_dv2 0 = 0) /\
  (is_derive (row inc_rate_th0) 0 (w0 t0) /\ is_derive (row inc_rate_th1) 0 (w1 t0) /\
   is_derive (row inc_rate_th2) 0 (w2 t0)) /\
  (is_derive (row inc_rate_dv0) 0 (f0 t0) /\ is_derive (row inc_rate_dv1) 0 (f1 t0) /\
   is_derive (row inc_rate_dv2) 0 (f2 t0)).
Proof.
  intros E0 E1 E2 E3 E4 E5. cbv zeta.
  (* shift the epoch to 0 *)
  assert (S : forall g : R -> R, ex_derive g t0 -> ex_derive (fun s => g (t0 + s)) 0).
  { intros g Hg. auto_derive. replace (t0 + 0) with t0 by ring. exact Hg. }
  pose proof (increments_consistent_rate (fun s => w0 (t0 + s)) (fun s => w1 (t0 + s)) (fun s => w2 (t0 + s))
                (fun s => f0 (t0 + s)) (fun s => f1 (t0 + s)) (fun s => f2 (t0 + s))
                (S _ E0) (S _ E1) (S _ E2) (S _ E3) (S _ E4) (S _ E5)) as H.
  cbv zeta beta in H. replace (t0 + 0) with t0 in H by ring.
  destruct H as [[Z0 [Z1 [Z2 [Z3 [Z4 Z5]]]]] [[T0 [T1 T2]] [V0 [V1 V2]]]].
  split; [intro dt; apply inc_rate_odt_char|].
  split; [rewrite inc_rate_th0_char, inc_rate_th1_char, inc_rate_th2_char,
            inc_rate_dv0_char, inc_rate_dv1_char, inc_rate_dv2_char;
          replace (t0 + 0) with t0 by ring; repeat split; assumption|].
  split; (split; [|split]).
  - eapply is_derive_via; [intro; apply inc_rate_th0_char | exact T0].
  - eapply is_derive_via; [intro; apply inc_rate_th1_char | exact T1].
  - eapply is_derive_via; [intro; apply inc_rate_th2_char | exact T2].
  - eapply is_derive_via; [intro; apply inc_rate_dv0_char | exact V0].
  - eapply is_derive_via; [intro; apply inc_rate_dv1_char | exact V1].
  - eapply is_derive_via; [intro; apply inc_rate_dv2_char | exact V2].
Qed.

(** increment-type sensor, generated formulas: G, F antiderivatives of the signals around the epoch 0;
    previous-row sample = integral over [-dt, 0], current-row sample = integral over [0, dt] *)
Lemma increments_consistent_increment_gen (G0 G1 G2 F0 F1 F2 : R -> R) (w0 w1 w2 f0 f1 f2 t0 : R) :
  is_derive G0 0 w0 -> is_derive G1 0 w1 -> is_derive G2 0 w2 ->
  is_derive F0 0 f0 -> is_derive F1 0 f1 -> is_derive F2 0 f2 ->
  let row := fun (out : R -> R -> R -> R -> R -> R -> R -> R -> R -> R -> R -> R -> R -> R -> R) (dt : R) =>
    out dt (h_prv G0 dt) (h_prv G1 dt) (h_prv G2 dt) (h_cur G0 dt) (h_cur G1 dt) (h_cur G2 dt)
           (h_prv F0 dt) (h_prv F1 dt) (h_prv F2 dt) (h_cur F0 dt) (h_cur F1 dt) (h_cur F2 dt) t0 in
  (forall dt, row inc_incr_odt dt = dt) /\
  (row inc_incr_th0 0 = 0 /\ row inc_incr_th1 0 = 0 /\ row inc_incr_th2 0 = 0 /\
   row inc_incr_dv0 0 = 0 /\ row inc_incr_dv1 0 = 0 /\ row inc_incr_dv2 0 = 0) /\
  (is_derive (row inc_incr_th0) 0 w0 /\ is_derive (row inc_incr_th1) 0 w1 /\ is_derive (row inc_incr_th2) 0 w2) /\
  (is_derive (row inc_incr_dv0) 0 f0 /\ is_derive (row inc_incr_dv1) 0 f1 /\ is_derive (row inc_incr_dv2) 0 f2).
Proof.
  intros D0 D1 D2 D3 D4 D5. cbv zeta.
  pose proof (increments_consistent_increment G0 G1 G2 F0 F1 F2 w0 w1 w2 f0 f1 f2 D0 D1 D2 D3 D4 D5) as H.
  cbv zeta beta in H.
  destruct H as [[Z0 [Z1 [Z2 [Z3 [Z4 Z5]]]]] [[T0 [T1 T2]] [V0 [V1 V2]]]].
  split; [intro dt; apply inc_incr_odt_char|].
  split; [rewrite inc_incr_th0_char, inc_incr_th1_char, inc_incr_th2_char,
            inc_incr_dv0_char, inc_incr_dv1_char, inc_incr_dv2_char; repeat split; assumption|].
  split; (split; [|split]).
  - eapply is_derive_via; [intro; apply inc_incr_th0_char | exact T0].
  - eapply is_derive_via; [intro; apply inc_incr_th1_char | exact T1].
  - eapply is_derive_via; [intro; apply inc_incr_th2_char | exact T2].
  - eapply is_derive_via; [intro; apply inc_incr_dv0_char | exact V0].
  - eapply is_derive_via; [intro; apply inc_incr_dv1_char | exact V1].
  - eapply is_derive_via; [intro; apply inc_incr_dv2_char | exact V2].
Qed.

(** * 7. One-step methods: stability + local error O(h^2) => global error O(h) (discrete Gronwall) *)

Section OneStep.
Variable X : Type.
Variable dist : X -> X -> R.
Variable D : X -> Prop.                (* the region on which the step is known to be stable *)
Variable Phi : nat -> X -> X.          (* the n-th step of length h (inputs may differ per step) *)
Variable sol : R -> X.
Variables L C T h : R.
Hypothesis dist_triangle : forall x y z, dist x z <= dist x y + dist y z.
Hypothesis dist_refl : forall x, dist x x = 0.
Hypothesis HL : 0 < L.
Hypothesis HC : 0 <= C.
Hypothesis Hh : 0 < h.
Hypothesis stability : forall n x y, D x -> D y -> dist (Phi n x) (Phi n y) <= (1 + L * h) * dist x y.
Hypothesis local_error : forall n, INR (S n) * h <= T ->
  dist (Phi n (sol (INR n * h))) (sol (INR (S n) * h)) <= C * (h * h).
Hypothesis sol_in_D : forall n, INR n * h <= T -> D (sol (INR n * h)).
Hypothesis num_in_D : forall n, INR n * h <= T -> D (onestep_run Phi (sol 0) n).

Lemma global_error_pow (n : nat) : INR n * h <= T ->
  dist (onestep_run Phi (sol 0) n) (sol (INR n * h)) <= C * h / L * ((1 + L * h) ^ n - 1).
Proof using All.
  induction n as [|n IH]; intro Hn.
  - simpl. rewrite Rmult_0_l, dist_refl. lra.
  - assert (Hn' : INR n * h <= T) by (rewrite S_INR in Hn; nra).
    specialize (IH Hn').
    cbn [onestep_run].
    eapply Rle_trans; [apply (dist_triangle _ (Phi n (sol (INR n * h))))|].
    pose proof (stability n _ _ (num_in_D n Hn') (sol_in_D n Hn')) as Hs.
    pose proof (local_error n Hn) as Hl.
    assert (Hq : 0 < 1 + L * h) by nra.
    assert (Hm : (1 + L * h) * dist (onestep_run Phi (sol 0) n) (sol (INR n * h)) <=
                 (1 + L * h) * (C * h / L * ((1 + L * h) ^ n - 1))).
    { apply Rmult_le_compat_l; lra. }
    replace (C * h / L * ((1 + L * h) ^ S n - 1))
      with ((1 + L * h) * (C * h / L * ((1 + L * h) ^ n - 1)) + C * (h * h)) by (simpl; field; lra).
    lra.
Qed.

Lemma pow_le_exp (n : nat) : INR n * h <= T -> (1 + L * h) ^ n <= exp (L * T).
Proof using HL Hh.
  intro Hn.
  assert (H1 : (1 + L * h) ^ n <= exp (L * h) ^ n).
  { apply pow_incr. split; [nra | apply exp_ineq1_le]. }
  assert (H2 : exp (L * h) ^ n = exp (INR n * (L * h))).
  { clear. induction n as [|n IH]; [simpl; rewrite Rmult_0_l, exp_0; reflexivity|].
    rewrite S_INR. simpl. rewrite IH, <- exp_plus. f_equal. ring. }
  rewrite H2 in H1. eapply Rle_trans; [exact H1|].
  destruct (Req_dec (INR n * (L * h)) (L * T)) as [E|NE]; [rewrite E; lra|].
  left. apply exp_increasing. assert (INR n * (L * h) <= L * T) by nra. lra.
Qed.

End OneStep.

Lemma one_step_convergence (X : Type) (dist : X -> X -> R) (D : X -> Prop)
      (Phi : nat -> X -> X) (sol : R -> X) (L C T h : R) :
  (forall x y z, dist x z <= dist x y + dist y z) -> (forall x, dist x x = 0) ->
  0 < L -> 0 <= C -> 0 < h ->
  (forall n x y, D x -> D y -> dist (Phi n x) (Phi n y) <= (1 + L * h) * dist x y) ->
  (forall n, INR (S n) * h <= T -> dist (Phi n (sol (INR n * h))) (sol (INR (S n) * h)) <= C * (h * h)) ->
  (forall n, INR n * h <= T -> D (sol (INR n * h))) ->
  (forall n, INR n * h <= T -> D (onestep_run Phi (sol 0) n)) ->
  forall n, INR n * h <= T ->
  dist (onestep_run Phi (sol 0) n) (sol (INR n * h)) <= C * h * (exp (L * T) - 1) / L.
Proof.
  intros Tri Refl HL HC Hh Stab Loc SD ND n Hn.
  pose proof (global_error_pow X dist D Phi sol L C T h Tri Refl HL HC Hh Stab Loc SD ND n Hn) as H.
  pose proof (pow_le_exp L T h HL Hh n Hn) as Hp.
  assert (0 <= C * h / L).
  { apply Rmult_le_pos; [nra | left; apply Rinv_0_lt_compat; exact HL]. }
  replace (C * h * (exp (L * T) - 1) / L) with (C * h / L * (exp (L * T) - 1)) by (field; lra).
  nra.
Qed.

Lemma bound_tends_to_zero (L C T eps : R) : 0 < L -> 0 <= C -> 0 <= T -> 0 < eps ->
  exists h0, 0 < h0 /\ forall h, 0 < h < h0 -> C * h * (exp (L * T) - 1) / L < eps.
Proof.
  intros HL HC HT He.
  assert (HE : 0 <= exp (L * T) - 1).
  { pose proof (exp_ineq1_le (L * T)). assert (0 <= L * T) by nra. lra. }
  exists (eps * L / (C * (exp (L * T) - 1) + 1)).
  assert (Hd : 0 < C * (exp (L * T) - 1) + 1) by nra.
  split.
  - apply Rdiv_lt_0_compat; nra.
  - intros h [Hh0 Hh1].
    apply Rmult_lt_reg_r with L; [exact HL|].
    replace (C * h * (exp (L * T) - 1) / L * L) with (h * (C * (exp (L * T) - 1))) by (field; lra).
    assert (h * (C * (exp (L * T) - 1) + 1) < eps * L).
    { apply Rmult_lt_reg_r with (/ (C * (exp (L * T) - 1) + 1)); [apply Rinv_0_lt_compat; exact Hd|].
      replace (h * (C * (exp (L * T) - 1) + 1) * / (C * (exp (L * T) - 1) + 1)) with h by (field; lra).
      replace (eps * L * / (C * (exp (L * T) - 1) + 1)) with (eps * L / (C * (exp (L * T) - 1) + 1))
        by (unfold Rdiv; ring).
      exact Hh1. }
    nra.
Qed.

(** ** The kernel as a one-step method on 15-tuples *)

Lemma abs_tri (a b c : R) : Rabs (a - c) <= Rabs (a - b) + Rabs (b - c).
Proof. replace (a - c) with ((a - b) + (b - c)) by ring. apply Rabs_triang. Qed.

Lemma kdist_triangle (x y z : kstate) : kdist x z <= kdist x y + kdist y z.
Proof.
  unfold kdist.
  pose proof (abs_tri (k_lat x) (k_lat y) (k_lat z)). pose proof (abs_tri (k_lon x) (k_lon y) (k_lon z)).
  pose proof (abs_tri (k_alt x) (k_alt y) (k_alt z)). pose proof (abs_tri (k_VN x) (k_VN y) (k_VN z)).
  pose proof (abs_tri (k_VE x) (k_VE y) (k_VE z)). pose proof (abs_tri (k_VD x) (k_VD y) (k_VD z)).
  pose proof (abs_tri (k_C00 x) (k_C00 y) (k_C00 z)). pose proof (abs_tri (k_C01 x) (k_C01 y) (k_C01 z)).
  pose proof (abs_tri (k_C02 x) (k_C02 y) (k_C02 z)). pose proof (abs_tri (k_C10 x) (k_C10 y) (k_C10 z)).
  pose proof (abs_tri (k_C11 x) (k_C11 y) (k_C11 z)). pose proof (abs_tri (k_C12 x) (k_C12 y) (k_C12 z)).
  pose proof (abs_tri (k_C20 x) (k_C20 y) (k_C20 z)). pose proof (abs_tri (k_C21 x) (k_C21 y) (k_C21 z)).
  pose proof (abs_tri (k_C22 x) (k_C22 y) (k_C22 z)).
  lra.
Qed.

Lemma kdist_refl (x : kstate) : kdist x x = 0.
Proof. unfold kdist. rewrite !Rminus_eq_0, Rabs_R0. ring. Qed.

(** End-to-end statement, PARTIAL: none of its hypotheses (stability constant L on a region D, local error
    constant C along the exact solution, the exact and the numerical solution stay in D) is proved for
    the concrete kernel; the [step_consistent_*] lemmas only give the pointwise first-order consistency
    that makes a finite C plausible. *)
Lemma strapdown_converges_partial (D : kstate -> Prop) (sol : R -> kstate) (inc : R -> nat -> kinc)
      (L C T : R) :
  0 < L -> 0 <= C ->
  (* uniform stability of the kernel step on D *)
  (forall h n x y, 0 < h -> D x -> D y ->
     kdist (kstep h x (inc h n)) (kstep h y (inc h n)) <= (1 + L * h) * kdist x y) ->
  (* uniform second-order local error along the exact solution *)
  (forall h n, 0 < h -> INR (S n) * h <= T ->
     kdist (kstep h (sol (INR n * h)) (inc h n)) (sol (INR (S n) * h)) <= C * (h * h)) ->
  (* the exact and the numerical solution stay in D *)
  (forall t, D (sol t)) ->
  (forall h n, 0 < h -> INR n * h <= T -> D (krun h (inc h) (sol 0) n)) ->
  forall h n, 0 < h -> INR n * h <= T ->
    kdist (krun h (inc h) (sol 0) n) (sol (INR n * h)) <= C * h * (exp (L * T) - 1) / L.
Proof.
  intros HL HC Stab Loc SD ND h n Hh Hn. unfold krun.
  apply (one_step_convergence kstate kdist D (fun m s => kstep h s (inc h m)) sol L C T h
           kdist_triangle kdist_refl HL HC Hh).
  - intros m x y Dx Dy. apply Stab; assumption.
  - intros m Hm. apply Loc; assumption.
  - intros m _. apply SD.
  - intros m Hm. apply (ND h m Hh Hm).
  - exact Hn.
Qed.
