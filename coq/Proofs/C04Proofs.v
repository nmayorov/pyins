(** C04 -- the INS error model is the linearisation of strapdown error growth.

    Objects:
      - the hub specification Spec/NavODE.v (nav_rhs_*: 15 scalar right-hand sides, hand-written from the physics);
      - the GENERATED system matrices Gen/C04Gen.v (sysmat3d_F/G/A, sysmat2d_F/G/A: traced from the live
        InsErrorModel.system_matrices; prop3d/prop2d: one step of propagate_errors' recursion);
      - the library's own error coordinates: [pdelta s x] = P(s) x is the first-order displacement of the
        navigation state when the error-state vector is x (the first-order inverse of correct_pva:
        position by perturb_lla(+dr), v_ins = v - phi x v + dv, C_ins = C - [phi x] C).

    Main statement (continuous form).  Let s(t) follow nav_rhs and let the INS state be s_ins = s + P(s) x.
    Then P(s) x' = nav_rhs(s + P(s) x) - nav_rhs(s) - (D P(s)[nav_rhs s]) x, and the derivative of the
    right-hand side with respect to x at x = 0 is   P(s) (F + N) x   with F the generated model matrix and
    N the EXPLICIT matrix of the terms the model neglects (21 closed-form entries, see [N00] ... [N82]).
    The generated B_gyro / B_accel are exact:  D_(w,f) nav_rhs(s) [dw, df] = P(s) (B_gyro dw + B_accel df). *)
From Coq Require Import Reals Lra Lia.
From Coquelicot Require Import Coquelicot.
From Interval Require Import Tactic.
From PV Require Import Base.RealTac Spec.Ellipsoid Spec.EllipsoidFacts Spec.NavODE.
From PV Require Import Gen.Transform Gen.C04Gen.
Open Scope R_scope.

(** * 0. States, sensor inputs, error vectors *)

Record nstate : Type := mkS {
  s_lat : R; s_lon : R; s_alt : R; s_VN : R; s_VE : R; s_VD : R;
  s_C00 : R; s_C01 : R; s_C02 : R; s_C10 : R; s_C11 : R; s_C12 : R; s_C20 : R; s_C21 : R; s_C22 : R }.
Record imu : Type := mkI { i_w0 : R; i_w1 : R; i_w2 : R; i_f0 : R; i_f1 : R; i_f2 : R }.
(** error-state vector in the library's order: DR1 DR2 DR3 DV1 DV2 DV3 PHI1 PHI2 PHI3 *)
Record err : Type := mkX { e0 : R; e1 : R; e2 : R; e3 : R; e4 : R; e5 : R; e6 : R; e7 : R; e8 : R }.

Definition rhs21 : Type :=
  R -> R -> R -> R -> R -> R -> R -> R -> R -> R -> R -> R -> R -> R -> R -> R -> R -> R -> R -> R -> R -> R.

(** a right-hand side of Spec/NavODE.v applied to a state and an IMU input *)
Definition app (g : rhs21) (s : nstate) (m : imu) : R :=
  g (s_lat s) (s_lon s) (s_alt s) (s_VN s) (s_VE s) (s_VD s)
    (s_C00 s) (s_C01 s) (s_C02 s) (s_C10 s) (s_C11 s) (s_C12 s) (s_C20 s) (s_C21 s) (s_C22 s)
    (i_w0 m) (i_w1 m) (i_w2 m) (i_f0 m) (i_f1 m) (i_f2 m).

Definition nav_field (s : nstate) (m : imu) : nstate :=
  mkS (app nav_rhs_lat s m) (app nav_rhs_lon s m) (app nav_rhs_alt s m)
      (app nav_rhs_VN s m) (app nav_rhs_VE s m) (app nav_rhs_VD s m)
      (app nav_rhs_C00 s m) (app nav_rhs_C01 s m) (app nav_rhs_C02 s m)
      (app nav_rhs_C10 s m) (app nav_rhs_C11 s m) (app nav_rhs_C12 s m)
      (app nav_rhs_C20 s m) (app nav_rhs_C21 s m) (app nav_rhs_C22 s m).

(** s + u d, componentwise *)
Definition sadd (s : nstate) (u : R) (d : nstate) : nstate :=
  mkS (s_lat s + u * s_lat d) (s_lon s + u * s_lon d) (s_alt s + u * s_alt d)
      (s_VN s + u * s_VN d) (s_VE s + u * s_VE d) (s_VD s + u * s_VD d)
      (s_C00 s + u * s_C00 d) (s_C01 s + u * s_C01 d) (s_C02 s + u * s_C02 d)
      (s_C10 s + u * s_C10 d) (s_C11 s + u * s_C11 d) (s_C12 s + u * s_C12 d)
      (s_C20 s + u * s_C20 d) (s_C21 s + u * s_C21 d) (s_C22 s + u * s_C22 d).
Definition iadd (m : imu) (u : R) (d : imu) : imu :=
  mkI (i_w0 m + u * i_w0 d) (i_w1 m + u * i_w1 d) (i_w2 m + u * i_w2 d)
      (i_f0 m + u * i_f0 d) (i_f1 m + u * i_f1 d) (i_f2 m + u * i_f2 d).
Definition xscale (u : R) (x : err) : err :=
  mkX (u * e0 x) (u * e1 x) (u * e2 x) (u * e3 x) (u * e4 x) (u * e5 x) (u * e6 x) (u * e7 x) (u * e8 x).

Lemma mkS_ext : forall a0 a1 a2 a3 a4 a5 a6 a7 a8 a9 a10 a11 a12 a13 a14 b0 b1 b2 b3 b4 b5 b6 b7 b8 b9 b10 b11 b12 b13 b14 : R,
  a0 = b0 -> a1 = b1 -> a2 = b2 -> a3 = b3 -> a4 = b4 -> a5 = b5 -> a6 = b6 -> a7 = b7 -> a8 = b8 -> a9 = b9 ->
  a10 = b10 -> a11 = b11 -> a12 = b12 -> a13 = b13 -> a14 = b14 ->
  mkS a0 a1 a2 a3 a4 a5 a6 a7 a8 a9 a10 a11 a12 a13 a14 = mkS b0 b1 b2 b3 b4 b5 b6 b7 b8 b9 b10 b11 b12 b13 b14.
Proof. intros; subst; reflexivity. Qed.

(** * 1. The library's error coordinates: P(s) x

    position:  perturb_lla(lla, +dr):  lat + (180/pi) dr_N / (Rn + h),  lon + (180/pi) dr_E / ((Re + h) cos lat),  alt - dr_D
    velocity:  v_ins = v - phi x v + dv          (correct_pva: v = Rot(phi) (v_ins - dv))
    attitude:  C_ins = C - [phi x] C            (correct_pva: C = Rot(phi) C_ins)                                     *)
Definition pd_lat (lat alt x0 : R) : R := r2d * (x0 / (nav_Rn lat + alt)).
Definition pd_lon (lat alt x1 : R) : R := r2d * (x1 / ((nav_Re lat + alt) * cos (lat * d2r))).
Definition pd_alt (x2 : R) : R := - x2.
Definition pd_v0 (v0 v1 v2 d0 d1 d2 p0 p1 p2 : R) : R := d0 - cross0 p0 p1 p2 v0 v1 v2.
Definition pd_v1 (v0 v1 v2 d0 d1 d2 p0 p1 p2 : R) : R := d1 - cross1 p0 p1 p2 v0 v1 v2.
Definition pd_v2 (v0 v1 v2 d0 d1 d2 p0 p1 p2 : R) : R := d2 - cross2 p0 p1 p2 v0 v1 v2.

Definition pdelta (s : nstate) (x : err) : nstate :=
  mkS (pd_lat (s_lat s) (s_alt s) (e0 x)) (pd_lon (s_lat s) (s_alt s) (e1 x)) (pd_alt (e2 x))
      (pd_v0 (s_VN s) (s_VE s) (s_VD s) (e3 x) (e4 x) (e5 x) (e6 x) (e7 x) (e8 x))
      (pd_v1 (s_VN s) (s_VE s) (s_VD s) (e3 x) (e4 x) (e5 x) (e6 x) (e7 x) (e8 x))
      (pd_v2 (s_VN s) (s_VE s) (s_VD s) (e3 x) (e4 x) (e5 x) (e6 x) (e7 x) (e8 x))
      (* column j of C is (C0j, C1j, C2j) *)
      (pd_v0 (s_C00 s) (s_C10 s) (s_C20 s) 0 0 0 (e6 x) (e7 x) (e8 x))
      (pd_v0 (s_C01 s) (s_C11 s) (s_C21 s) 0 0 0 (e6 x) (e7 x) (e8 x))
      (pd_v0 (s_C02 s) (s_C12 s) (s_C22 s) 0 0 0 (e6 x) (e7 x) (e8 x))
      (pd_v1 (s_C00 s) (s_C10 s) (s_C20 s) 0 0 0 (e6 x) (e7 x) (e8 x))
      (pd_v1 (s_C01 s) (s_C11 s) (s_C21 s) 0 0 0 (e6 x) (e7 x) (e8 x))
      (pd_v1 (s_C02 s) (s_C12 s) (s_C22 s) 0 0 0 (e6 x) (e7 x) (e8 x))
      (pd_v2 (s_C00 s) (s_C10 s) (s_C20 s) 0 0 0 (e6 x) (e7 x) (e8 x))
      (pd_v2 (s_C01 s) (s_C11 s) (s_C21 s) 0 0 0 (e6 x) (e7 x) (e8 x))
      (pd_v2 (s_C02 s) (s_C12 s) (s_C22 s) 0 0 0 (e6 x) (e7 x) (e8 x)).

(** the perturbed ("INS") state whose correction by x gives back s, to first order *)
Definition pert (s : nstate) (x : err) : nstate := sadd s 1 (pdelta s x).

(** the linearised error-growth residual, one scalar component [pr] of the state at a time:
      u |->  nav_rhs_pr (s + u P(s) x)  -  [P(s + u nav_rhs(s)) x]_pr        (s + u P(s) x = pert s (u x): C04_pert_scale in Props/C04.v)
    Its derivative at u = 0 is  (D nav_rhs(s) [P(s) x])_pr - ((D P(s)[nav_rhs s]) x)_pr  =  (P(s) x')_pr . *)
Definition lin (g : rhs21) (pr : nstate -> R) (s : nstate) (m : imu) (x : err) (u : R) : R :=
  app g (sadd s u (pdelta s x)) m - pr (pdelta (sadd s u (nav_field s m)) x).

(** sensitivity to the sensor inputs *)
Definition linB (g : rhs21) (s : nstate) (m d : imu) (u : R) : R := app g s (iadd m u d).

(** * 2. Closed-form geometry derivatives and the neglected-terms matrix N *)

Definition W2l (lat : R) : R := W2 E2_ (lat * d2r).
(** d Rn / d phi and d Re / d phi (per radian of latitude) *)
Definition dRn_dphi (lat : R) : R :=
  3 * A_ * (1 - E2_) * E2_ * sin (lat * d2r) * cos (lat * d2r) / (W2l lat * W2l lat * sqrt (W2l lat)).
Definition dRe_dphi (lat : R) : R :=
  A_ * E2_ * sin (lat * d2r) * cos (lat * d2r) / (W2l lat * sqrt (W2l lat)).
(** normal gravity on the ellipsoid, and its derivative with respect to phi *)
Definition g0 (phi : R) : R := GE_ * (1 + FG_ * (sin phi * sin phi)) / sqrt (1 - E2_ * (sin phi * sin phi)).
Definition dg0 (phi : R) : R :=
  GE_ * (2 * FG_ * sin phi * cos phi) / sqrt (1 - E2_ * (sin phi * sin phi))
  + GE_ * (1 + FG_ * (sin phi * sin phi)) * (E2_ * sin phi * cos phi)
    / ((1 - E2_ * (sin phi * sin phi)) * sqrt (1 - E2_ * (sin phi * sin phi))).

Definition rn (s : nstate) : R := nav_Rn (s_lat s) + s_alt s.
Definition re (s : nstate) : R := nav_Re (s_lat s) + s_alt s.
Definition sphi (s : nstate) : R := sin (s_lat s * d2r).
Definition cphi (s : nstate) : R := cos (s_lat s * d2r).
Definition tphi (s : nstate) : R := tan (s_lat s * d2r).

(** N: what the modified phi-angle model as implemented leaves out (row = error-state rate, column = error state).
    DR rows: rotation of the local-level frame under the feet of the position error (rho x dr terms);
    DV rows: position dependence of the Earth rate (Omega x v / R) and of gravity with latitude, and the
             term (Omega x phi) x v;
    PHI rows: position dependence of the radii / of tan(lat) in the transport rate. *)
Definition N00 s := - s_VD s / rn s.
Definition N02 s := s_VN s / rn s.
Definition N10 s := s_VE s * (tphi s * re s - dRe_dphi (s_lat s)) / (re s * rn s).
Definition N11 s := (- s_VD s * rn s - s_VN s * tphi s * re s + s_VN s * dRe_dphi (s_lat s)) / (re s * rn s).
Definition N12 s := s_VE s / re s.
Definition N30 s := - RATE_ * s_VE s * cphi s / rn s.
Definition N36 s := - RATE_ * s_VD s * sphi s.
Definition N37 s := - RATE_ * s_VE s * cphi s.
Definition N38 s := - RATE_ * s_VD s * cphi s.
Definition N40 s := RATE_ * (s_VN s * cphi s - s_VD s * sphi s) / rn s.
Definition N47 s := RATE_ * (s_VN s * cphi s - s_VD s * sphi s).
Definition N50 s := (RATE_ * s_VE s * sphi s + dg0 (s_lat s * d2r) * (1 - 2 * s_alt s / A_)) / rn s.
Definition N56 s := RATE_ * s_VN s * sphi s.
Definition N57 s := RATE_ * s_VE s * sphi s.
Definition N58 s := RATE_ * s_VN s * cphi s.
Definition N60 s := - s_VE s * dRe_dphi (s_lat s) / (re s * re s * rn s).
Definition N62 s := s_VE s / (re s * re s).
Definition N70 s := s_VN s * dRn_dphi (s_lat s) / (rn s * rn s * rn s).
Definition N72 s := - s_VN s / (rn s * rn s).
Definition N80 s := - s_VE s * (1 + tphi s * tphi s) / (re s * rn s)
                    + s_VE s * tphi s * dRe_dphi (s_lat s) / (re s * re s * rn s).
Definition N82 s := - s_VE s * tphi s / (re s * re s).

Definition negl0 (s : nstate) (x : err) : R := N00 s * e0 x + N02 s * e2 x.
Definition negl1 (s : nstate) (x : err) : R := N10 s * e0 x + N11 s * e1 x + N12 s * e2 x.
Definition negl2 (s : nstate) (x : err) : R := 0.
Definition negl3 (s : nstate) (x : err) : R := N30 s * e0 x + N36 s * e6 x + N37 s * e7 x + N38 s * e8 x.
Definition negl4 (s : nstate) (x : err) : R := N40 s * e0 x + N47 s * e7 x.
Definition negl5 (s : nstate) (x : err) : R := N50 s * e0 x + N56 s * e6 x + N57 s * e7 x + N58 s * e8 x.
Definition negl6 (s : nstate) (x : err) : R := N60 s * e0 x + N62 s * e2 x.
Definition negl7 (s : nstate) (x : err) : R := N70 s * e0 x + N72 s * e2 x.
Definition negl8 (s : nstate) (x : err) : R := N80 s * e0 x + N82 s * e2 x.

(** the model alone: F x with F the GENERATED matrix (roll pitch heading are ignored by F) *)
Definition model0 (s : nstate) (roll pitch heading : R) (x : err) : R :=
  sysmat3d_F00 (s_lat s) (s_lon s) (s_alt s) (s_VN s) (s_VE s) (s_VD s) roll pitch heading * e0 x
  + sysmat3d_F01 (s_lat s) (s_lon s) (s_alt s) (s_VN s) (s_VE s) (s_VD s) roll pitch heading * e1 x
  + sysmat3d_F02 (s_lat s) (s_lon s) (s_alt s) (s_VN s) (s_VE s) (s_VD s) roll pitch heading * e2 x
  + sysmat3d_F03 (s_lat s) (s_lon s) (s_alt s) (s_VN s) (s_VE s) (s_VD s) roll pitch heading * e3 x
  + sysmat3d_F04 (s_lat s) (s_lon s) (s_alt s) (s_VN s) (s_VE s) (s_VD s) roll pitch heading * e4 x
  + sysmat3d_F05 (s_lat s) (s_lon s) (s_alt s) (s_VN s) (s_VE s) (s_VD s) roll pitch heading * e5 x
  + sysmat3d_F06 (s_lat s) (s_lon s) (s_alt s) (s_VN s) (s_VE s) (s_VD s) roll pitch heading * e6 x
  + sysmat3d_F07 (s_lat s) (s_lon s) (s_alt s) (s_VN s) (s_VE s) (s_VD s) roll pitch heading * e7 x
  + sysmat3d_F08 (s_lat s) (s_lon s) (s_alt s) (s_VN s) (s_VE s) (s_VD s) roll pitch heading * e8 x.
Definition model1 (s : nstate) (roll pitch heading : R) (x : err) : R :=
  sysmat3d_F10 (s_lat s) (s_lon s) (s_alt s) (s_VN s) (s_VE s) (s_VD s) roll pitch heading * e0 x
  + sysmat3d_F11 (s_lat s) (s_lon s) (s_alt s) (s_VN s) (s_VE s) (s_VD s) roll pitch heading * e1 x
  + sysmat3d_F12 (s_lat s) (s_lon s) (s_alt s) (s_VN s) (s_VE s) (s_VD s) roll pitch heading * e2 x
  + sysmat3d_F13 (s_lat s) (s_lon s) (s_alt s) (s_VN s) (s_VE s) (s_VD s) roll pitch heading * e3 x
  + sysmat3d_F14 (s_lat s) (s_lon s) (s_alt s) (s_VN s) (s_VE s) (s_VD s) roll pitch heading * e4 x
  + sysmat3d_F15 (s_lat s) (s_lon s) (s_alt s) (s_VN s) (s_VE s) (s_VD s) roll pitch heading * e5 x
  + sysmat3d_F16 (s_lat s) (s_lon s) (s_alt s) (s_VN s) (s_VE s) (s_VD s) roll pitch heading * e6 x
  + sysmat3d_F17 (s_lat s) (s_lon s) (s_alt s) (s_VN s) (s_VE s) (s_VD s) roll pitch heading * e7 x
  + sysmat3d_F18 (s_lat s) (s_lon s) (s_alt s) (s_VN s) (s_VE s) (s_VD s) roll pitch heading * e8 x.
Definition model2 (s : nstate) (roll pitch heading : R) (x : err) : R :=
  sysmat3d_F20 (s_lat s) (s_lon s) (s_alt s) (s_VN s) (s_VE s) (s_VD s) roll pitch heading * e0 x
  + sysmat3d_F21 (s_lat s) (s_lon s) (s_alt s) (s_VN s) (s_VE s) (s_VD s) roll pitch heading * e1 x
  + sysmat3d_F22 (s_lat s) (s_lon s) (s_alt s) (s_VN s) (s_VE s) (s_VD s) roll pitch heading * e2 x
  + sysmat3d_F23 (s_lat s) (s_lon s) (s_alt s) (s_VN s) (s_VE s) (s_VD s) roll pitch heading * e3 x
  + sysmat3d_F24 (s_lat s) (s_lon s) (s_alt s) (s_VN s) (s_VE s) (s_VD s) roll pitch heading * e4 x
  + sysmat3d_F25 (s_lat s) (s_lon s) (s_alt s) (s_VN s) (s_VE s) (s_VD s) roll pitch heading * e5 x
  + sysmat3d_F26 (s_lat s) (s_lon s) (s_alt s) (s_VN s) (s_VE s) (s_VD s) roll pitch heading * e6 x
  + sysmat3d_F27 (s_lat s) (s_lon s) (s_alt s) (s_VN s) (s_VE s) (s_VD s) roll pitch heading * e7 x
  + sysmat3d_F28 (s_lat s) (s_lon s) (s_alt s) (s_VN s) (s_VE s) (s_VD s) roll pitch heading * e8 x.
Definition model3 (s : nstate) (roll pitch heading : R) (x : err) : R :=
  sysmat3d_F30 (s_lat s) (s_lon s) (s_alt s) (s_VN s) (s_VE s) (s_VD s) roll pitch heading * e0 x
  + sysmat3d_F31 (s_lat s) (s_lon s) (s_alt s) (s_VN s) (s_VE s) (s_VD s) roll pitch heading * e1 x
  + sysmat3d_F32 (s_lat s) (s_lon s) (s_alt s) (s_VN s) (s_VE s) (s_VD s) roll pitch heading * e2 x
  + sysmat3d_F33 (s_lat s) (s_lon s) (s_alt s) (s_VN s) (s_VE s) (s_VD s) roll pitch heading * e3 x
  + sysmat3d_F34 (s_lat s) (s_lon s) (s_alt s) (s_VN s) (s_VE s) (s_VD s) roll pitch heading * e4 x
  + sysmat3d_F35 (s_lat s) (s_lon s) (s_alt s) (s_VN s) (s_VE s) (s_VD s) roll pitch heading * e5 x
  + sysmat3d_F36 (s_lat s) (s_lon s) (s_alt s) (s_VN s) (s_VE s) (s_VD s) roll pitch heading * e6 x
  + sysmat3d_F37 (s_lat s) (s_lon s) (s_alt s) (s_VN s) (s_VE s) (s_VD s) roll pitch heading * e7 x
  + sysmat3d_F38 (s_lat s) (s_lon s) (s_alt s) (s_VN s) (s_VE s) (s_VD s) roll pitch heading * e8 x.
Definition model4 (s : nstate) (roll pitch heading : R) (x : err) : R :=
  sysmat3d_F40 (s_lat s) (s_lon s) (s_alt s) (s_VN s) (s_VE s) (s_VD s) roll pitch heading * e0 x
  + sysmat3d_F41 (s_lat s) (s_lon s) (s_alt s) (s_VN s) (s_VE s) (s_VD s) roll pitch heading * e1 x
  + sysmat3d_F42 (s_lat s) (s_lon s) (s_alt s) (s_VN s) (s_VE s) (s_VD s) roll pitch heading * e2 x
  + sysmat3d_F43 (s_lat s) (s_lon s) (s_alt s) (s_VN s) (s_VE s) (s_VD s) roll pitch heading * e3 x
  + sysmat3d_F44 (s_lat s) (s_lon s) (s_alt s) (s_VN s) (s_VE s) (s_VD s) roll pitch heading * e4 x
  + sysmat3d_F45 (s_lat s) (s_lon s) (s_alt s) (s_VN s) (s_VE s) (s_VD s) roll pitch heading * e5 x
  + sysmat3d_F46 (s_lat s) (s_lon s) (s_alt s) (s_VN s) (s_VE s) (s_VD s) roll pitch heading * e6 x
  + sysmat3d_F47 (s_lat s) (s_lon s) (s_alt s) (s_VN s) (s_VE s) (s_VD s) roll pitch heading * e7 x
  + sysmat3d_F48 (s_lat s) (s_lon s) (s_alt s) (s_VN s) (s_VE s) (s_VD s) roll pitch heading * e8 x.
Definition model5 (s : nstate) (roll pitch heading : R) (x : err) : R :=
  sysmat3d_F50 (s_lat s) (s_lon s) (s_alt s) (s_VN s) (s_VE s) (s_VD s) roll pitch heading * e0 x
  + sysmat3d_F51 (s_lat s) (s_lon s) (s_alt s) (s_VN s) (s_VE s) (s_VD s) roll pitch heading * e1 x
  + sysmat3d_F52 (s_lat s) (s_lon s) (s_alt s) (s_VN s) (s_VE s) (s_VD s) roll pitch heading * e2 x
  + sysmat3d_F53 (s_lat s) (s_lon s) (s_alt s) (s_VN s) (s_VE s) (s_VD s) roll pitch heading * e3 x
  + sysmat3d_F54 (s_lat s) (s_lon s) (s_alt s) (s_VN s) (s_VE s) (s_VD s) roll pitch heading * e4 x
  + sysmat3d_F55 (s_lat s) (s_lon s) (s_alt s) (s_VN s) (s_VE s) (s_VD s) roll pitch heading * e5 x
  + sysmat3d_F56 (s_lat s) (s_lon s) (s_alt s) (s_VN s) (s_VE s) (s_VD s) roll pitch heading * e6 x
  + sysmat3d_F57 (s_lat s) (s_lon s) (s_alt s) (s_VN s) (s_VE s) (s_VD s) roll pitch heading * e7 x
  + sysmat3d_F58 (s_lat s) (s_lon s) (s_alt s) (s_VN s) (s_VE s) (s_VD s) roll pitch heading * e8 x.
Definition model6 (s : nstate) (roll pitch heading : R) (x : err) : R :=
  sysmat3d_F60 (s_lat s) (s_lon s) (s_alt s) (s_VN s) (s_VE s) (s_VD s) roll pitch heading * e0 x
  + sysmat3d_F61 (s_lat s) (s_lon s) (s_alt s) (s_VN s) (s_VE s) (s_VD s) roll pitch heading * e1 x
  + sysmat3d_F62 (s_lat s) (s_lon s) (s_alt s) (s_VN s) (s_VE s) (s_VD s) roll pitch heading * e2 x
  + sysmat3d_F63 (s_lat s) (s_lon s) (s_alt s) (s_VN s) (s_VE s) (s_VD s) roll pitch heading * e3 x
  + sysmat3d_F64 (s_lat s) (s_lon s) (s_alt s) (s_VN s) (s_VE s) (s_VD s) roll pitch heading * e4 x
  + sysmat3d_F65 (s_lat s) (s_lon s) (s_alt s) (s_VN s) (s_VE s) (s_VD s) roll pitch heading * e5 x
  + sysmat3d_F66 (s_lat s) (s_lon s) (s_alt s) (s_VN s) (s_VE s) (s_VD s) roll pitch heading * e6 x
  + sysmat3d_F67 (s_lat s) (s_lon s) (s_alt s) (s_VN s) (s_VE s) (s_VD s) roll pitch heading * e7 x
  + sysmat3d_F68 (s_lat s) (s_lon s) (s_alt s) (s_VN s) (s_VE s) (s_VD s) roll pitch heading * e8 x.
Definition model7 (s : nstate) (roll pitch heading : R) (x : err) : R :=
  sysmat3d_F70 (s_lat s) (s_lon s) (s_alt s) (s_VN s) (s_VE s) (s_VD s) roll pitch heading * e0 x
  + sysmat3d_F71 (s_lat s) (s_lon s) (s_alt s) (s_VN s) (s_VE s) (s_VD s) roll pitch heading * e1 x
  + sysmat3d_F72 (s_lat s) (s_lon s) (s_alt s) (s_VN s) (s_VE s) (s_VD s) roll pitch heading * e2 x
  + sysmat3d_F73 (s_lat s) (s_lon s) (s_alt s) (s_VN s) (s_VE s) (s_VD s) roll pitch heading * e3 x
  + sysmat3d_F74 (s_lat s) (s_lon s) (s_alt s) (s_VN s) (s_VE s) (s_VD s) roll pitch heading * e4 x
  + sysmat3d_F75 (s_lat s) (s_lon s) (s_alt s) (s_VN s) (s_VE s) (s_VD s) roll pitch heading * e5 x
  + sysmat3d_F76 (s_lat s) (s_lon s) (s_alt s) (s_VN s) (s_VE s) (s_VD s) roll pitch heading * e6 x
  + sysmat3d_F77 (s_lat s) (s_lon s) (s_alt s) (s_VN s) (s_VE s) (s_VD s) roll pitch heading * e7 x
  + sysmat3d_F78 (s_lat s) (s_lon s) (s_alt s) (s_VN s) (s_VE s) (s_VD s) roll pitch heading * e8 x.
Definition model8 (s : nstate) (roll pitch heading : R) (x : err) : R :=
  sysmat3d_F80 (s_lat s) (s_lon s) (s_alt s) (s_VN s) (s_VE s) (s_VD s) roll pitch heading * e0 x
  + sysmat3d_F81 (s_lat s) (s_lon s) (s_alt s) (s_VN s) (s_VE s) (s_VD s) roll pitch heading * e1 x
  + sysmat3d_F82 (s_lat s) (s_lon s) (s_alt s) (s_VN s) (s_VE s) (s_VD s) roll pitch heading * e2 x
  + sysmat3d_F83 (s_lat s) (s_lon s) (s_alt s) (s_VN s) (s_VE s) (s_VD s) roll pitch heading * e3 x
  + sysmat3d_F84 (s_lat s) (s_lon s) (s_alt s) (s_VN s) (s_VE s) (s_VD s) roll pitch heading * e4 x
  + sysmat3d_F85 (s_lat s) (s_lon s) (s_alt s) (s_VN s) (s_VE s) (s_VD s) roll pitch heading * e5 x
  + sysmat3d_F86 (s_lat s) (s_lon s) (s_alt s) (s_VN s) (s_VE s) (s_VD s) roll pitch heading * e6 x
  + sysmat3d_F87 (s_lat s) (s_lon s) (s_alt s) (s_VN s) (s_VE s) (s_VD s) roll pitch heading * e7 x
  + sysmat3d_F88 (s_lat s) (s_lon s) (s_alt s) (s_VN s) (s_VE s) (s_VD s) roll pitch heading * e8 x.

Definition errdyn0 (s : nstate) (roll pitch heading : R) (x : err) : R :=
  model0 s roll pitch heading x + negl0 s x.
Definition errdyn1 (s : nstate) (roll pitch heading : R) (x : err) : R :=
  model1 s roll pitch heading x + negl1 s x.
Definition errdyn2 (s : nstate) (roll pitch heading : R) (x : err) : R :=
  model2 s roll pitch heading x + negl2 s x.
Definition errdyn3 (s : nstate) (roll pitch heading : R) (x : err) : R :=
  model3 s roll pitch heading x + negl3 s x.
Definition errdyn4 (s : nstate) (roll pitch heading : R) (x : err) : R :=
  model4 s roll pitch heading x + negl4 s x.
Definition errdyn5 (s : nstate) (roll pitch heading : R) (x : err) : R :=
  model5 s roll pitch heading x + negl5 s x.
Definition errdyn6 (s : nstate) (roll pitch heading : R) (x : err) : R :=
  model6 s roll pitch heading x + negl6 s x.
Definition errdyn7 (s : nstate) (roll pitch heading : R) (x : err) : R :=
  model7 s roll pitch heading x + negl7 s x.
Definition errdyn8 (s : nstate) (roll pitch heading : R) (x : err) : R :=
  model8 s roll pitch heading x + negl8 s x.
Definition errdyn (s : nstate) (roll pitch heading : R) (x : err) : err :=
  mkX (errdyn0 s roll pitch heading x) (errdyn1 s roll pitch heading x) (errdyn2 s roll pitch heading x) (errdyn3 s roll pitch heading x) (errdyn4 s roll pitch heading x) (errdyn5 s roll pitch heading x) (errdyn6 s roll pitch heading x) (errdyn7 s roll pitch heading x) (errdyn8 s roll pitch heading x).

(** B_gyro dw + B_accel df with the GENERATED matrices *)
Definition sens0 (s : nstate) (roll pitch heading : R) (d : imu) : R :=
  sysmat3d_G00 (s_lat s) (s_lon s) (s_alt s) (s_VN s) (s_VE s) (s_VD s) roll pitch heading * i_w0 d
  + sysmat3d_G01 (s_lat s) (s_lon s) (s_alt s) (s_VN s) (s_VE s) (s_VD s) roll pitch heading * i_w1 d
  + sysmat3d_G02 (s_lat s) (s_lon s) (s_alt s) (s_VN s) (s_VE s) (s_VD s) roll pitch heading * i_w2 d
  + sysmat3d_A00 (s_lat s) (s_lon s) (s_alt s) (s_VN s) (s_VE s) (s_VD s) roll pitch heading * i_f0 d
  + sysmat3d_A01 (s_lat s) (s_lon s) (s_alt s) (s_VN s) (s_VE s) (s_VD s) roll pitch heading * i_f1 d
  + sysmat3d_A02 (s_lat s) (s_lon s) (s_alt s) (s_VN s) (s_VE s) (s_VD s) roll pitch heading * i_f2 d.
Definition sens1 (s : nstate) (roll pitch heading : R) (d : imu) : R :=
  sysmat3d_G10 (s_lat s) (s_lon s) (s_alt s) (s_VN s) (s_VE s) (s_VD s) roll pitch heading * i_w0 d
  + sysmat3d_G11 (s_lat s) (s_lon s) (s_alt s) (s_VN s) (s_VE s) (s_VD s) roll pitch heading * i_w1 d
  + sysmat3d_G12 (s_lat s) (s_lon s) (s_alt s) (s_VN s) (s_VE s) (s_VD s) roll pitch heading * i_w2 d
  + sysmat3d_A10 (s_lat s) (s_lon s) (s_alt s) (s_VN s) (s_VE s) (s_VD s) roll pitch heading * i_f0 d
  + sysmat3d_A11 (s_lat s) (s_lon s) (s_alt s) (s_VN s) (s_VE s) (s_VD s) roll pitch heading * i_f1 d
  + sysmat3d_A12 (s_lat s) (s_lon s) (s_alt s) (s_VN s) (s_VE s) (s_VD s) roll pitch heading * i_f2 d.
Definition sens2 (s : nstate) (roll pitch heading : R) (d : imu) : R :=
  sysmat3d_G20 (s_lat s) (s_lon s) (s_alt s) (s_VN s) (s_VE s) (s_VD s) roll pitch heading * i_w0 d
  + sysmat3d_G21 (s_lat s) (s_lon s) (s_alt s) (s_VN s) (s_VE s) (s_VD s) roll pitch heading * i_w1 d
  + sysmat3d_G22 (s_lat s) (s_lon s) (s_alt s) (s_VN s) (s_VE s) (s_VD s) roll pitch heading * i_w2 d
  + sysmat3d_A20 (s_lat s) (s_lon s) (s_alt s) (s_VN s) (s_VE s) (s_VD s) roll pitch heading * i_f0 d
  + sysmat3d_A21 (s_lat s) (s_lon s) (s_alt s) (s_VN s) (s_VE s) (s_VD s) roll pitch heading * i_f1 d
  + sysmat3d_A22 (s_lat s) (s_lon s) (s_alt s) (s_VN s) (s_VE s) (s_VD s) roll pitch heading * i_f2 d.
Definition sens3 (s : nstate) (roll pitch heading : R) (d : imu) : R :=
  sysmat3d_G30 (s_lat s) (s_lon s) (s_alt s) (s_VN s) (s_VE s) (s_VD s) roll pitch heading * i_w0 d
  + sysmat3d_G31 (s_lat s) (s_lon s) (s_alt s) (s_VN s) (s_VE s) (s_VD s) roll pitch heading * i_w1 d
  + sysmat3d_G32 (s_lat s) (s_lon s) (s_alt s) (s_VN s) (s_VE s) (s_VD s) roll pitch heading * i_w2 d
  + sysmat3d_A30 (s_lat s) (s_lon s) (s_alt s) (s_VN s) (s_VE s) (s_VD s) roll pitch heading * i_f0 d
  + sysmat3d_A31 (s_lat s) (s_lon s) (s_alt s) (s_VN s) (s_VE s) (s_VD s) roll pitch heading * i_f1 d
  + sysmat3d_A32 (s_lat s) (s_lon s) (s_alt s) (s_VN s) (s_VE s) (s_VD s) roll pitch heading * i_f2 d.
Definition sens4 (s : nstate) (roll pitch heading : R) (d : imu) : R :=
  sysmat3d_G40 (s_lat s) (s_lon s) (s_alt s) (s_VN s) (s_VE s) (s_VD s) roll pitch heading * i_w0 d
  + sysmat3d_G41 (s_lat s) (s_lon s) (s_alt s) (s_VN s) (s_VE s) (s_VD s) roll pitch heading * i_w1 d
  + sysmat3d_G42 (s_lat s) (s_lon s) (s_alt s) (s_VN s) (s_VE s) (s_VD s) roll pitch heading * i_w2 d
  + sysmat3d_A40 (s_lat s) (s_lon s) (s_alt s) (s_VN s) (s_VE s) (s_VD s) roll pitch heading * i_f0 d
  + sysmat3d_A41 (s_lat s) (s_lon s) (s_alt s) (s_VN s) (s_VE s) (s_VD s) roll pitch heading * i_f1 d
  + sysmat3d_A42 (s_lat s) (s_lon s) (s_alt s) (s_VN s) (s_VE s) (s_VD s) roll pitch heading * i_f2 d.
Definition sens5 (s : nstate) (roll pitch heading : R) (d : imu) : R :=
  sysmat3d_G50 (s_lat s) (s_lon s) (s_alt s) (s_VN s) (s_VE s) (s_VD s) roll pitch heading * i_w0 d
  + sysmat3d_G51 (s_lat s) (s_lon s) (s_alt s) (s_VN s) (s_VE s) (s_VD s) roll pitch heading * i_w1 d
  + sysmat3d_G52 (s_lat s) (s_lon s) (s_alt s) (s_VN s) (s_VE s) (s_VD s) roll pitch heading * i_w2 d
  + sysmat3d_A50 (s_lat s) (s_lon s) (s_alt s) (s_VN s) (s_VE s) (s_VD s) roll pitch heading * i_f0 d
  + sysmat3d_A51 (s_lat s) (s_lon s) (s_alt s) (s_VN s) (s_VE s) (s_VD s) roll pitch heading * i_f1 d
  + sysmat3d_A52 (s_lat s) (s_lon s) (s_alt s) (s_VN s) (s_VE s) (s_VD s) roll pitch heading * i_f2 d.
Definition sens6 (s : nstate) (roll pitch heading : R) (d : imu) : R :=
  sysmat3d_G60 (s_lat s) (s_lon s) (s_alt s) (s_VN s) (s_VE s) (s_VD s) roll pitch heading * i_w0 d
  + sysmat3d_G61 (s_lat s) (s_lon s) (s_alt s) (s_VN s) (s_VE s) (s_VD s) roll pitch heading * i_w1 d
  + sysmat3d_G62 (s_lat s) (s_lon s) (s_alt s) (s_VN s) (s_VE s) (s_VD s) roll pitch heading * i_w2 d
  + sysmat3d_A60 (s_lat s) (s_lon s) (s_alt s) (s_VN s) (s_VE s) (s_VD s) roll pitch heading * i_f0 d
  + sysmat3d_A61 (s_lat s) (s_lon s) (s_alt s) (s_VN s) (s_VE s) (s_VD s) roll pitch heading * i_f1 d
  + sysmat3d_A62 (s_lat s) (s_lon s) (s_alt s) (s_VN s) (s_VE s) (s_VD s) roll pitch heading * i_f2 d.
Definition sens7 (s : nstate) (roll pitch heading : R) (d : imu) : R :=
  sysmat3d_G70 (s_lat s) (s_lon s) (s_alt s) (s_VN s) (s_VE s) (s_VD s) roll pitch heading * i_w0 d
  + sysmat3d_G71 (s_lat s) (s_lon s) (s_alt s) (s_VN s) (s_VE s) (s_VD s) roll pitch heading * i_w1 d
  + sysmat3d_G72 (s_lat s) (s_lon s) (s_alt s) (s_VN s) (s_VE s) (s_VD s) roll pitch heading * i_w2 d
  + sysmat3d_A70 (s_lat s) (s_lon s) (s_alt s) (s_VN s) (s_VE s) (s_VD s) roll pitch heading * i_f0 d
  + sysmat3d_A71 (s_lat s) (s_lon s) (s_alt s) (s_VN s) (s_VE s) (s_VD s) roll pitch heading * i_f1 d
  + sysmat3d_A72 (s_lat s) (s_lon s) (s_alt s) (s_VN s) (s_VE s) (s_VD s) roll pitch heading * i_f2 d.
Definition sens8 (s : nstate) (roll pitch heading : R) (d : imu) : R :=
  sysmat3d_G80 (s_lat s) (s_lon s) (s_alt s) (s_VN s) (s_VE s) (s_VD s) roll pitch heading * i_w0 d
  + sysmat3d_G81 (s_lat s) (s_lon s) (s_alt s) (s_VN s) (s_VE s) (s_VD s) roll pitch heading * i_w1 d
  + sysmat3d_G82 (s_lat s) (s_lon s) (s_alt s) (s_VN s) (s_VE s) (s_VD s) roll pitch heading * i_w2 d
  + sysmat3d_A80 (s_lat s) (s_lon s) (s_alt s) (s_VN s) (s_VE s) (s_VD s) roll pitch heading * i_f0 d
  + sysmat3d_A81 (s_lat s) (s_lon s) (s_alt s) (s_VN s) (s_VE s) (s_VD s) roll pitch heading * i_f1 d
  + sysmat3d_A82 (s_lat s) (s_lon s) (s_alt s) (s_VN s) (s_VE s) (s_VD s) roll pitch heading * i_f2 d.
Definition sens (s : nstate) (roll pitch heading : R) (d : imu) : err :=
  mkX (sens0 s roll pitch heading d) (sens1 s roll pitch heading d) (sens2 s roll pitch heading d) (sens3 s roll pitch heading d) (sens4 s roll pitch heading d) (sens5 s roll pitch heading d) (sens6 s roll pitch heading d) (sens7 s roll pitch heading d) (sens8 s roll pitch heading d).

(** the attitude matrix of the state is mat_from_rph(roll, pitch, heading) (generated, Gen/Transform.v) *)
Definition att_is (s : nstate) (roll pitch heading : R) : Prop :=
  s_C00 s = mat_from_rph_m00 roll pitch heading /\ s_C01 s = mat_from_rph_m01 roll pitch heading /\
  s_C02 s = mat_from_rph_m02 roll pitch heading /\ s_C10 s = mat_from_rph_m10 roll pitch heading /\
  s_C11 s = mat_from_rph_m11 roll pitch heading /\ s_C12 s = mat_from_rph_m12 roll pitch heading /\
  s_C20 s = mat_from_rph_m20 roll pitch heading /\ s_C21 s = mat_from_rph_m21 roll pitch heading /\
  s_C22 s = mat_from_rph_m22 roll pitch heading.

(** * 3. The fifteen components, projections, unfolding databases *)

(** [rows galt gVD Q]: Q holds of the 15 components (right-hand side, projection) of the navigation state, with
    galt, gVD the right-hand sides of the vertical channel (those of the specification, or zero in 2D mode). *)
Definition rows (galt gVD : rhs21) (Q : rhs21 -> (nstate -> R) -> Prop) : Prop :=
  Q nav_rhs_lat s_lat /\ Q nav_rhs_lon s_lon /\ Q galt s_alt /\
  Q nav_rhs_VN s_VN /\ Q nav_rhs_VE s_VE /\ Q gVD s_VD /\
  Q nav_rhs_C00 s_C00 /\ Q nav_rhs_C01 s_C01 /\ Q nav_rhs_C02 s_C02 /\
  Q nav_rhs_C10 s_C10 /\ Q nav_rhs_C11 s_C11 /\ Q nav_rhs_C12 s_C12 /\
  Q nav_rhs_C20 s_C20 /\ Q nav_rhs_C21 s_C21 /\ Q nav_rhs_C22 s_C22.

Ltac projs :=
  cbn [sadd iadd xscale pdelta nav_field errdyn sens s_lat s_lon s_alt s_VN s_VE s_VD s_C00 s_C01 s_C02 s_C10 s_C11 s_C12 s_C20 s_C21 s_C22
       i_w0 i_w1 i_w2 i_f0 i_f1 i_f2 e0 e1 e2 e3 e4 e5 e6 e7 e8].

(** the output names of the generated blocks, one database per block *)
Create HintDb F3_out. Create HintDb F2_out. Create HintDb B3_out. Create HintDb B2_out.
Create HintDb T32_out. Create HintDb T23_out.
#[export] Hint Unfold sysmat3d_F00 sysmat3d_F01 sysmat3d_F02 sysmat3d_F03 sysmat3d_F04 sysmat3d_F05 sysmat3d_F06 sysmat3d_F07 sysmat3d_F08 sysmat3d_F10 sysmat3d_F11 sysmat3d_F12 sysmat3d_F13 sysmat3d_F14 sysmat3d_F15 sysmat3d_F16 sysmat3d_F17 sysmat3d_F18 sysmat3d_F20 sysmat3d_F21 sysmat3d_F22 sysmat3d_F23 sysmat3d_F24 sysmat3d_F25 sysmat3d_F26 sysmat3d_F27 sysmat3d_F28 sysmat3d_F30 sysmat3d_F31 sysmat3d_F32 sysmat3d_F33 sysmat3d_F34 sysmat3d_F35 sysmat3d_F36 sysmat3d_F37 sysmat3d_F38 sysmat3d_F40 sysmat3d_F41 sysmat3d_F42 sysmat3d_F43 sysmat3d_F44 sysmat3d_F45 sysmat3d_F46 sysmat3d_F47 sysmat3d_F48 sysmat3d_F50 sysmat3d_F51 sysmat3d_F52 sysmat3d_F53 sysmat3d_F54 sysmat3d_F55 sysmat3d_F56 sysmat3d_F57 sysmat3d_F58 sysmat3d_F60 sysmat3d_F61 sysmat3d_F62 sysmat3d_F63 sysmat3d_F64 sysmat3d_F65 sysmat3d_F66 sysmat3d_F67 sysmat3d_F68 sysmat3d_F70 sysmat3d_F71 sysmat3d_F72 sysmat3d_F73 sysmat3d_F74 sysmat3d_F75 sysmat3d_F76 sysmat3d_F77 sysmat3d_F78 sysmat3d_F80 sysmat3d_F81 sysmat3d_F82 sysmat3d_F83 sysmat3d_F84 sysmat3d_F85 sysmat3d_F86 sysmat3d_F87 sysmat3d_F88 : F3_out.
#[export] Hint Unfold sysmat2d_F00 sysmat2d_F01 sysmat2d_F02 sysmat2d_F03 sysmat2d_F04 sysmat2d_F05 sysmat2d_F06 sysmat2d_F10 sysmat2d_F11 sysmat2d_F12 sysmat2d_F13 sysmat2d_F14 sysmat2d_F15 sysmat2d_F16 sysmat2d_F20 sysmat2d_F21 sysmat2d_F22 sysmat2d_F23 sysmat2d_F24 sysmat2d_F25 sysmat2d_F26 sysmat2d_F30 sysmat2d_F31 sysmat2d_F32 sysmat2d_F33 sysmat2d_F34 sysmat2d_F35 sysmat2d_F36 sysmat2d_F40 sysmat2d_F41 sysmat2d_F42 sysmat2d_F43 sysmat2d_F44 sysmat2d_F45 sysmat2d_F46 sysmat2d_F50 sysmat2d_F51 sysmat2d_F52 sysmat2d_F53 sysmat2d_F54 sysmat2d_F55 sysmat2d_F56 sysmat2d_F60 sysmat2d_F61 sysmat2d_F62 sysmat2d_F63 sysmat2d_F64 sysmat2d_F65 sysmat2d_F66 : F2_out.
#[export] Hint Unfold sysmat3d_G00 sysmat3d_G01 sysmat3d_G02 sysmat3d_G10 sysmat3d_G11 sysmat3d_G12 sysmat3d_G20 sysmat3d_G21 sysmat3d_G22 sysmat3d_G30 sysmat3d_G31 sysmat3d_G32 sysmat3d_G40 sysmat3d_G41 sysmat3d_G42 sysmat3d_G50 sysmat3d_G51 sysmat3d_G52 sysmat3d_G60 sysmat3d_G61 sysmat3d_G62 sysmat3d_G70 sysmat3d_G71 sysmat3d_G72 sysmat3d_G80 sysmat3d_G81 sysmat3d_G82 sysmat3d_A00 sysmat3d_A01 sysmat3d_A02 sysmat3d_A10 sysmat3d_A11 sysmat3d_A12 sysmat3d_A20 sysmat3d_A21 sysmat3d_A22 sysmat3d_A30 sysmat3d_A31 sysmat3d_A32 sysmat3d_A40 sysmat3d_A41 sysmat3d_A42 sysmat3d_A50 sysmat3d_A51 sysmat3d_A52 sysmat3d_A60 sysmat3d_A61 sysmat3d_A62 sysmat3d_A70 sysmat3d_A71 sysmat3d_A72 sysmat3d_A80 sysmat3d_A81 sysmat3d_A82 : B3_out.
#[export] Hint Unfold sysmat2d_G00 sysmat2d_G01 sysmat2d_G02 sysmat2d_G10 sysmat2d_G11 sysmat2d_G12 sysmat2d_G20 sysmat2d_G21 sysmat2d_G22 sysmat2d_G30 sysmat2d_G31 sysmat2d_G32 sysmat2d_G40 sysmat2d_G41 sysmat2d_G42 sysmat2d_G50 sysmat2d_G51 sysmat2d_G52 sysmat2d_G60 sysmat2d_G61 sysmat2d_G62 sysmat2d_A00 sysmat2d_A01 sysmat2d_A02 sysmat2d_A10 sysmat2d_A11 sysmat2d_A12 sysmat2d_A20 sysmat2d_A21 sysmat2d_A22 sysmat2d_A30 sysmat2d_A31 sysmat2d_A32 sysmat2d_A40 sysmat2d_A41 sysmat2d_A42 sysmat2d_A50 sysmat2d_A51 sysmat2d_A52 sysmat2d_A60 sysmat2d_A61 sysmat2d_A62 : B2_out.
#[export] Hint Unfold tr32_t00 tr32_t01 tr32_t02 tr32_t03 tr32_t04 tr32_t05 tr32_t06 tr32_t10 tr32_t11 tr32_t12 tr32_t13 tr32_t14 tr32_t15 tr32_t16 tr32_t20 tr32_t21 tr32_t22 tr32_t23 tr32_t24 tr32_t25 tr32_t26 tr32_t30 tr32_t31 tr32_t32 tr32_t33 tr32_t34 tr32_t35 tr32_t36 tr32_t40 tr32_t41 tr32_t42 tr32_t43 tr32_t44 tr32_t45 tr32_t46 tr32_t50 tr32_t51 tr32_t52 tr32_t53 tr32_t54 tr32_t55 tr32_t56 tr32_t60 tr32_t61 tr32_t62 tr32_t63 tr32_t64 tr32_t65 tr32_t66 tr32_t70 tr32_t71 tr32_t72 tr32_t73 tr32_t74 tr32_t75 tr32_t76 tr32_t80 tr32_t81 tr32_t82 tr32_t83 tr32_t84 tr32_t85 tr32_t86 : T32_out.
#[export] Hint Unfold tr23_t00 tr23_t01 tr23_t02 tr23_t03 tr23_t04 tr23_t05 tr23_t06 tr23_t07 tr23_t08 tr23_t10 tr23_t11 tr23_t12 tr23_t13 tr23_t14 tr23_t15 tr23_t16 tr23_t17 tr23_t18 tr23_t20 tr23_t21 tr23_t22 tr23_t23 tr23_t24 tr23_t25 tr23_t26 tr23_t27 tr23_t28 tr23_t30 tr23_t31 tr23_t32 tr23_t33 tr23_t34 tr23_t35 tr23_t36 tr23_t37 tr23_t38 tr23_t40 tr23_t41 tr23_t42 tr23_t43 tr23_t44 tr23_t45 tr23_t46 tr23_t47 tr23_t48 tr23_t50 tr23_t51 tr23_t52 tr23_t53 tr23_t54 tr23_t55 tr23_t56 tr23_t57 tr23_t58 tr23_t60 tr23_t61 tr23_t62 tr23_t63 tr23_t64 tr23_t65 tr23_t66 tr23_t67 tr23_t68 : T23_out.

(** the hub specification down to + - * /, the radii, gravity and the trigonometric functions *)
Create HintDb nav.
#[export] Hint Unfold nav_rhs_lat nav_rhs_lon nav_rhs_alt nav_rhs_VN nav_rhs_VE nav_rhs_VD
  nav_rhs_C00 nav_rhs_C01 nav_rhs_C02 nav_rhs_C10 nav_rhs_C11 nav_rhs_C12 nav_rhs_C20 nav_rhs_C21 nav_rhs_C22
  nav_cor_N nav_cor_E nav_cor_D nav_om_N nav_om_E nav_om_D nav_rho_N nav_rho_E nav_rho_D
  nav_Omega_N nav_Omega_E nav_Omega_D dot3 cross0 cross1 cross2
  skew00 skew01 skew02 skew10 skew11 skew12 skew20 skew21 skew22
  pd_lat pd_lon pd_alt pd_v0 pd_v1 pd_v2 Rdiv : nav.

(** * 4. Differentiation along a curve

    [path_at P v d]: the curve P passes through v at u = 0 with velocity d.  One rule per head symbol gives
    value and velocity of a curve written with + - * / sin cos tan and the geometry functions, so
    [eauto with paths] differentiates u |-> rhs (s + u d) and returns the derivative in closed form.
    The hints match on syntax: unifying [fun _ => ?c] with a curve that does depend on u would unfold
    sin, cos and PI before failing. *)
Definition path_at (P : R -> R) (v d : R) : Prop := P 0 = v /\ is_derive P 0 d.

Lemma path_const c : path_at (fun _ => c) c 0.
Proof. split; [reflexivity | apply @is_derive_const]. Qed.
Lemma path_affine c d : path_at (fun u => c + u * d) c d.
Proof. split; [ring | auto_derive; [exact I | ring]]. Qed.
Lemma path_plus A B a b a' b' :
  path_at A a a' -> path_at B b b' -> path_at (fun u => A u + B u) (a + b) (a' + b').
Proof. intros [<- HA] [<- HB]. split; [reflexivity | apply @is_derive_plus; assumption]. Qed.
Lemma path_minus A B a b a' b' :
  path_at A a a' -> path_at B b b' -> path_at (fun u => A u - B u) (a - b) (a' - b').
Proof. intros [<- HA] [<- HB]. split; [reflexivity | apply @is_derive_minus; assumption]. Qed.
Lemma path_opp A a a' : path_at A a a' -> path_at (fun u => - A u) (- a) (- a').
Proof. intros [<- HA]. split; [reflexivity | apply @is_derive_opp; assumption]. Qed.
Lemma path_mult A B a b a' b' :
  path_at A a a' -> path_at B b b' -> path_at (fun u => A u * B u) (a * b) (a' * b + a * b').
Proof.
  intros [<- HA] [<- HB]. split; [reflexivity | exact (is_derive_mult A B 0 a' b' HA HB Rmult_comm)].
Qed.
Lemma path_inv A a a' : path_at A a a' -> a <> 0 -> path_at (fun u => / A u) (/ a) (- a' / a ^ 2).
Proof. intros [<- HA] H. split; [reflexivity | apply is_derive_inv; assumption]. Qed.
Lemma path_comp f A a a' l : is_derive f a l -> path_at A a a' -> path_at (fun u => f (A u)) (f a) (a' * l).
Proof. intros Hf [<- HA]. split; [reflexivity | exact (is_derive_comp f A 0 l a' Hf HA)]. Qed.
Lemma path_sin A a a' : path_at A a a' -> path_at (fun u => sin (A u)) (sin a) (a' * cos a).
Proof. apply path_comp, is_derive_sin. Qed.
Lemma path_cos A a a' : path_at A a a' -> path_at (fun u => cos (A u)) (cos a) (a' * - sin a).
Proof. apply path_comp, is_derive_cos. Qed.
Lemma path_tan A a a' :
  path_at A a a' -> cos a <> 0 -> path_at (fun u => tan (A u)) (tan a) (a' * (tan a ^ 2 + 1)).
Proof. intros HA H. revert HA. apply path_comp, is_derive_tan, H. Qed.

Lemma path_derive P v d l : path_at P v d -> d = l -> is_derive P 0 l.
Proof. intros [_ H] <-. exact H. Qed.

Create HintDb paths.
#[export] Hint Extern 0 (path_at (fun _ => ?c) _ _) => exact (path_const c) : paths.
#[export] Hint Extern 1 (path_at (fun u => _ + u * _) _ _) => simple apply path_affine : paths.
#[export] Hint Extern 2 (path_at (fun u => _ + _) _ _) => simple eapply path_plus : paths.
#[export] Hint Extern 2 (path_at (fun u => _ - _) _ _) => simple eapply path_minus : paths.
#[export] Hint Extern 2 (path_at (fun u => - _) _ _) => simple eapply path_opp : paths.
#[export] Hint Extern 2 (path_at (fun u => _ * _) _ _) => simple eapply path_mult : paths.
#[export] Hint Extern 2 (path_at (fun u => / _) _ _) => simple eapply path_inv : paths.
#[export] Hint Extern 2 (path_at (fun u => sin _) _ _) => simple eapply path_sin : paths.
#[export] Hint Extern 2 (path_at (fun u => cos _) _ _) => simple eapply path_cos : paths.
#[export] Hint Extern 2 (path_at (fun u => tan _) _ _) => simple eapply path_tan : paths.
#[export] Hint Extern 1 (PI <> 0) => exact PI_neq0 : paths.
#[export] Hint Extern 1 (A_ <> 0) => unfold A_; lra : paths.
#[export] Hint Extern 1 (_ * _ <> 0) => apply Rmult_integral_contrapositive_currified : paths.

(** the goal is [is_derive P 0 l] with P in the vocabulary of the database [nav] *)
Ltac diff := eapply path_derive; [autounfold with nav; eauto 100 with paths|].

(** * 5. Geometry: positivity and derivatives of the radii and of normal gravity *)

Lemma nav_Rn_big lat : 6000000 <= nav_Rn lat.
Proof. exact (R_meridian_ge (lat * d2r)). Qed.
Lemma nav_Re_big lat : 6000000 <= nav_Re lat.
Proof. pose proof (R_transverse_ge (lat * d2r)). unfold nav_Re. lra. Qed.
Lemma rn_pos lat alt : -1000000 <= alt -> 0 < nav_Rn lat + alt.
Proof. pose proof (nav_Rn_big lat). lra. Qed.
Lemma re_pos lat alt : -1000000 <= alt -> 0 < nav_Re lat + alt.
Proof. pose proof (nav_Re_big lat). lra. Qed.
(* after [auto_derive] on a quotient by powers of q = sqrt (1 - e^2 sin^2 phi), with 0 < 1 - e^2 sin^2 phi and
   0 < q in the context: [geo_side] closes the side conditions (the denominators are nonzero), and [geo_main phi]
   the equation between the derivative found and the closed form, as polynomials in q with q^2 = 1 - e^2 sin^2 phi *)
Ltac geo_side := unfold Rminus in *; repeat split; auto; try (apply Rgt_not_eq; assumption);
  try (apply Rgt_not_eq, Rmult_lt_0_compat; assumption).
Ltac geo_main phi :=
  unfold Rminus in *;
  set (q := sqrt (1 + - (E2_ * (sin phi * sin phi)))) in *;
  assert (Hqq : q * q = 1 + - (E2_ * (sin phi * sin phi))) by (apply sqrt_sqrt; lra);
  assert (Hq0 : q <> 0) by lra;
  rewrite <- Hqq; field_simplify_eq; [ring [Hqq] | try lra; repeat split; lra].

Lemma nav_Rn_derive (lat : R) : is_derive nav_Rn lat (d2r * dRn_dphi lat).
Proof.
  unfold nav_Rn, R_meridian, W2, dRn_dphi, W2l, W2.
  pose proof (W_pos (lat * d2r)) as HW.
  assert (HQ : 0 < sqrt (1 - E2_ * (sin (lat * d2r) * sin (lat * d2r)))) by (apply sqrt_lt_R0; exact HW).
  auto_derive; [geo_side|]. geo_main (lat * d2r).
Qed.
Lemma nav_Re_derive (lat : R) : is_derive nav_Re lat (d2r * dRe_dphi lat).
Proof.
  unfold nav_Re, R_transverse, W2, dRe_dphi, W2l, W2.
  pose proof (W_pos (lat * d2r)) as HW.
  assert (HQ : 0 < sqrt (1 - E2_ * (sin (lat * d2r) * sin (lat * d2r)))) by (apply sqrt_lt_R0; exact HW).
  auto_derive; [geo_side|]. geo_main (lat * d2r).
Qed.
Lemma g0_derive (phi : R) : is_derive g0 phi (dg0 phi).
Proof.
  unfold g0, dg0.
  pose proof (W_pos phi) as HW.
  assert (HQ : 0 < sqrt (1 - E2_ * (sin phi * sin phi))) by (apply sqrt_lt_R0; exact HW).
  auto_derive; [geo_side|]. geo_main phi.
Qed.

Lemma path_Rn A a a' : path_at A a a' -> path_at (fun u => nav_Rn (A u)) (nav_Rn a) (a' * (d2r * dRn_dphi a)).
Proof. apply path_comp, nav_Rn_derive. Qed.
Lemma path_Re A a a' : path_at A a a' -> path_at (fun u => nav_Re (A u)) (nav_Re a) (a' * (d2r * dRe_dphi a)).
Proof. apply path_comp, nav_Re_derive. Qed.
Lemma path_g0 A a a' : path_at A a a' -> path_at (fun u => g0 (A u)) (g0 a) (a' * dg0 a).
Proof. apply path_comp, g0_derive. Qed.
#[export] Hint Extern 2 (path_at (fun u => nav_Rn _) _ _) => simple eapply path_Rn : paths.
#[export] Hint Extern 2 (path_at (fun u => nav_Re _) _ _) => simple eapply path_Re : paths.
#[export] Hint Extern 2 (path_at (fun u => g0 _) _ _) => simple eapply path_g0 : paths.

Lemma ng_split phi h : normal_gravity phi h = g0 phi * (1 - 2 * h / A_).
Proof. reflexivity. Qed.
(* The VD right-hand side with normal gravity written as g0(phi) (1 - 2 h / a): convertible to nav_rhs_VD.
   The VD row is differentiated in this form: the hint [path_g0] then supplies the closed form dg0 ([grav_rate]),
   whereas [paths] has no rule for the square root inside [normal_gravity]. *)
Definition nav_rhs_VD' (lat lon alt VN VE VD C00 C01 C02 C10 C11 C12 C20 C21 C22 w0 w1 w2 f0 f1 f2 : R) : R :=
  dot3 C20 C21 C22 f0 f1 f2 + g0 (lat * d2r) * (1 - 2 * alt / A_)
  - cross2 (nav_cor_N lat alt VN VE) (nav_cor_E lat alt VN VE) (nav_cor_D lat alt VN VE) VN VE VD.
Lemma nav_rhs_VD_g0 : nav_rhs_VD = nav_rhs_VD'.
Proof. reflexivity. Qed.
#[export] Hint Unfold nav_rhs_VD' : nav.

(** * 6. B_gyro and B_accel are exact *)

Ltac unf_rph :=
  unfold mat_from_rph_m00, mat_from_rph_m01, mat_from_rph_m02, mat_from_rph_m10, mat_from_rph_m11,
    mat_from_rph_m12, mat_from_rph_m20, mat_from_rph_m21, mat_from_rph_m22;
  repeat autounfold with mat_from_rph_db.

(** The right-hand sides are affine in (w, f), so the derivative in the direction d is read off; it is compared
    with P(s) (B_gyro dw + B_accel df) as polynomials in the sines and cosines of roll, pitch and heading
    (equal as they stand in the position and velocity rows; the attitude rows need that C is a rotation:
    sin^2 = 1 - cos^2). *)
Lemma sensor_coupling_exact : forall s roll pitch heading m d, att_is s roll pitch heading ->
  rows nav_rhs_alt nav_rhs_VD (fun g pr => is_derive (linB g s m d) 0 (pr (pdelta s (sens s roll pitch heading d)))).
Proof.
  intros s roll pitch heading m d (H00 & H01 & H02 & H10 & H11 & H12 & H20 & H21 & H22).
  pose proof (sin2 (roll * (PI * / 180))) as Hr. pose proof (sin2 (pitch * (PI * / 180))) as Hp.
  pose proof (sin2 (heading * (PI * / 180))) as Hh. unfold Rsqr in Hr, Hp, Hh.
  unfold rows; cbv beta; unfold linB, app; projs; rewrite H00, H01, H02, H10, H11, H12, H20, H21, H22.
  split_conj; diff; unfold sens0, sens1, sens2, sens3, sens4, sens5, sens6, sens7, sens8; autounfold with B3_out nav;
    repeat autounfold with sysmat3d_db; unf_rph; unfold Rdiv; [lra | lra | lra | lra | lra | lra | idtac ..];
    set (sr := sin (roll * (PI * / 180))) in *; set (cr := cos (roll * (PI * / 180))) in *;
    set (sp := sin (pitch * (PI * / 180))) in *; set (cp := cos (pitch * (PI * / 180))) in *;
    set (sh := sin (heading * (PI * / 180))) in *; set (ch := cos (heading * (PI * / 180))) in *; ring [Hr Hp Hh].
Qed.

(** * 7. The generated F in the vocabulary of the specification

    F[DR,DV] = I, F[DR,PHI] = [v x];  F[DV,DV] = -[(2 Omega + rho) x], F[DV,PHI] = -[g x], F[DV3,DR3] = 2 g0 / a;
    F[PHI,DR] = [Omega x] R, F[PHI,DV] = R, F[PHI,PHI] = -[(Omega + rho) x] + R [v x],
    R = curvature matrix ((0, 1/re, 0), (-1/rn, 0, 0), (0, -tan(lat)/re, 0)). *)
Definition corN s := nav_cor_N (s_lat s) (s_alt s) (s_VN s) (s_VE s).
Definition corE s := nav_cor_E (s_lat s) (s_alt s) (s_VN s) (s_VE s).
Definition corD s := nav_cor_D (s_lat s) (s_alt s) (s_VN s) (s_VE s).
Definition omN s := nav_om_N (s_lat s) (s_alt s) (s_VN s) (s_VE s).
Definition omE s := nav_om_E (s_lat s) (s_alt s) (s_VN s) (s_VE s).
Definition omD s := nav_om_D (s_lat s) (s_alt s) (s_VN s) (s_VE s).
Definition OmN s := nav_Omega_N (s_lat s).
Definition OmD s := nav_Omega_D (s_lat s).
Definition grav s := normal_gravity (s_lat s * d2r) (s_alt s).

Definition sm0 s x := e3 x - s_VD s * e7 x + s_VE s * e8 x.
Definition sm1 s x := e4 x + s_VD s * e6 x - s_VN s * e8 x.
Definition sm2 s x := e5 x - s_VE s * e6 x + s_VN s * e7 x.
Definition sm3 s x := corD s * e4 x - corE s * e5 x + grav s * e7 x.
Definition sm4 s x := - corD s * e3 x + corN s * e5 x - grav s * e6 x.
Definition sm5 s x := 2 * g0 (s_lat s * d2r) / A_ * e2 x + corE s * e3 x - corN s * e4 x.
Definition sm6 s x := OmD s / rn s * e0 x + e4 x / re s + s_VD s / re s * e6 x + omD s * e7 x
                      + (- omE s - s_VN s / re s) * e8 x.
Definition sm7 s x := (OmD s / re s + OmN s * tphi s / re s) * e1 x - e3 x / rn s - omD s * e6 x
                      + s_VD s / rn s * e7 x + (omN s - s_VE s / rn s) * e8 x.
Definition sm8 s x := - OmN s / rn s * e0 x - tphi s / re s * e4 x + (omE s - tphi s * s_VD s / re s) * e6 x
                      - omN s * e7 x + tphi s * s_VN s / re s * e8 x.

Lemma sqrt_cos2 (lat w : R) : -90 < lat < 90 ->
  w = 1 - sin (lat * d2r) * sin (lat * d2r) -> sqrt w = cos (lat * d2r).
Proof. intros H ->. unfold d2r. apply sqrt_1msin2, cos_d2r_nonneg. lra. Qed.

(* Canonical form of the GENERATED geometry, semantic rather than syntactic: whatever way the source spells the
   radii / gravity (commuted products, np.reciprocal, np.square, ...), every trigonometric argument is rewritten to
   [lat * d2r], every square-root argument to [W2l lat] (or the square root to cos), and every denominator to one of
   the specification's [nav_Rn lat + alt], [nav_Re lat + alt], [(nav_Re lat + alt) * cos], [sqrt (W2l lat)],
   [W2l lat]; each replacement is justified by ring / field, never by the shape of the term. *)
Ltac canon_trig lat :=
  repeat match goal with
  | |- context [sin ?a] => lazymatch a with lat * d2r => fail | _ =>
        replace a with (lat * d2r) by (unfold d2r, Rdiv; ring) end
  | |- context [cos ?a] => lazymatch a with lat * d2r => fail | _ =>
        replace a with (lat * d2r) by (unfold d2r, Rdiv; ring) end
  | |- context [tan ?a] => lazymatch a with lat * d2r => fail | _ =>
        replace a with (lat * d2r) by (unfold d2r, Rdiv; ring) end
  end.

Ltac canon_sqrt lat :=
  repeat match goal with
  | |- context [sqrt ?w] => lazymatch w with W2l lat => fail | _ =>
        first [ replace w with (W2l lat) by (unfold W2l, W2, E2_, d2r, Rdiv; ring)
              | match goal with Hl : -90 < lat < 90 |- _ =>
                  replace (sqrt w) with (cos (lat * d2r))
                    by (symmetry; apply (sqrt_cos2 lat w Hl); unfold d2r, Rdiv; ring) end ] end
  end.

Ltac den_eq lat :=
  unfold nav_Rn, nav_Re, R_meridian, R_transverse, W2l, W2, A_, E2_, d2r;
  let HW := fresh "HW" in let HQ := fresh "HQ" in
  pose proof (W_pos' (lat * (PI / 180))) as HW; pose proof (sqrtW_pos (lat * (PI / 180))) as HQ;
  set (ss := sin (lat * (PI / 180)) * sin (lat * (PI / 180))) in *;
  field; repeat split; lra.

Ltac is_canon_den d lat alt :=
  lazymatch d with
  | nav_Rn lat + alt => idtac
  | nav_Re lat + alt => idtac
  | (nav_Re lat + alt) * cos (lat * d2r) => idtac
  | sqrt (W2l lat) => idtac
  | W2l lat => idtac
  | cos (lat * d2r) => idtac
  | IZR _ => idtac
  | PI => idtac
  | _ => fail
  end.

Ltac canon_den d lat alt :=
  first [ replace d with (nav_Rn lat + alt) by den_eq lat
        | replace d with (nav_Re lat + alt) by den_eq lat
        | replace d with ((nav_Re lat + alt) * cos (lat * d2r)) by den_eq lat
        | replace d with (sqrt (W2l lat)) by den_eq lat
        | replace d with (W2l lat) by den_eq lat ].

Ltac canon_geo lat alt :=
  unfold Rdiv; canon_trig lat; canon_sqrt lat;
  repeat match goal with |- context [/ ?d] =>
    tryif is_canon_den d lat alt then fail else canon_den d lat alt end.

Ltac model_tac :=
  intros s roll pitch heading x;
  unfold model0, model1, model2, model3, model4, model5, model6, model7, model8,
         sm0, sm1, sm2, sm3, sm4, sm5, sm6, sm7, sm8;
  autounfold with F3_out; repeat autounfold with sysmat3d_db;
  unfold corN, corE, corD, omN, omE, omD, OmN, OmD, grav, rn, re, sphi, cphi, tphi;
  autounfold with nav; rewrite ?ng_split; unfold g0; canon_geo (s_lat s) (s_alt s);
  unfold nav_Re, nav_Rn, R_transverse, R_meridian, RATE_, GE_, FG_, A_, E2_, Rdiv; lra.

Lemma model0_spec : forall s roll pitch heading x, model0 s roll pitch heading x = sm0 s x.
Proof. model_tac. Qed.
Lemma model1_spec : forall s roll pitch heading x, model1 s roll pitch heading x = sm1 s x.
Proof. model_tac. Qed.
Lemma model2_spec : forall s roll pitch heading x, model2 s roll pitch heading x = sm2 s x.
Proof. model_tac. Qed.
Lemma model3_spec : forall s roll pitch heading x, model3 s roll pitch heading x = sm3 s x.
Proof. model_tac. Qed.
Lemma model4_spec : forall s roll pitch heading x, model4 s roll pitch heading x = sm4 s x.
Proof. model_tac. Qed.
Lemma model5_spec : forall s roll pitch heading x, model5 s roll pitch heading x = sm5 s x.
Proof. model_tac. Qed.
Lemma model6_spec : forall s roll pitch heading x, model6 s roll pitch heading x = sm6 s x.
Proof. model_tac. Qed.
Lemma model7_spec : forall s roll pitch heading x, model7 s roll pitch heading x = sm7 s x.
Proof. model_tac. Qed.
Lemma model8_spec : forall s roll pitch heading x, model8 s roll pitch heading x = sm8 s x.
Proof. model_tac. Qed.

(** * 8. The error dynamics: F + N is the linearisation of the hub specification in the library's coordinates *)

Definition dom (s : nstate) : Prop := -90 < s_lat s < 90 /\ -1000000 <= s_alt s.

Lemma rn_neq s : dom s -> nav_Rn (s_lat s) + s_alt s <> 0.
Proof. intros [_ H]. apply Rgt_not_eq, rn_pos, H. Qed.
Lemma re_neq s : dom s -> nav_Re (s_lat s) + s_alt s <> 0.
Proof. intros [_ H]. apply Rgt_not_eq, re_pos, H. Qed.
Lemma cphi_neq s : dom s -> cos (s_lat s * d2r) <> 0.
Proof. intros [H _]. apply Rgt_not_eq, cos_d2r_pos, H. Qed.
#[export] Hint Extern 1 (nav_Rn _ + _ <> 0) => apply rn_neq; assumption : paths.
#[export] Hint Extern 1 (nav_Re _ + _ <> 0) => apply re_neq; assumption : paths.
#[export] Hint Extern 1 (cos _ <> 0) => apply cphi_neq; assumption : paths.

(** (F + N) x in the vocabulary of the hub specification *)
Create HintDb errd.
#[export] Hint Unfold errdyn0 errdyn1 errdyn2 errdyn3 errdyn4 errdyn5 errdyn6 errdyn7 errdyn8
  sm0 sm1 sm2 sm3 sm4 sm5 sm6 sm7 sm8 negl0 negl1 negl2 negl3 negl4 negl5 negl6 negl7 negl8
  N00 N02 N10 N11 N12 N30 N36 N37 N38 N40 N47 N50 N56 N57 N58 N60 N62 N70 N72 N80 N82
  corN corE corD omN omE omD OmN OmD grav rn re sphi cphi tphi app : errd.
#[export] Hint Rewrite model0_spec model1_spec model2_spec model3_spec model4_spec model5_spec
  model6_spec model7_spec model8_spec : errd.

(** A row: write the residual [lin g pr s m x] as an explicit curve in u (the values [app g' s m] of the vector
    field stay folded), differentiate it along the curve, and compare the closed form with [pr (P(s) (F + N) x)].
    For the position rows [row] compares them as rational functions of the radii, sin/cos of the latitude,
    dRn_dphi, dRe_dphi. *)
Ltac lin_nf := unfold lin; unfold app at 1; projs.
Ltac expand :=
  autounfold with errd; autorewrite with errd; autounfold with errd; autounfold with nav; rewrite ?ng_split;
  unfold tan, r2d, d2r, Rdiv.
Ltac row := lin_nf; diff; expand; field; repeat split; auto with paths.

(** The velocity and attitude rows see the geometry only through the rotation rates om = Omega + rho of the NED frame
    and cor = 2 Omega + rho.  Along the displaced state om has velocity  phi' + om x phi  with phi' the PHI rows of
    (F + N) x, and cor that plus the velocity of Omega.  Given these, v' = C f + g - cor x v and C' = C [w x] - [om x] C
    are differentiated with om and cor opaque curves, and a row is an identity between polynomials. *)
Definition along (f : R -> R -> R -> R -> R) (s : nstate) (x : err) (u : R) : R :=
  let p := sadd s u (pdelta s x) in f (s_lat p) (s_alt p) (s_VN p) (s_VE p).
Ltac rate := unfold along; projs; split; [rewrite !Rmult_0_l, !Rplus_0_r; reflexivity
                                        | diff; expand; field; repeat split; auto with paths].
Lemma om_rate s x : dom s ->
  path_at (along nav_om_N s x) (omN s) (sm6 s x + negl6 s x + cross0 (omN s) (omE s) (omD s) (e6 x) (e7 x) (e8 x)) /\
  path_at (along nav_om_E s x) (omE s) (sm7 s x + negl7 s x + cross1 (omN s) (omE s) (omD s) (e6 x) (e7 x) (e8 x)) /\
  path_at (along nav_om_D s x) (omD s) (sm8 s x + negl8 s x + cross2 (omN s) (omE s) (omD s) (e6 x) (e7 x) (e8 x)).
Proof. intro Hd. split_conj; rate. Qed.
Lemma cor_rate s x : dom s ->
  path_at (along nav_cor_N s x) (corN s)
    (sm6 s x + negl6 s x + cross0 (omN s) (omE s) (omD s) (e6 x) (e7 x) (e8 x) - RATE_ * sphi s * e0 x / rn s) /\
  path_at (along nav_cor_E s x) (corE s) (sm7 s x + negl7 s x + cross1 (omN s) (omE s) (omD s) (e6 x) (e7 x) (e8 x)) /\
  path_at (along nav_cor_D s x) (corD s)
    (sm8 s x + negl8 s x + cross2 (omN s) (omE s) (omD s) (e6 x) (e7 x) (e8 x) - RATE_ * cphi s * e0 x / rn s).
Proof. intro Hd. split_conj; rate. Qed.
Lemma grav_rate s x : dom s ->
  path_at (along (fun lat alt _ _ => g0 (lat * d2r) * (1 - 2 * alt / A_)) s x) (grav s)
    (dg0 (s_lat s * d2r) * (1 - 2 * s_alt s / A_) * e0 x / rn s + 2 * g0 (s_lat s * d2r) / A_ * e2 x).
Proof. intro Hd. rate. Qed.
#[export] Hint Extern 1 (path_at (fun u => g0 _ * _) _ _) => apply grav_rate; assumption : paths.
#[export] Hint Extern 1 (path_at (fun u => nav_om_N _ _ _ _) _ _) =>
  apply (fun s x H => proj1 (om_rate s x H)); assumption : paths.
#[export] Hint Extern 1 (path_at (fun u => nav_om_E _ _ _ _) _ _) =>
  apply (fun s x H => proj1 (proj2 (om_rate s x H))); assumption : paths.
#[export] Hint Extern 1 (path_at (fun u => nav_om_D _ _ _ _) _ _) =>
  apply (fun s x H => proj2 (proj2 (om_rate s x H))); assumption : paths.
#[export] Hint Extern 1 (path_at (fun u => nav_cor_N _ _ _ _) _ _) =>
  apply (fun s x H => proj1 (cor_rate s x H)); assumption : paths.
#[export] Hint Extern 1 (path_at (fun u => nav_cor_E _ _ _ _) _ _) =>
  apply (fun s x H => proj1 (proj2 (cor_rate s x H))); assumption : paths.
#[export] Hint Extern 1 (path_at (fun u => nav_cor_D _ _ _ _) _ _) =>
  apply (fun s x H => proj2 (proj2 (cor_rate s x H))); assumption : paths.

(** the velocity and attitude right-hand sides down to + - * and nav_om_*, nav_cor_* *)
Create HintDb att.
#[export] Hint Unfold nav_rhs_VN nav_rhs_VE nav_rhs_VD nav_rhs_VD'
  nav_rhs_C00 nav_rhs_C01 nav_rhs_C02 nav_rhs_C10 nav_rhs_C11 nav_rhs_C12 nav_rhs_C20 nav_rhs_C21 nav_rhs_C22
  dot3 cross0 cross1 cross2 skew00 skew01 skew02 skew10 skew11 skew12 skew20 skew21 skew22 pd_v0 pd_v1 pd_v2 : att.
(** after differentiation om = Omega + rho and cor = 2 Omega + rho are opened, rho stays an atom *)
Ltac frame_row :=
  lin_nf; eapply path_derive; [autounfold with att; eauto 100 with paths|];
  projs; unfold errdyn3, errdyn4, errdyn5, errdyn6, errdyn7, errdyn8, app; autorewrite with errd;
  unfold sm3, sm4, sm5, negl3, negl4, negl5, N30, N36, N37, N38, N40, N47, N50, N56, N57, N58,
    corN, corE, corD, omN, omE, omD, grav, sphi, cphi, rn; autounfold with att;
  unfold nav_cor_N, nav_cor_E, nav_cor_D, nav_om_N, nav_om_E, nav_om_D, nav_Omega_N, nav_Omega_E, nav_Omega_D, Rdiv; lra.

Lemma errdyn_is_linearisation : forall s roll pitch heading m x, dom s ->
  rows nav_rhs_alt nav_rhs_VD (fun g pr => is_derive (lin g pr s m x) 0 (pr (pdelta s (errdyn s roll pitch heading x)))).
Proof.
  intros s roll pitch heading m x Hd. unfold rows; cbv beta.
  (* the VD row: gravity as g0, see [nav_rhs_VD'] *)
  split_conj; [row | row | row | frame_row | frame_row | rewrite nav_rhs_VD_g0; frame_row | frame_row ..].
Qed.

(** * 9. No-altitude mode: the 7-state model is the linearisation of the 2D navigation equations

    The 2D integrator keeps altitude and VD = 0 fixed.  The 7-state error y = (DR1 DR2 DV1 DV2 PHI1 PHI2 PHI3) is
    lifted onto the constraint surface dr3 = 0, dv3 = VE phi1 - VN phi2 (so that the perturbed state keeps VD = 0);
    [lift s y] is T32(VN, VE) y (C04_lift_is_T32).  On level trajectories (VD = 0 and the vertical channel of the
    navigation equations in equilibrium) the generated 7-state matrix plus the reduced remainder is the linearisation. *)
Record err7 : Type := mkX7 { y0 : R; y1 : R; y2 : R; y3 : R; y4 : R; y5 : R; y6 : R }.
Definition lift (s : nstate) (y : err7) : err :=
  mkX (y0 y) (y1 y) 0 (y2 y) (y3 y) (s_VE s * y4 y - s_VN s * y5 y) (y4 y) (y5 y) (y6 y).
Definition rhs_zero : rhs21 := fun _ _ _ _ _ _ _ _ _ _ _ _ _ _ _ _ _ _ _ _ _ => 0.
(** the 2D vector field: altitude and vertical velocity do not move *)
Definition nav_field2 (s : nstate) (m : imu) : nstate :=
  mkS (app nav_rhs_lat s m) (app nav_rhs_lon s m) 0
      (app nav_rhs_VN s m) (app nav_rhs_VE s m) 0
      (app nav_rhs_C00 s m) (app nav_rhs_C01 s m) (app nav_rhs_C02 s m)
      (app nav_rhs_C10 s m) (app nav_rhs_C11 s m) (app nav_rhs_C12 s m)
      (app nav_rhs_C20 s m) (app nav_rhs_C21 s m) (app nav_rhs_C22 s m).
Definition lin2 (g : rhs21) (pr : nstate -> R) (s : nstate) (m : imu) (y : err7) (u : R) : R :=
  app g (sadd s u (pdelta s (lift s y))) m
  - pr (pdelta (sadd s u (nav_field2 s m)) (lift (sadd s u (nav_field2 s m)) y)).
(** level flight: no vertical velocity and the vertical channel in equilibrium,
    f_D = -g + ((2 Omega + rho) x v)_D: the trajectories the no-altitude integrator can follow *)
Definition level (s : nstate) (m : imu) : Prop := s_VD s = 0 /\ app nav_rhs_VD s m = 0.

Definition modelR0 (s : nstate) (roll pitch heading : R) (y : err7) : R :=
  sysmat2d_F00 (s_lat s) (s_lon s) (s_alt s) (s_VN s) (s_VE s) (s_VD s) roll pitch heading * y0 y + sysmat2d_F01 (s_lat s) (s_lon s) (s_alt s) (s_VN s) (s_VE s) (s_VD s) roll pitch heading * y1 y + sysmat2d_F02 (s_lat s) (s_lon s) (s_alt s) (s_VN s) (s_VE s) (s_VD s) roll pitch heading * y2 y + sysmat2d_F03 (s_lat s) (s_lon s) (s_alt s) (s_VN s) (s_VE s) (s_VD s) roll pitch heading * y3 y + sysmat2d_F04 (s_lat s) (s_lon s) (s_alt s) (s_VN s) (s_VE s) (s_VD s) roll pitch heading * y4 y + sysmat2d_F05 (s_lat s) (s_lon s) (s_alt s) (s_VN s) (s_VE s) (s_VD s) roll pitch heading * y5 y + sysmat2d_F06 (s_lat s) (s_lon s) (s_alt s) (s_VN s) (s_VE s) (s_VD s) roll pitch heading * y6 y.
Definition modelR1 (s : nstate) (roll pitch heading : R) (y : err7) : R :=
  sysmat2d_F10 (s_lat s) (s_lon s) (s_alt s) (s_VN s) (s_VE s) (s_VD s) roll pitch heading * y0 y + sysmat2d_F11 (s_lat s) (s_lon s) (s_alt s) (s_VN s) (s_VE s) (s_VD s) roll pitch heading * y1 y + sysmat2d_F12 (s_lat s) (s_lon s) (s_alt s) (s_VN s) (s_VE s) (s_VD s) roll pitch heading * y2 y + sysmat2d_F13 (s_lat s) (s_lon s) (s_alt s) (s_VN s) (s_VE s) (s_VD s) roll pitch heading * y3 y + sysmat2d_F14 (s_lat s) (s_lon s) (s_alt s) (s_VN s) (s_VE s) (s_VD s) roll pitch heading * y4 y + sysmat2d_F15 (s_lat s) (s_lon s) (s_alt s) (s_VN s) (s_VE s) (s_VD s) roll pitch heading * y5 y + sysmat2d_F16 (s_lat s) (s_lon s) (s_alt s) (s_VN s) (s_VE s) (s_VD s) roll pitch heading * y6 y.
Definition modelR2 (s : nstate) (roll pitch heading : R) (y : err7) : R :=
  sysmat2d_F20 (s_lat s) (s_lon s) (s_alt s) (s_VN s) (s_VE s) (s_VD s) roll pitch heading * y0 y + sysmat2d_F21 (s_lat s) (s_lon s) (s_alt s) (s_VN s) (s_VE s) (s_VD s) roll pitch heading * y1 y + sysmat2d_F22 (s_lat s) (s_lon s) (s_alt s) (s_VN s) (s_VE s) (s_VD s) roll pitch heading * y2 y + sysmat2d_F23 (s_lat s) (s_lon s) (s_alt s) (s_VN s) (s_VE s) (s_VD s) roll pitch heading * y3 y + sysmat2d_F24 (s_lat s) (s_lon s) (s_alt s) (s_VN s) (s_VE s) (s_VD s) roll pitch heading * y4 y + sysmat2d_F25 (s_lat s) (s_lon s) (s_alt s) (s_VN s) (s_VE s) (s_VD s) roll pitch heading * y5 y + sysmat2d_F26 (s_lat s) (s_lon s) (s_alt s) (s_VN s) (s_VE s) (s_VD s) roll pitch heading * y6 y.
Definition modelR3 (s : nstate) (roll pitch heading : R) (y : err7) : R :=
  sysmat2d_F30 (s_lat s) (s_lon s) (s_alt s) (s_VN s) (s_VE s) (s_VD s) roll pitch heading * y0 y + sysmat2d_F31 (s_lat s) (s_lon s) (s_alt s) (s_VN s) (s_VE s) (s_VD s) roll pitch heading * y1 y + sysmat2d_F32 (s_lat s) (s_lon s) (s_alt s) (s_VN s) (s_VE s) (s_VD s) roll pitch heading * y2 y + sysmat2d_F33 (s_lat s) (s_lon s) (s_alt s) (s_VN s) (s_VE s) (s_VD s) roll pitch heading * y3 y + sysmat2d_F34 (s_lat s) (s_lon s) (s_alt s) (s_VN s) (s_VE s) (s_VD s) roll pitch heading * y4 y + sysmat2d_F35 (s_lat s) (s_lon s) (s_alt s) (s_VN s) (s_VE s) (s_VD s) roll pitch heading * y5 y + sysmat2d_F36 (s_lat s) (s_lon s) (s_alt s) (s_VN s) (s_VE s) (s_VD s) roll pitch heading * y6 y.
Definition modelR4 (s : nstate) (roll pitch heading : R) (y : err7) : R :=
  sysmat2d_F40 (s_lat s) (s_lon s) (s_alt s) (s_VN s) (s_VE s) (s_VD s) roll pitch heading * y0 y + sysmat2d_F41 (s_lat s) (s_lon s) (s_alt s) (s_VN s) (s_VE s) (s_VD s) roll pitch heading * y1 y + sysmat2d_F42 (s_lat s) (s_lon s) (s_alt s) (s_VN s) (s_VE s) (s_VD s) roll pitch heading * y2 y + sysmat2d_F43 (s_lat s) (s_lon s) (s_alt s) (s_VN s) (s_VE s) (s_VD s) roll pitch heading * y3 y + sysmat2d_F44 (s_lat s) (s_lon s) (s_alt s) (s_VN s) (s_VE s) (s_VD s) roll pitch heading * y4 y + sysmat2d_F45 (s_lat s) (s_lon s) (s_alt s) (s_VN s) (s_VE s) (s_VD s) roll pitch heading * y5 y + sysmat2d_F46 (s_lat s) (s_lon s) (s_alt s) (s_VN s) (s_VE s) (s_VD s) roll pitch heading * y6 y.
Definition modelR5 (s : nstate) (roll pitch heading : R) (y : err7) : R :=
  sysmat2d_F50 (s_lat s) (s_lon s) (s_alt s) (s_VN s) (s_VE s) (s_VD s) roll pitch heading * y0 y + sysmat2d_F51 (s_lat s) (s_lon s) (s_alt s) (s_VN s) (s_VE s) (s_VD s) roll pitch heading * y1 y + sysmat2d_F52 (s_lat s) (s_lon s) (s_alt s) (s_VN s) (s_VE s) (s_VD s) roll pitch heading * y2 y + sysmat2d_F53 (s_lat s) (s_lon s) (s_alt s) (s_VN s) (s_VE s) (s_VD s) roll pitch heading * y3 y + sysmat2d_F54 (s_lat s) (s_lon s) (s_alt s) (s_VN s) (s_VE s) (s_VD s) roll pitch heading * y4 y + sysmat2d_F55 (s_lat s) (s_lon s) (s_alt s) (s_VN s) (s_VE s) (s_VD s) roll pitch heading * y5 y + sysmat2d_F56 (s_lat s) (s_lon s) (s_alt s) (s_VN s) (s_VE s) (s_VD s) roll pitch heading * y6 y.
Definition modelR6 (s : nstate) (roll pitch heading : R) (y : err7) : R :=
  sysmat2d_F60 (s_lat s) (s_lon s) (s_alt s) (s_VN s) (s_VE s) (s_VD s) roll pitch heading * y0 y + sysmat2d_F61 (s_lat s) (s_lon s) (s_alt s) (s_VN s) (s_VE s) (s_VD s) roll pitch heading * y1 y + sysmat2d_F62 (s_lat s) (s_lon s) (s_alt s) (s_VN s) (s_VE s) (s_VD s) roll pitch heading * y2 y + sysmat2d_F63 (s_lat s) (s_lon s) (s_alt s) (s_VN s) (s_VE s) (s_VD s) roll pitch heading * y3 y + sysmat2d_F64 (s_lat s) (s_lon s) (s_alt s) (s_VN s) (s_VE s) (s_VD s) roll pitch heading * y4 y + sysmat2d_F65 (s_lat s) (s_lon s) (s_alt s) (s_VN s) (s_VE s) (s_VD s) roll pitch heading * y5 y + sysmat2d_F66 (s_lat s) (s_lon s) (s_alt s) (s_VN s) (s_VE s) (s_VD s) roll pitch heading * y6 y.
Definition errdynR0 (s : nstate) (roll pitch heading : R) (y : err7) : R :=
  modelR0 s roll pitch heading y + negl0 s (lift s y).
Definition errdynR1 (s : nstate) (roll pitch heading : R) (y : err7) : R :=
  modelR1 s roll pitch heading y + negl1 s (lift s y).
Definition errdynR2 (s : nstate) (roll pitch heading : R) (y : err7) : R :=
  modelR2 s roll pitch heading y + negl3 s (lift s y).
Definition errdynR3 (s : nstate) (roll pitch heading : R) (y : err7) : R :=
  modelR3 s roll pitch heading y + negl4 s (lift s y).
Definition errdynR4 (s : nstate) (roll pitch heading : R) (y : err7) : R :=
  modelR4 s roll pitch heading y + negl6 s (lift s y).
Definition errdynR5 (s : nstate) (roll pitch heading : R) (y : err7) : R :=
  modelR5 s roll pitch heading y + negl7 s (lift s y).
Definition errdynR6 (s : nstate) (roll pitch heading : R) (y : err7) : R :=
  modelR6 s roll pitch heading y + negl8 s (lift s y).
Definition errdynR (s : nstate) (roll pitch heading : R) (y : err7) : err7 :=
  mkX7 (errdynR0 s roll pitch heading y) (errdynR1 s roll pitch heading y) (errdynR2 s roll pitch heading y) (errdynR3 s roll pitch heading y) (errdynR4 s roll pitch heading y) (errdynR5 s roll pitch heading y) (errdynR6 s roll pitch heading y).

Ltac projs7 :=
  cbn [lift errdynR nav_field2 y0 y1 y2 y3 y4 y5 y6
       sadd iadd xscale pdelta nav_field errdyn sens s_lat s_lon s_alt s_VN s_VE s_VD s_C00 s_C01 s_C02 s_C10 s_C11 s_C12 s_C20 s_C21 s_C22
       i_w0 i_w1 i_w2 i_f0 i_f1 i_f2 e0 e1 e2 e3 e4 e5 e6 e7 e8].

(** F2 y = F T32 y on the retained rows: row k of the generated 7-state matrix against row sel7 k of the 9-state one *)
Lemma modelR_lift : forall s roll pitch heading y,
  modelR0 s roll pitch heading y = model0 s roll pitch heading (lift s y) /\
  modelR1 s roll pitch heading y = model1 s roll pitch heading (lift s y) /\
  modelR2 s roll pitch heading y = model3 s roll pitch heading (lift s y) /\
  modelR3 s roll pitch heading y = model4 s roll pitch heading (lift s y) /\
  modelR4 s roll pitch heading y = model6 s roll pitch heading (lift s y) /\
  modelR5 s roll pitch heading y = model7 s roll pitch heading (lift s y) /\
  modelR6 s roll pitch heading y = model8 s roll pitch heading (lift s y).
Proof.
  intros s roll pitch heading y.
  unfold modelR0, modelR1, modelR2, modelR3, modelR4, modelR5, modelR6, model0, model1, model3, model4, model6,
    model7, model8; projs7.
  repeat split; autounfold with F2_out F3_out; repeat autounfold with sysmat2d_db;
    repeat autounfold with sysmat3d_db; lra.
Qed.

(** (F + N) T32 y agrees with T32 (F2 + N2) y on the seven retained states, and its DR3 component vanishes *)
Lemma errdyn_lift : forall s roll pitch heading y,
  errdyn0 s roll pitch heading (lift s y) = errdynR0 s roll pitch heading y /\
  errdyn1 s roll pitch heading (lift s y) = errdynR1 s roll pitch heading y /\
  errdyn3 s roll pitch heading (lift s y) = errdynR2 s roll pitch heading y /\
  errdyn4 s roll pitch heading (lift s y) = errdynR3 s roll pitch heading y /\
  errdyn6 s roll pitch heading (lift s y) = errdynR4 s roll pitch heading y /\
  errdyn7 s roll pitch heading (lift s y) = errdynR5 s roll pitch heading y /\
  errdyn8 s roll pitch heading (lift s y) = errdynR6 s roll pitch heading y /\
  errdyn2 s roll pitch heading (lift s y) = 0.
Proof.
  intros s roll pitch heading y.
  destruct (modelR_lift s roll pitch heading y) as (M0 & M1 & M2 & M3 & M4 & M5 & M6).
  unfold errdynR0, errdynR1, errdynR2, errdynR3, errdynR4, errdynR5, errdynR6.
  rewrite M0, M1, M2, M3, M4, M5, M6. repeat split.
  unfold errdyn2. rewrite model2_spec. unfold sm2, negl2. projs7. ring.
Qed.

Lemma field2_eq : forall s m, level s m -> nav_field2 s m = nav_field s m.
Proof.
  intros s m [HVD Hlev]. unfold nav_field2, nav_field. apply mkS_ext; try reflexivity.
  - unfold app, nav_rhs_alt. rewrite HVD. ring.
  - symmetry. exact Hlev.
Qed.

Lemma lift_keeps_VD : forall s y, s_VD (pdelta s (lift s y)) = 0.
Proof. intros s y. cbn [pdelta]; projs7. unfold pd_v2, cross2. ring. Qed.

(** two error vectors that differ only in DV3 displace every component except VD alike *)
Definition same_but5 (x x' : err) : Prop :=
  e0 x = e0 x' /\ e1 x = e1 x' /\ e2 x = e2 x' /\ e3 x = e3 x' /\ e4 x = e4 x' /\
  e6 x = e6 x' /\ e7 x = e7 x' /\ e8 x = e8 x'.
Definition ignores5 (pr : nstate -> R) : Prop :=
  forall s x x', same_but5 x x' -> pr (pdelta s x) = pr (pdelta s x').
Ltac ign5 := intros ? ? ? E; unfold same_but5 in E; decompose [and] E; projs; unfold pd_v0, pd_v1; congruence.

(** A 2D row follows from the 3D row at the lifted error: on level flight the 2D field is the 3D one, the chart
    component does not see that [lift] is taken at the moved state (only DV3 differs), and the lifted 7-state
    rate is the 9-state rate of the lifted error up to DV3 ([errdyn_lift]).  [g2] is the 2D right-hand side,
    equal to the 3D one [g] along the lifted displacement. *)
Lemma row2_gen : forall g2 g pr s roll pitch heading m y, ignores5 pr -> level s m ->
  (forall u, app g2 (sadd s u (pdelta s (lift s y))) m = app g (sadd s u (pdelta s (lift s y))) m) ->
  is_derive (lin g pr s m (lift s y)) 0 (pr (pdelta s (errdyn s roll pitch heading (lift s y)))) ->
  is_derive (lin2 g2 pr s m y) 0 (pr (pdelta s (lift s (errdynR s roll pitch heading y)))).
Proof.
  intros g2 g pr s roll pitch heading m y Hpr Hlev Hg H3.
  destruct (errdyn_lift s roll pitch heading y) as (E0 & E1 & E3 & E4 & E6 & E7 & E8 & E2).
  rewrite (Hpr s (lift s (errdynR s roll pitch heading y)) (errdyn s roll pitch heading (lift s y)))
    by (unfold same_but5; cbn [errdyn errdynR]; projs7; auto 10).
  apply is_derive_ext with (2 := H3). intro u. unfold lin2, lin.
  rewrite Hg, (field2_eq s m Hlev). f_equal. apply Hpr. unfold same_but5; projs7. auto 10.
Qed.

Lemma errdyn2d_is_linearisation : forall s roll pitch heading m y, dom s -> level s m ->
  rows rhs_zero rhs_zero
    (fun g pr => is_derive (lin2 g pr s m y) 0 (pr (pdelta s (lift s (errdynR s roll pitch heading y))))).
Proof.
  intros s roll pitch heading m y Hd Hl.
  pose proof (errdyn_is_linearisation s roll pitch heading m (lift s y) Hd) as R3.
  unfold rows in *; cbv beta in *. decompose [and] R3. split_conj.
  3: { eapply row2_gen; [ign5 | exact Hl | | eassumption]. intro u. unfold app, rhs_zero, nav_rhs_alt.
       cbn [sadd s_VD]. rewrite lift_keeps_VD, (proj1 Hl). ring. }
  5: { rewrite lift_keeps_VD. apply is_derive_ext with (f := fun _ : R => 0); [|apply @is_derive_const].
       intro u. unfold lin2. rewrite lift_keeps_VD. unfold app, rhs_zero. symmetry. apply Rminus_0_r. }
  all: eapply row2_gen; [ign5 | exact Hl | intro u; reflexivity | eassumption].
Qed.

(** the [level] hypothesis is necessary: at rest on the equator with zero specific force (free fall: f_D = 0, not -g)
    and a unit PHI2 error the 2D right-hand side does not move at all (derivative 0), while the model predicts the
    gravity-tilt rate g0(0) = GE_ for DV1 *)
Definition s_rest : nstate := mkS 0 0 0 0 0 0 1 0 0 0 1 0 0 0 1.
Definition m_fall : imu := mkI 0 0 0 0 0 0.
Definition y_phi2 : err7 := mkX7 0 0 0 0 0 1 0.

Lemma errdyn2d_nonlevel_refuted :
  dom s_rest /\ s_VD s_rest = 0 /\ ~ level s_rest m_fall /\
  is_derive (lin2 nav_rhs_VN s_VN s_rest m_fall y_phi2) 0 0 /\
  s_VN (pdelta s_rest (lift s_rest (errdynR s_rest 0 0 0 y_phi2))) = GE_ /\
  ~ is_derive (lin2 nav_rhs_VN s_VN s_rest m_fall y_phi2) 0
      (s_VN (pdelta s_rest (lift s_rest (errdynR s_rest 0 0 0 y_phi2)))).
Proof.
  assert (Hg : normal_gravity (0 * d2r) 0 = GE_).
  { unfold normal_gravity. rewrite Rmult_0_l, sin_0, !Rmult_0_r, Rminus_0_r, sqrt_1, Rplus_0_r.
    unfold A_. field. }
  assert (Hval : s_VN (pdelta s_rest (lift s_rest (errdynR s_rest 0 0 0 y_phi2))) = GE_).
  { destruct (modelR_lift s_rest 0 0 0 y_phi2) as (_ & _ & M2 & _).
    cbn [pdelta errdynR]; projs7. unfold errdynR2. rewrite M2, model3_spec.
    unfold sm3, negl3, N30, N36, N37, N38, corD, corE, grav, pd_v0, cross0, s_rest, y_phi2; projs7.
    rewrite Hg. ring. }
  assert (Hder : is_derive (lin2 nav_rhs_VN s_VN s_rest m_fall y_phi2) 0 0).
  { assert (E : forall u : R, lin2 nav_rhs_VN s_VN s_rest m_fall y_phi2 u = 0);
      [|apply is_derive_ext with (f := fun _ : R => 0); [intro u; symmetry; apply E|apply @is_derive_const]].
    intro u. unfold lin2, app at 1, s_rest, m_fall, y_phi2. cbn [sadd pdelta nav_field2]; projs7.
    unfold nav_rhs_VN at 1; unfold pd_v0, pd_v1, pd_v2, dot3, cross0, cross1, cross2. ring. }
  refine (conj _ (conj eq_refl (conj _ (conj Hder (conj Hval _))))).
  - unfold dom, s_rest; projs; lra.
  - intros [_ H]. unfold app, s_rest, m_fall, nav_rhs_VD, dot3, cross2 in H.
    cbn [s_lat s_alt s_VN s_VE s_VD s_C20 s_C21 s_C22 i_f0 i_f1 i_f2] in H.
    rewrite Hg in H. unfold GE_ in H. lra.
  - intro H. rewrite Hval in H.
    pose proof (is_derive_unique _ _ _ Hder) as E0. pose proof (is_derive_unique _ _ _ H) as E1.
    rewrite E0 in E1. unfold GE_ in E1. lra.
Qed.

(** * 10. The 7-state model is the 9-state model reduced by the library's own matrices

    Matrices as functions of two indices (index bookkeeping over GENERATED entries). *)
Definition mat := nat -> nat -> R.
Definition sum9 (f : nat -> R) : R :=
  f 0%nat + f 1%nat + f 2%nat + f 3%nat + f 4%nat + f 5%nat + f 6%nat + f 7%nat + f 8%nat.
Definition mmul9 (A B : mat) : mat := fun i j => sum9 (fun k => A i k * B k j).

Definition F3m (lat lon alt VN VE VD roll pitch heading : R) (i j : nat) : R :=
  match i, j with
  | 0, 0 => sysmat3d_F00 lat lon alt VN VE VD roll pitch heading | 0, 1 => sysmat3d_F01 lat lon alt VN VE VD roll pitch heading | 0, 2 => sysmat3d_F02 lat lon alt VN VE VD roll pitch heading | 0, 3 => sysmat3d_F03 lat lon alt VN VE VD roll pitch heading | 0, 4 => sysmat3d_F04 lat lon alt VN VE VD roll pitch heading | 0, 5 => sysmat3d_F05 lat lon alt VN VE VD roll pitch heading | 0, 6 => sysmat3d_F06 lat lon alt VN VE VD roll pitch heading | 0, 7 => sysmat3d_F07 lat lon alt VN VE VD roll pitch heading | 0, 8 => sysmat3d_F08 lat lon alt VN VE VD roll pitch heading
  | 1, 0 => sysmat3d_F10 lat lon alt VN VE VD roll pitch heading | 1, 1 => sysmat3d_F11 lat lon alt VN VE VD roll pitch heading | 1, 2 => sysmat3d_F12 lat lon alt VN VE VD roll pitch heading | 1, 3 => sysmat3d_F13 lat lon alt VN VE VD roll pitch heading | 1, 4 => sysmat3d_F14 lat lon alt VN VE VD roll pitch heading | 1, 5 => sysmat3d_F15 lat lon alt VN VE VD roll pitch heading | 1, 6 => sysmat3d_F16 lat lon alt VN VE VD roll pitch heading | 1, 7 => sysmat3d_F17 lat lon alt VN VE VD roll pitch heading | 1, 8 => sysmat3d_F18 lat lon alt VN VE VD roll pitch heading
  | 2, 0 => sysmat3d_F20 lat lon alt VN VE VD roll pitch heading | 2, 1 => sysmat3d_F21 lat lon alt VN VE VD roll pitch heading | 2, 2 => sysmat3d_F22 lat lon alt VN VE VD roll pitch heading | 2, 3 => sysmat3d_F23 lat lon alt VN VE VD roll pitch heading | 2, 4 => sysmat3d_F24 lat lon alt VN VE VD roll pitch heading | 2, 5 => sysmat3d_F25 lat lon alt VN VE VD roll pitch heading | 2, 6 => sysmat3d_F26 lat lon alt VN VE VD roll pitch heading | 2, 7 => sysmat3d_F27 lat lon alt VN VE VD roll pitch heading | 2, 8 => sysmat3d_F28 lat lon alt VN VE VD roll pitch heading
  | 3, 0 => sysmat3d_F30 lat lon alt VN VE VD roll pitch heading | 3, 1 => sysmat3d_F31 lat lon alt VN VE VD roll pitch heading | 3, 2 => sysmat3d_F32 lat lon alt VN VE VD roll pitch heading | 3, 3 => sysmat3d_F33 lat lon alt VN VE VD roll pitch heading | 3, 4 => sysmat3d_F34 lat lon alt VN VE VD roll pitch heading | 3, 5 => sysmat3d_F35 lat lon alt VN VE VD roll pitch heading | 3, 6 => sysmat3d_F36 lat lon alt VN VE VD roll pitch heading | 3, 7 => sysmat3d_F37 lat lon alt VN VE VD roll pitch heading | 3, 8 => sysmat3d_F38 lat lon alt VN VE VD roll pitch heading
  | 4, 0 => sysmat3d_F40 lat lon alt VN VE VD roll pitch heading | 4, 1 => sysmat3d_F41 lat lon alt VN VE VD roll pitch heading | 4, 2 => sysmat3d_F42 lat lon alt VN VE VD roll pitch heading | 4, 3 => sysmat3d_F43 lat lon alt VN VE VD roll pitch heading | 4, 4 => sysmat3d_F44 lat lon alt VN VE VD roll pitch heading | 4, 5 => sysmat3d_F45 lat lon alt VN VE VD roll pitch heading | 4, 6 => sysmat3d_F46 lat lon alt VN VE VD roll pitch heading | 4, 7 => sysmat3d_F47 lat lon alt VN VE VD roll pitch heading | 4, 8 => sysmat3d_F48 lat lon alt VN VE VD roll pitch heading
  | 5, 0 => sysmat3d_F50 lat lon alt VN VE VD roll pitch heading | 5, 1 => sysmat3d_F51 lat lon alt VN VE VD roll pitch heading | 5, 2 => sysmat3d_F52 lat lon alt VN VE VD roll pitch heading | 5, 3 => sysmat3d_F53 lat lon alt VN VE VD roll pitch heading | 5, 4 => sysmat3d_F54 lat lon alt VN VE VD roll pitch heading | 5, 5 => sysmat3d_F55 lat lon alt VN VE VD roll pitch heading | 5, 6 => sysmat3d_F56 lat lon alt VN VE VD roll pitch heading | 5, 7 => sysmat3d_F57 lat lon alt VN VE VD roll pitch heading | 5, 8 => sysmat3d_F58 lat lon alt VN VE VD roll pitch heading
  | 6, 0 => sysmat3d_F60 lat lon alt VN VE VD roll pitch heading | 6, 1 => sysmat3d_F61 lat lon alt VN VE VD roll pitch heading | 6, 2 => sysmat3d_F62 lat lon alt VN VE VD roll pitch heading | 6, 3 => sysmat3d_F63 lat lon alt VN VE VD roll pitch heading | 6, 4 => sysmat3d_F64 lat lon alt VN VE VD roll pitch heading | 6, 5 => sysmat3d_F65 lat lon alt VN VE VD roll pitch heading | 6, 6 => sysmat3d_F66 lat lon alt VN VE VD roll pitch heading | 6, 7 => sysmat3d_F67 lat lon alt VN VE VD roll pitch heading | 6, 8 => sysmat3d_F68 lat lon alt VN VE VD roll pitch heading
  | 7, 0 => sysmat3d_F70 lat lon alt VN VE VD roll pitch heading | 7, 1 => sysmat3d_F71 lat lon alt VN VE VD roll pitch heading | 7, 2 => sysmat3d_F72 lat lon alt VN VE VD roll pitch heading | 7, 3 => sysmat3d_F73 lat lon alt VN VE VD roll pitch heading | 7, 4 => sysmat3d_F74 lat lon alt VN VE VD roll pitch heading | 7, 5 => sysmat3d_F75 lat lon alt VN VE VD roll pitch heading | 7, 6 => sysmat3d_F76 lat lon alt VN VE VD roll pitch heading | 7, 7 => sysmat3d_F77 lat lon alt VN VE VD roll pitch heading | 7, 8 => sysmat3d_F78 lat lon alt VN VE VD roll pitch heading
  | 8, 0 => sysmat3d_F80 lat lon alt VN VE VD roll pitch heading | 8, 1 => sysmat3d_F81 lat lon alt VN VE VD roll pitch heading | 8, 2 => sysmat3d_F82 lat lon alt VN VE VD roll pitch heading | 8, 3 => sysmat3d_F83 lat lon alt VN VE VD roll pitch heading | 8, 4 => sysmat3d_F84 lat lon alt VN VE VD roll pitch heading | 8, 5 => sysmat3d_F85 lat lon alt VN VE VD roll pitch heading | 8, 6 => sysmat3d_F86 lat lon alt VN VE VD roll pitch heading | 8, 7 => sysmat3d_F87 lat lon alt VN VE VD roll pitch heading | 8, 8 => sysmat3d_F88 lat lon alt VN VE VD roll pitch heading
  | _, _ => 0%R
  end%nat.
Definition G3m (lat lon alt VN VE VD roll pitch heading : R) (i j : nat) : R :=
  match i, j with
  | 0, 0 => sysmat3d_G00 lat lon alt VN VE VD roll pitch heading | 0, 1 => sysmat3d_G01 lat lon alt VN VE VD roll pitch heading | 0, 2 => sysmat3d_G02 lat lon alt VN VE VD roll pitch heading
  | 1, 0 => sysmat3d_G10 lat lon alt VN VE VD roll pitch heading | 1, 1 => sysmat3d_G11 lat lon alt VN VE VD roll pitch heading | 1, 2 => sysmat3d_G12 lat lon alt VN VE VD roll pitch heading
  | 2, 0 => sysmat3d_G20 lat lon alt VN VE VD roll pitch heading | 2, 1 => sysmat3d_G21 lat lon alt VN VE VD roll pitch heading | 2, 2 => sysmat3d_G22 lat lon alt VN VE VD roll pitch heading
  | 3, 0 => sysmat3d_G30 lat lon alt VN VE VD roll pitch heading | 3, 1 => sysmat3d_G31 lat lon alt VN VE VD roll pitch heading | 3, 2 => sysmat3d_G32 lat lon alt VN VE VD roll pitch heading
  | 4, 0 => sysmat3d_G40 lat lon alt VN VE VD roll pitch heading | 4, 1 => sysmat3d_G41 lat lon alt VN VE VD roll pitch heading | 4, 2 => sysmat3d_G42 lat lon alt VN VE VD roll pitch heading
  | 5, 0 => sysmat3d_G50 lat lon alt VN VE VD roll pitch heading | 5, 1 => sysmat3d_G51 lat lon alt VN VE VD roll pitch heading | 5, 2 => sysmat3d_G52 lat lon alt VN VE VD roll pitch heading
  | 6, 0 => sysmat3d_G60 lat lon alt VN VE VD roll pitch heading | 6, 1 => sysmat3d_G61 lat lon alt VN VE VD roll pitch heading | 6, 2 => sysmat3d_G62 lat lon alt VN VE VD roll pitch heading
  | 7, 0 => sysmat3d_G70 lat lon alt VN VE VD roll pitch heading | 7, 1 => sysmat3d_G71 lat lon alt VN VE VD roll pitch heading | 7, 2 => sysmat3d_G72 lat lon alt VN VE VD roll pitch heading
  | 8, 0 => sysmat3d_G80 lat lon alt VN VE VD roll pitch heading | 8, 1 => sysmat3d_G81 lat lon alt VN VE VD roll pitch heading | 8, 2 => sysmat3d_G82 lat lon alt VN VE VD roll pitch heading
  | _, _ => 0%R
  end%nat.
Definition A3m (lat lon alt VN VE VD roll pitch heading : R) (i j : nat) : R :=
  match i, j with
  | 0, 0 => sysmat3d_A00 lat lon alt VN VE VD roll pitch heading | 0, 1 => sysmat3d_A01 lat lon alt VN VE VD roll pitch heading | 0, 2 => sysmat3d_A02 lat lon alt VN VE VD roll pitch heading
  | 1, 0 => sysmat3d_A10 lat lon alt VN VE VD roll pitch heading | 1, 1 => sysmat3d_A11 lat lon alt VN VE VD roll pitch heading | 1, 2 => sysmat3d_A12 lat lon alt VN VE VD roll pitch heading
  | 2, 0 => sysmat3d_A20 lat lon alt VN VE VD roll pitch heading | 2, 1 => sysmat3d_A21 lat lon alt VN VE VD roll pitch heading | 2, 2 => sysmat3d_A22 lat lon alt VN VE VD roll pitch heading
  | 3, 0 => sysmat3d_A30 lat lon alt VN VE VD roll pitch heading | 3, 1 => sysmat3d_A31 lat lon alt VN VE VD roll pitch heading | 3, 2 => sysmat3d_A32 lat lon alt VN VE VD roll pitch heading
  | 4, 0 => sysmat3d_A40 lat lon alt VN VE VD roll pitch heading | 4, 1 => sysmat3d_A41 lat lon alt VN VE VD roll pitch heading | 4, 2 => sysmat3d_A42 lat lon alt VN VE VD roll pitch heading
  | 5, 0 => sysmat3d_A50 lat lon alt VN VE VD roll pitch heading | 5, 1 => sysmat3d_A51 lat lon alt VN VE VD roll pitch heading | 5, 2 => sysmat3d_A52 lat lon alt VN VE VD roll pitch heading
  | 6, 0 => sysmat3d_A60 lat lon alt VN VE VD roll pitch heading | 6, 1 => sysmat3d_A61 lat lon alt VN VE VD roll pitch heading | 6, 2 => sysmat3d_A62 lat lon alt VN VE VD roll pitch heading
  | 7, 0 => sysmat3d_A70 lat lon alt VN VE VD roll pitch heading | 7, 1 => sysmat3d_A71 lat lon alt VN VE VD roll pitch heading | 7, 2 => sysmat3d_A72 lat lon alt VN VE VD roll pitch heading
  | 8, 0 => sysmat3d_A80 lat lon alt VN VE VD roll pitch heading | 8, 1 => sysmat3d_A81 lat lon alt VN VE VD roll pitch heading | 8, 2 => sysmat3d_A82 lat lon alt VN VE VD roll pitch heading
  | _, _ => 0%R
  end%nat.
Definition F2m (lat lon alt VN VE VD roll pitch heading : R) (i j : nat) : R :=
  match i, j with
  | 0, 0 => sysmat2d_F00 lat lon alt VN VE VD roll pitch heading | 0, 1 => sysmat2d_F01 lat lon alt VN VE VD roll pitch heading | 0, 2 => sysmat2d_F02 lat lon alt VN VE VD roll pitch heading | 0, 3 => sysmat2d_F03 lat lon alt VN VE VD roll pitch heading | 0, 4 => sysmat2d_F04 lat lon alt VN VE VD roll pitch heading | 0, 5 => sysmat2d_F05 lat lon alt VN VE VD roll pitch heading | 0, 6 => sysmat2d_F06 lat lon alt VN VE VD roll pitch heading
  | 1, 0 => sysmat2d_F10 lat lon alt VN VE VD roll pitch heading | 1, 1 => sysmat2d_F11 lat lon alt VN VE VD roll pitch heading | 1, 2 => sysmat2d_F12 lat lon alt VN VE VD roll pitch heading | 1, 3 => sysmat2d_F13 lat lon alt VN VE VD roll pitch heading | 1, 4 => sysmat2d_F14 lat lon alt VN VE VD roll pitch heading | 1, 5 => sysmat2d_F15 lat lon alt VN VE VD roll pitch heading | 1, 6 => sysmat2d_F16 lat lon alt VN VE VD roll pitch heading
  | 2, 0 => sysmat2d_F20 lat lon alt VN VE VD roll pitch heading | 2, 1 => sysmat2d_F21 lat lon alt VN VE VD roll pitch heading | 2, 2 => sysmat2d_F22 lat lon alt VN VE VD roll pitch heading | 2, 3 => sysmat2d_F23 lat lon alt VN VE VD roll pitch heading | 2, 4 => sysmat2d_F24 lat lon alt VN VE VD roll pitch heading | 2, 5 => sysmat2d_F25 lat lon alt VN VE VD roll pitch heading | 2, 6 => sysmat2d_F26 lat lon alt VN VE VD roll pitch heading
  | 3, 0 => sysmat2d_F30 lat lon alt VN VE VD roll pitch heading | 3, 1 => sysmat2d_F31 lat lon alt VN VE VD roll pitch heading | 3, 2 => sysmat2d_F32 lat lon alt VN VE VD roll pitch heading | 3, 3 => sysmat2d_F33 lat lon alt VN VE VD roll pitch heading | 3, 4 => sysmat2d_F34 lat lon alt VN VE VD roll pitch heading | 3, 5 => sysmat2d_F35 lat lon alt VN VE VD roll pitch heading | 3, 6 => sysmat2d_F36 lat lon alt VN VE VD roll pitch heading
  | 4, 0 => sysmat2d_F40 lat lon alt VN VE VD roll pitch heading | 4, 1 => sysmat2d_F41 lat lon alt VN VE VD roll pitch heading | 4, 2 => sysmat2d_F42 lat lon alt VN VE VD roll pitch heading | 4, 3 => sysmat2d_F43 lat lon alt VN VE VD roll pitch heading | 4, 4 => sysmat2d_F44 lat lon alt VN VE VD roll pitch heading | 4, 5 => sysmat2d_F45 lat lon alt VN VE VD roll pitch heading | 4, 6 => sysmat2d_F46 lat lon alt VN VE VD roll pitch heading
  | 5, 0 => sysmat2d_F50 lat lon alt VN VE VD roll pitch heading | 5, 1 => sysmat2d_F51 lat lon alt VN VE VD roll pitch heading | 5, 2 => sysmat2d_F52 lat lon alt VN VE VD roll pitch heading | 5, 3 => sysmat2d_F53 lat lon alt VN VE VD roll pitch heading | 5, 4 => sysmat2d_F54 lat lon alt VN VE VD roll pitch heading | 5, 5 => sysmat2d_F55 lat lon alt VN VE VD roll pitch heading | 5, 6 => sysmat2d_F56 lat lon alt VN VE VD roll pitch heading
  | 6, 0 => sysmat2d_F60 lat lon alt VN VE VD roll pitch heading | 6, 1 => sysmat2d_F61 lat lon alt VN VE VD roll pitch heading | 6, 2 => sysmat2d_F62 lat lon alt VN VE VD roll pitch heading | 6, 3 => sysmat2d_F63 lat lon alt VN VE VD roll pitch heading | 6, 4 => sysmat2d_F64 lat lon alt VN VE VD roll pitch heading | 6, 5 => sysmat2d_F65 lat lon alt VN VE VD roll pitch heading | 6, 6 => sysmat2d_F66 lat lon alt VN VE VD roll pitch heading
  | _, _ => 0%R
  end%nat.
Definition G2m (lat lon alt VN VE VD roll pitch heading : R) (i j : nat) : R :=
  match i, j with
  | 0, 0 => sysmat2d_G00 lat lon alt VN VE VD roll pitch heading | 0, 1 => sysmat2d_G01 lat lon alt VN VE VD roll pitch heading | 0, 2 => sysmat2d_G02 lat lon alt VN VE VD roll pitch heading
  | 1, 0 => sysmat2d_G10 lat lon alt VN VE VD roll pitch heading | 1, 1 => sysmat2d_G11 lat lon alt VN VE VD roll pitch heading | 1, 2 => sysmat2d_G12 lat lon alt VN VE VD roll pitch heading
  | 2, 0 => sysmat2d_G20 lat lon alt VN VE VD roll pitch heading | 2, 1 => sysmat2d_G21 lat lon alt VN VE VD roll pitch heading | 2, 2 => sysmat2d_G22 lat lon alt VN VE VD roll pitch heading
  | 3, 0 => sysmat2d_G30 lat lon alt VN VE VD roll pitch heading | 3, 1 => sysmat2d_G31 lat lon alt VN VE VD roll pitch heading | 3, 2 => sysmat2d_G32 lat lon alt VN VE VD roll pitch heading
  | 4, 0 => sysmat2d_G40 lat lon alt VN VE VD roll pitch heading | 4, 1 => sysmat2d_G41 lat lon alt VN VE VD roll pitch heading | 4, 2 => sysmat2d_G42 lat lon alt VN VE VD roll pitch heading
  | 5, 0 => sysmat2d_G50 lat lon alt VN VE VD roll pitch heading | 5, 1 => sysmat2d_G51 lat lon alt VN VE VD roll pitch heading | 5, 2 => sysmat2d_G52 lat lon alt VN VE VD roll pitch heading
  | 6, 0 => sysmat2d_G60 lat lon alt VN VE VD roll pitch heading | 6, 1 => sysmat2d_G61 lat lon alt VN VE VD roll pitch heading | 6, 2 => sysmat2d_G62 lat lon alt VN VE VD roll pitch heading
  | _, _ => 0%R
  end%nat.
Definition A2m (lat lon alt VN VE VD roll pitch heading : R) (i j : nat) : R :=
  match i, j with
  | 0, 0 => sysmat2d_A00 lat lon alt VN VE VD roll pitch heading | 0, 1 => sysmat2d_A01 lat lon alt VN VE VD roll pitch heading | 0, 2 => sysmat2d_A02 lat lon alt VN VE VD roll pitch heading
  | 1, 0 => sysmat2d_A10 lat lon alt VN VE VD roll pitch heading | 1, 1 => sysmat2d_A11 lat lon alt VN VE VD roll pitch heading | 1, 2 => sysmat2d_A12 lat lon alt VN VE VD roll pitch heading
  | 2, 0 => sysmat2d_A20 lat lon alt VN VE VD roll pitch heading | 2, 1 => sysmat2d_A21 lat lon alt VN VE VD roll pitch heading | 2, 2 => sysmat2d_A22 lat lon alt VN VE VD roll pitch heading
  | 3, 0 => sysmat2d_A30 lat lon alt VN VE VD roll pitch heading | 3, 1 => sysmat2d_A31 lat lon alt VN VE VD roll pitch heading | 3, 2 => sysmat2d_A32 lat lon alt VN VE VD roll pitch heading
  | 4, 0 => sysmat2d_A40 lat lon alt VN VE VD roll pitch heading | 4, 1 => sysmat2d_A41 lat lon alt VN VE VD roll pitch heading | 4, 2 => sysmat2d_A42 lat lon alt VN VE VD roll pitch heading
  | 5, 0 => sysmat2d_A50 lat lon alt VN VE VD roll pitch heading | 5, 1 => sysmat2d_A51 lat lon alt VN VE VD roll pitch heading | 5, 2 => sysmat2d_A52 lat lon alt VN VE VD roll pitch heading
  | 6, 0 => sysmat2d_A60 lat lon alt VN VE VD roll pitch heading | 6, 1 => sysmat2d_A61 lat lon alt VN VE VD roll pitch heading | 6, 2 => sysmat2d_A62 lat lon alt VN VE VD roll pitch heading
  | _, _ => 0%R
  end%nat.
Definition T32m (VN VE : R) (i j : nat) : R :=
  match i, j with
  | 0, 0 => tr32_t00 VN VE | 0, 1 => tr32_t01 VN VE | 0, 2 => tr32_t02 VN VE | 0, 3 => tr32_t03 VN VE | 0, 4 => tr32_t04 VN VE | 0, 5 => tr32_t05 VN VE | 0, 6 => tr32_t06 VN VE
  | 1, 0 => tr32_t10 VN VE | 1, 1 => tr32_t11 VN VE | 1, 2 => tr32_t12 VN VE | 1, 3 => tr32_t13 VN VE | 1, 4 => tr32_t14 VN VE | 1, 5 => tr32_t15 VN VE | 1, 6 => tr32_t16 VN VE
  | 2, 0 => tr32_t20 VN VE | 2, 1 => tr32_t21 VN VE | 2, 2 => tr32_t22 VN VE | 2, 3 => tr32_t23 VN VE | 2, 4 => tr32_t24 VN VE | 2, 5 => tr32_t25 VN VE | 2, 6 => tr32_t26 VN VE
  | 3, 0 => tr32_t30 VN VE | 3, 1 => tr32_t31 VN VE | 3, 2 => tr32_t32 VN VE | 3, 3 => tr32_t33 VN VE | 3, 4 => tr32_t34 VN VE | 3, 5 => tr32_t35 VN VE | 3, 6 => tr32_t36 VN VE
  | 4, 0 => tr32_t40 VN VE | 4, 1 => tr32_t41 VN VE | 4, 2 => tr32_t42 VN VE | 4, 3 => tr32_t43 VN VE | 4, 4 => tr32_t44 VN VE | 4, 5 => tr32_t45 VN VE | 4, 6 => tr32_t46 VN VE
  | 5, 0 => tr32_t50 VN VE | 5, 1 => tr32_t51 VN VE | 5, 2 => tr32_t52 VN VE | 5, 3 => tr32_t53 VN VE | 5, 4 => tr32_t54 VN VE | 5, 5 => tr32_t55 VN VE | 5, 6 => tr32_t56 VN VE
  | 6, 0 => tr32_t60 VN VE | 6, 1 => tr32_t61 VN VE | 6, 2 => tr32_t62 VN VE | 6, 3 => tr32_t63 VN VE | 6, 4 => tr32_t64 VN VE | 6, 5 => tr32_t65 VN VE | 6, 6 => tr32_t66 VN VE
  | 7, 0 => tr32_t70 VN VE | 7, 1 => tr32_t71 VN VE | 7, 2 => tr32_t72 VN VE | 7, 3 => tr32_t73 VN VE | 7, 4 => tr32_t74 VN VE | 7, 5 => tr32_t75 VN VE | 7, 6 => tr32_t76 VN VE
  | 8, 0 => tr32_t80 VN VE | 8, 1 => tr32_t81 VN VE | 8, 2 => tr32_t82 VN VE | 8, 3 => tr32_t83 VN VE | 8, 4 => tr32_t84 VN VE | 8, 5 => tr32_t85 VN VE | 8, 6 => tr32_t86 VN VE
  | _, _ => 0%R
  end%nat.
Definition T23m (i j : nat) : R :=
  match i, j with
  | 0, 0 => tr23_t00 | 0, 1 => tr23_t01 | 0, 2 => tr23_t02 | 0, 3 => tr23_t03 | 0, 4 => tr23_t04 | 0, 5 => tr23_t05 | 0, 6 => tr23_t06 | 0, 7 => tr23_t07 | 0, 8 => tr23_t08
  | 1, 0 => tr23_t10 | 1, 1 => tr23_t11 | 1, 2 => tr23_t12 | 1, 3 => tr23_t13 | 1, 4 => tr23_t14 | 1, 5 => tr23_t15 | 1, 6 => tr23_t16 | 1, 7 => tr23_t17 | 1, 8 => tr23_t18
  | 2, 0 => tr23_t20 | 2, 1 => tr23_t21 | 2, 2 => tr23_t22 | 2, 3 => tr23_t23 | 2, 4 => tr23_t24 | 2, 5 => tr23_t25 | 2, 6 => tr23_t26 | 2, 7 => tr23_t27 | 2, 8 => tr23_t28
  | 3, 0 => tr23_t30 | 3, 1 => tr23_t31 | 3, 2 => tr23_t32 | 3, 3 => tr23_t33 | 3, 4 => tr23_t34 | 3, 5 => tr23_t35 | 3, 6 => tr23_t36 | 3, 7 => tr23_t37 | 3, 8 => tr23_t38
  | 4, 0 => tr23_t40 | 4, 1 => tr23_t41 | 4, 2 => tr23_t42 | 4, 3 => tr23_t43 | 4, 4 => tr23_t44 | 4, 5 => tr23_t45 | 4, 6 => tr23_t46 | 4, 7 => tr23_t47 | 4, 8 => tr23_t48
  | 5, 0 => tr23_t50 | 5, 1 => tr23_t51 | 5, 2 => tr23_t52 | 5, 3 => tr23_t53 | 5, 4 => tr23_t54 | 5, 5 => tr23_t55 | 5, 6 => tr23_t56 | 5, 7 => tr23_t57 | 5, 8 => tr23_t58
  | 6, 0 => tr23_t60 | 6, 1 => tr23_t61 | 6, 2 => tr23_t62 | 6, 3 => tr23_t63 | 6, 4 => tr23_t64 | 6, 5 => tr23_t65 | 6, 6 => tr23_t66 | 6, 7 => tr23_t67 | 6, 8 => tr23_t68
  | _, _ => 0%R
  end%nat.

Lemma lt3_cases (P : nat -> Prop) : P 0%nat -> P 1%nat -> P 2%nat -> forall i, (i < 3)%nat -> P i.
Proof. intros; do 3 (destruct i; [assumption|]); lia. Qed.
Lemma lt7_cases (P : nat -> Prop) : P 0%nat -> P 1%nat -> P 2%nat -> P 3%nat -> P 4%nat -> P 5%nat -> P 6%nat ->
  forall i, (i < 7)%nat -> P i.
Proof. intros; do 7 (destruct i; [assumption|]); lia. Qed.
Lemma lt9_cases (P : nat -> Prop) : P 0%nat -> P 1%nat -> P 2%nat -> P 3%nat -> P 4%nat -> P 5%nat -> P 6%nat ->
  P 7%nat -> P 8%nat -> forall i, (i < 9)%nat -> P i.
Proof. intros; do 9 (destruct i; [assumption|]); lia. Qed.

(** TRANSFORM_2D_3D selects the states DR1 DR2 DV1 DV2 PHI1 PHI2 PHI3 (rows 0 1 3 4 6 7 8), and
    _transform_3d_2d(VN, VE) is a right inverse of it whose DV3 row carries the constraint dv3 = VE phi1 - VN phi2 *)
Definition sel7 (i : nat) : nat :=
  match i with 0 => 0 | 1 => 1 | 2 => 3 | 3 => 4 | 4 => 6 | 5 => 7 | _ => 8 end%nat.

(** index case analysis: [cases_lt lt7_cases i Hi] replaces the goal about i < 7 by the seven instances *)
Ltac cases_lt L i Hi := pattern i; revert i Hi; apply L.

(** Over an arbitrary matrix M: T23 M keeps the rows sel7, and M T32 keeps the columns sel7 and adds the DV3
    column (index 5) with the weights of the constraint row of T32. *)
Lemma T23_selects (M : mat) i j : (i < 7)%nat -> mmul9 T23m M i j = M (sel7 i) j.
Proof.
  intro Hi. cases_lt lt7_cases i Hi; unfold mmul9, sum9; cbn [T23m sel7]; autounfold with T23_out; ring.
Qed.
Lemma T32_mixes (M : mat) VN VE i j : (j < 7)%nat ->
  mmul9 M (T32m VN VE) i j = M i (sel7 j) + M i 5%nat * T32m VN VE 5%nat j.
Proof.
  intro Hj. cases_lt lt7_cases j Hj; unfold mmul9, sum9; cbn [T32m sel7]; autounfold with T32_out;
    repeat autounfold with tr32_db; ring.
Qed.

(** * 11. One step of propagate_errors is affine in dt, with slope  F x + B_gyro e_g + B_accel e_a

    [prop3 i dt Fa Fb Ga Gb Aa Ab x eg ea] is the GENERATED component i of the second row of model_error as a
    function of the step dt, the system matrices at the two epochs (a = start, b = end), the initial error x and the
    constant sensor errors.  Value x and derivative [rate3] at dt = 0 (C04_propagate_consistent_3d/_2d in
    Props/C04.v) are read off the affine form. *)
Definition prop3 (i : nat) (dt : R) (Fa Fb Ga Gb Aa Ab : mat) (x eg ea : nat -> R) : R :=
  match i with
  | 0 => prop3d_x0 dt (Fa 0%nat 0%nat) (Fa 0%nat 1%nat) (Fa 0%nat 2%nat) (Fa 0%nat 3%nat) (Fa 0%nat 4%nat) (Fa 0%nat 5%nat) (Fa 0%nat 6%nat) (Fa 0%nat 7%nat) (Fa 0%nat 8%nat) (Fa 1%nat 0%nat) (Fa 1%nat 1%nat) (Fa 1%nat 2%nat) (Fa 1%nat 3%nat) (Fa 1%nat 4%nat) (Fa 1%nat 5%nat) (Fa 1%nat 6%nat) (Fa 1%nat 7%nat) (Fa 1%nat 8%nat) (Fa 2%nat 0%nat) (Fa 2%nat 1%nat) (Fa 2%nat 2%nat) (Fa 2%nat 3%nat) (Fa 2%nat 4%nat) (Fa 2%nat 5%nat) (Fa 2%nat 6%nat) (Fa 2%nat 7%nat) (Fa 2%nat 8%nat) (Fa 3%nat 0%nat) (Fa 3%nat 1%nat) (Fa 3%nat 2%nat) (Fa 3%nat 3%nat) (Fa 3%nat 4%nat) (Fa 3%nat 5%nat) (Fa 3%nat 6%nat) (Fa 3%nat 7%nat) (Fa 3%nat 8%nat) (Fa 4%nat 0%nat) (Fa 4%nat 1%nat) (Fa 4%nat 2%nat) (Fa 4%nat 3%nat) (Fa 4%nat 4%nat) (Fa 4%nat 5%nat) (Fa 4%nat 6%nat) (Fa 4%nat 7%nat) (Fa 4%nat 8%nat) (Fa 5%nat 0%nat) (Fa 5%nat 1%nat) (Fa 5%nat 2%nat) (Fa 5%nat 3%nat) (Fa 5%nat 4%nat) (Fa 5%nat 5%nat) (Fa 5%nat 6%nat) (Fa 5%nat 7%nat) (Fa 5%nat 8%nat) (Fa 6%nat 0%nat) (Fa 6%nat 1%nat) (Fa 6%nat 2%nat) (Fa 6%nat 3%nat) (Fa 6%nat 4%nat) (Fa 6%nat 5%nat) (Fa 6%nat 6%nat) (Fa 6%nat 7%nat) (Fa 6%nat 8%nat) (Fa 7%nat 0%nat) (Fa 7%nat 1%nat) (Fa 7%nat 2%nat) (Fa 7%nat 3%nat) (Fa 7%nat 4%nat) (Fa 7%nat 5%nat) (Fa 7%nat 6%nat) (Fa 7%nat 7%nat) (Fa 7%nat 8%nat) (Fa 8%nat 0%nat) (Fa 8%nat 1%nat) (Fa 8%nat 2%nat) (Fa 8%nat 3%nat) (Fa 8%nat 4%nat) (Fa 8%nat 5%nat) (Fa 8%nat 6%nat) (Fa 8%nat 7%nat) (Fa 8%nat 8%nat) (Fb 0%nat 0%nat) (Fb 0%nat 1%nat) (Fb 0%nat 2%nat) (Fb 0%nat 3%nat) (Fb 0%nat 4%nat) (Fb 0%nat 5%nat) (Fb 0%nat 6%nat) (Fb 0%nat 7%nat) (Fb 0%nat 8%nat) (Fb 1%nat 0%nat) (Fb 1%nat 1%nat) (Fb 1%nat 2%nat) (Fb 1%nat 3%nat) (Fb 1%nat 4%nat) (Fb 1%nat 5%nat) (Fb 1%nat 6%nat) (Fb 1%nat 7%nat) (Fb 1%nat 8%nat) (Fb 2%nat 0%nat) (Fb 2%nat 1%nat) (Fb 2%nat 2%nat) (Fb 2%nat 3%nat) (Fb 2%nat 4%nat) (Fb 2%nat 5%nat) (Fb 2%nat 6%nat) (Fb 2%nat 7%nat) (Fb 2%nat 8%nat) (Fb 3%nat 0%nat) (Fb 3%nat 1%nat) (Fb 3%nat 2%nat) (Fb 3%nat 3%nat) (Fb 3%nat 4%nat) (Fb 3%nat 5%nat) (Fb 3%nat 6%nat) (Fb 3%nat 7%nat) (Fb 3%nat 8%nat) (Fb 4%nat 0%nat) (Fb 4%nat 1%nat) (Fb 4%nat 2%nat) (Fb 4%nat 3%nat) (Fb 4%nat 4%nat) (Fb 4%nat 5%nat) (Fb 4%nat 6%nat) (Fb 4%nat 7%nat) (Fb 4%nat 8%nat) (Fb 5%nat 0%nat) (Fb 5%nat 1%nat) (Fb 5%nat 2%nat) (Fb 5%nat 3%nat) (Fb 5%nat 4%nat) (Fb 5%nat 5%nat) (Fb 5%nat 6%nat) (Fb 5%nat 7%nat) (Fb 5%nat 8%nat) (Fb 6%nat 0%nat) (Fb 6%nat 1%nat) (Fb 6%nat 2%nat) (Fb 6%nat 3%nat) (Fb 6%nat 4%nat) (Fb 6%nat 5%nat) (Fb 6%nat 6%nat) (Fb 6%nat 7%nat) (Fb 6%nat 8%nat) (Fb 7%nat 0%nat) (Fb 7%nat 1%nat) (Fb 7%nat 2%nat) (Fb 7%nat 3%nat) (Fb 7%nat 4%nat) (Fb 7%nat 5%nat) (Fb 7%nat 6%nat) (Fb 7%nat 7%nat) (Fb 7%nat 8%nat) (Fb 8%nat 0%nat) (Fb 8%nat 1%nat) (Fb 8%nat 2%nat) (Fb 8%nat 3%nat) (Fb 8%nat 4%nat) (Fb 8%nat 5%nat) (Fb 8%nat 6%nat) (Fb 8%nat 7%nat) (Fb 8%nat 8%nat) (Ga 0%nat 0%nat) (Ga 0%nat 1%nat) (Ga 0%nat 2%nat) (Ga 1%nat 0%nat) (Ga 1%nat 1%nat) (Ga 1%nat 2%nat) (Ga 2%nat 0%nat) (Ga 2%nat 1%nat) (Ga 2%nat 2%nat) (Ga 3%nat 0%nat) (Ga 3%nat 1%nat) (Ga 3%nat 2%nat) (Ga 4%nat 0%nat) (Ga 4%nat 1%nat) (Ga 4%nat 2%nat) (Ga 5%nat 0%nat) (Ga 5%nat 1%nat) (Ga 5%nat 2%nat) (Ga 6%nat 0%nat) (Ga 6%nat 1%nat) (Ga 6%nat 2%nat) (Ga 7%nat 0%nat) (Ga 7%nat 1%nat) (Ga 7%nat 2%nat) (Ga 8%nat 0%nat) (Ga 8%nat 1%nat) (Ga 8%nat 2%nat) (Gb 0%nat 0%nat) (Gb 0%nat 1%nat) (Gb 0%nat 2%nat) (Gb 1%nat 0%nat) (Gb 1%nat 1%nat) (Gb 1%nat 2%nat) (Gb 2%nat 0%nat) (Gb 2%nat 1%nat) (Gb 2%nat 2%nat) (Gb 3%nat 0%nat) (Gb 3%nat 1%nat) (Gb 3%nat 2%nat) (Gb 4%nat 0%nat) (Gb 4%nat 1%nat) (Gb 4%nat 2%nat) (Gb 5%nat 0%nat) (Gb 5%nat 1%nat) (Gb 5%nat 2%nat) (Gb 6%nat 0%nat) (Gb 6%nat 1%nat) (Gb 6%nat 2%nat) (Gb 7%nat 0%nat) (Gb 7%nat 1%nat) (Gb 7%nat 2%nat) (Gb 8%nat 0%nat) (Gb 8%nat 1%nat) (Gb 8%nat 2%nat) (Aa 0%nat 0%nat) (Aa 0%nat 1%nat) (Aa 0%nat 2%nat) (Aa 1%nat 0%nat) (Aa 1%nat 1%nat) (Aa 1%nat 2%nat) (Aa 2%nat 0%nat) (Aa 2%nat 1%nat) (Aa 2%nat 2%nat) (Aa 3%nat 0%nat) (Aa 3%nat 1%nat) (Aa 3%nat 2%nat) (Aa 4%nat 0%nat) (Aa 4%nat 1%nat) (Aa 4%nat 2%nat) (Aa 5%nat 0%nat) (Aa 5%nat 1%nat) (Aa 5%nat 2%nat) (Aa 6%nat 0%nat) (Aa 6%nat 1%nat) (Aa 6%nat 2%nat) (Aa 7%nat 0%nat) (Aa 7%nat 1%nat) (Aa 7%nat 2%nat) (Aa 8%nat 0%nat) (Aa 8%nat 1%nat) (Aa 8%nat 2%nat) (Ab 0%nat 0%nat) (Ab 0%nat 1%nat) (Ab 0%nat 2%nat) (Ab 1%nat 0%nat) (Ab 1%nat 1%nat) (Ab 1%nat 2%nat) (Ab 2%nat 0%nat) (Ab 2%nat 1%nat) (Ab 2%nat 2%nat) (Ab 3%nat 0%nat) (Ab 3%nat 1%nat) (Ab 3%nat 2%nat) (Ab 4%nat 0%nat) (Ab 4%nat 1%nat) (Ab 4%nat 2%nat) (Ab 5%nat 0%nat) (Ab 5%nat 1%nat) (Ab 5%nat 2%nat) (Ab 6%nat 0%nat) (Ab 6%nat 1%nat) (Ab 6%nat 2%nat) (Ab 7%nat 0%nat) (Ab 7%nat 1%nat) (Ab 7%nat 2%nat) (Ab 8%nat 0%nat) (Ab 8%nat 1%nat) (Ab 8%nat 2%nat) (x 0%nat) (x 1%nat) (x 2%nat) (x 3%nat) (x 4%nat) (x 5%nat) (x 6%nat) (x 7%nat) (x 8%nat) (eg 0%nat) (eg 1%nat) (eg 2%nat) (ea 0%nat) (ea 1%nat) (ea 2%nat)
  | 1 => prop3d_x1 dt (Fa 0%nat 0%nat) (Fa 0%nat 1%nat) (Fa 0%nat 2%nat) (Fa 0%nat 3%nat) (Fa 0%nat 4%nat) (Fa 0%nat 5%nat) (Fa 0%nat 6%nat) (Fa 0%nat 7%nat) (Fa 0%nat 8%nat) (Fa 1%nat 0%nat) (Fa 1%nat 1%nat) (Fa 1%nat 2%nat) (Fa 1%nat 3%nat) (Fa 1%nat 4%nat) (Fa 1%nat 5%nat) (Fa 1%nat 6%nat) (Fa 1%nat 7%nat) (Fa 1%nat 8%nat) (Fa 2%nat 0%nat) (Fa 2%nat 1%nat) (Fa 2%nat 2%nat) (Fa 2%nat 3%nat) (Fa 2%nat 4%nat) (Fa 2%nat 5%nat) (Fa 2%nat 6%nat) (Fa 2%nat 7%nat) (Fa 2%nat 8%nat) (Fa 3%nat 0%nat) (Fa 3%nat 1%nat) (Fa 3%nat 2%nat) (Fa 3%nat 3%nat) (Fa 3%nat 4%nat) (Fa 3%nat 5%nat) (Fa 3%nat 6%nat) (Fa 3%nat 7%nat) (Fa 3%nat 8%nat) (Fa 4%nat 0%nat) (Fa 4%nat 1%nat) (Fa 4%nat 2%nat) (Fa 4%nat 3%nat) (Fa 4%nat 4%nat) (Fa 4%nat 5%nat) (Fa 4%nat 6%nat) (Fa 4%nat 7%nat) (Fa 4%nat 8%nat) (Fa 5%nat 0%nat) (Fa 5%nat 1%nat) (Fa 5%nat 2%nat) (Fa 5%nat 3%nat) (Fa 5%nat 4%nat) (Fa 5%nat 5%nat) (Fa 5%nat 6%nat) (Fa 5%nat 7%nat) (Fa 5%nat 8%nat) (Fa 6%nat 0%nat) (Fa 6%nat 1%nat) (Fa 6%nat 2%nat) (Fa 6%nat 3%nat) (Fa 6%nat 4%nat) (Fa 6%nat 5%nat) (Fa 6%nat 6%nat) (Fa 6%nat 7%nat) (Fa 6%nat 8%nat) (Fa 7%nat 0%nat) (Fa 7%nat 1%nat) (Fa 7%nat 2%nat) (Fa 7%nat 3%nat) (Fa 7%nat 4%nat) (Fa 7%nat 5%nat) (Fa 7%nat 6%nat) (Fa 7%nat 7%nat) (Fa 7%nat 8%nat) (Fa 8%nat 0%nat) (Fa 8%nat 1%nat) (Fa 8%nat 2%nat) (Fa 8%nat 3%nat) (Fa 8%nat 4%nat) (Fa 8%nat 5%nat) (Fa 8%nat 6%nat) (Fa 8%nat 7%nat) (Fa 8%nat 8%nat) (Fb 0%nat 0%nat) (Fb 0%nat 1%nat) (Fb 0%nat 2%nat) (Fb 0%nat 3%nat) (Fb 0%nat 4%nat) (Fb 0%nat 5%nat) (Fb 0%nat 6%nat) (Fb 0%nat 7%nat) (Fb 0%nat 8%nat) (Fb 1%nat 0%nat) (Fb 1%nat 1%nat) (Fb 1%nat 2%nat) (Fb 1%nat 3%nat) (Fb 1%nat 4%nat) (Fb 1%nat 5%nat) (Fb 1%nat 6%nat) (Fb 1%nat 7%nat) (Fb 1%nat 8%nat) (Fb 2%nat 0%nat) (Fb 2%nat 1%nat) (Fb 2%nat 2%nat) (Fb 2%nat 3%nat) (Fb 2%nat 4%nat) (Fb 2%nat 5%nat) (Fb 2%nat 6%nat) (Fb 2%nat 7%nat) (Fb 2%nat 8%nat) (Fb 3%nat 0%nat) (Fb 3%nat 1%nat) (Fb 3%nat 2%nat) (Fb 3%nat 3%nat) (Fb 3%nat 4%nat) (Fb 3%nat 5%nat) (Fb 3%nat 6%nat) (Fb 3%nat 7%nat) (Fb 3%nat 8%nat) (Fb 4%nat 0%nat) (Fb 4%nat 1%nat) (Fb 4%nat 2%nat) (Fb 4%nat 3%nat) (Fb 4%nat 4%nat) (Fb 4%nat 5%nat) (Fb 4%nat 6%nat) (Fb 4%nat 7%nat) (Fb 4%nat 8%nat) (Fb 5%nat 0%nat) (Fb 5%nat 1%nat) (Fb 5%nat 2%nat) (Fb 5%nat 3%nat) (Fb 5%nat 4%nat) (Fb 5%nat 5%nat) (Fb 5%nat 6%nat) (Fb 5%nat 7%nat) (Fb 5%nat 8%nat) (Fb 6%nat 0%nat) (Fb 6%nat 1%nat) (Fb 6%nat 2%nat) (Fb 6%nat 3%nat) (Fb 6%nat 4%nat) (Fb 6%nat 5%nat) (Fb 6%nat 6%nat) (Fb 6%nat 7%nat) (Fb 6%nat 8%nat) (Fb 7%nat 0%nat) (Fb 7%nat 1%nat) (Fb 7%nat 2%nat) (Fb 7%nat 3%nat) (Fb 7%nat 4%nat) (Fb 7%nat 5%nat) (Fb 7%nat 6%nat) (Fb 7%nat 7%nat) (Fb 7%nat 8%nat) (Fb 8%nat 0%nat) (Fb 8%nat 1%nat) (Fb 8%nat 2%nat) (Fb 8%nat 3%nat) (Fb 8%nat 4%nat) (Fb 8%nat 5%nat) (Fb 8%nat 6%nat) (Fb 8%nat 7%nat) (Fb 8%nat 8%nat) (Ga 0%nat 0%nat) (Ga 0%nat 1%nat) (Ga 0%nat 2%nat) (Ga 1%nat 0%nat) (Ga 1%nat 1%nat) (Ga 1%nat 2%nat) (Ga 2%nat 0%nat) (Ga 2%nat 1%nat) (Ga 2%nat 2%nat) (Ga 3%nat 0%nat) (Ga 3%nat 1%nat) (Ga 3%nat 2%nat) (Ga 4%nat 0%nat) (Ga 4%nat 1%nat) (Ga 4%nat 2%nat) (Ga 5%nat 0%nat) (Ga 5%nat 1%nat) (Ga 5%nat 2%nat) (Ga 6%nat 0%nat) (Ga 6%nat 1%nat) (Ga 6%nat 2%nat) (Ga 7%nat 0%nat) (Ga 7%nat 1%nat) (Ga 7%nat 2%nat) (Ga 8%nat 0%nat) (Ga 8%nat 1%nat) (Ga 8%nat 2%nat) (Gb 0%nat 0%nat) (Gb 0%nat 1%nat) (Gb 0%nat 2%nat) (Gb 1%nat 0%nat) (Gb 1%nat 1%nat) (Gb 1%nat 2%nat) (Gb 2%nat 0%nat) (Gb 2%nat 1%nat) (Gb 2%nat 2%nat) (Gb 3%nat 0%nat) (Gb 3%nat 1%nat) (Gb 3%nat 2%nat) (Gb 4%nat 0%nat) (Gb 4%nat 1%nat) (Gb 4%nat 2%nat) (Gb 5%nat 0%nat) (Gb 5%nat 1%nat) (Gb 5%nat 2%nat) (Gb 6%nat 0%nat) (Gb 6%nat 1%nat) (Gb 6%nat 2%nat) (Gb 7%nat 0%nat) (Gb 7%nat 1%nat) (Gb 7%nat 2%nat) (Gb 8%nat 0%nat) (Gb 8%nat 1%nat) (Gb 8%nat 2%nat) (Aa 0%nat 0%nat) (Aa 0%nat 1%nat) (Aa 0%nat 2%nat) (Aa 1%nat 0%nat) (Aa 1%nat 1%nat) (Aa 1%nat 2%nat) (Aa 2%nat 0%nat) (Aa 2%nat 1%nat) (Aa 2%nat 2%nat) (Aa 3%nat 0%nat) (Aa 3%nat 1%nat) (Aa 3%nat 2%nat) (Aa 4%nat 0%nat) (Aa 4%nat 1%nat) (Aa 4%nat 2%nat) (Aa 5%nat 0%nat) (Aa 5%nat 1%nat) (Aa 5%nat 2%nat) (Aa 6%nat 0%nat) (Aa 6%nat 1%nat) (Aa 6%nat 2%nat) (Aa 7%nat 0%nat) (Aa 7%nat 1%nat) (Aa 7%nat 2%nat) (Aa 8%nat 0%nat) (Aa 8%nat 1%nat) (Aa 8%nat 2%nat) (Ab 0%nat 0%nat) (Ab 0%nat 1%nat) (Ab 0%nat 2%nat) (Ab 1%nat 0%nat) (Ab 1%nat 1%nat) (Ab 1%nat 2%nat) (Ab 2%nat 0%nat) (Ab 2%nat 1%nat) (Ab 2%nat 2%nat) (Ab 3%nat 0%nat) (Ab 3%nat 1%nat) (Ab 3%nat 2%nat) (Ab 4%nat 0%nat) (Ab 4%nat 1%nat) (Ab 4%nat 2%nat) (Ab 5%nat 0%nat) (Ab 5%nat 1%nat) (Ab 5%nat 2%nat) (Ab 6%nat 0%nat) (Ab 6%nat 1%nat) (Ab 6%nat 2%nat) (Ab 7%nat 0%nat) (Ab 7%nat 1%nat) (Ab 7%nat 2%nat) (Ab 8%nat 0%nat) (Ab 8%nat 1%nat) (Ab 8%nat 2%nat) (x 0%nat) (x 1%nat) (x 2%nat) (x 3%nat) (x 4%nat) (x 5%nat) (x 6%nat) (x 7%nat) (x 8%nat) (eg 0%nat) (eg 1%nat) (eg 2%nat) (ea 0%nat) (ea 1%nat) (ea 2%nat)
  | 2 => prop3d_x2 dt (Fa 0%nat 0%nat) (Fa 0%nat 1%nat) (Fa 0%nat 2%nat) (Fa 0%nat 3%nat) (Fa 0%nat 4%nat) (Fa 0%nat 5%nat) (Fa 0%nat 6%nat) (Fa 0%nat 7%nat) (Fa 0%nat 8%nat) (Fa 1%nat 0%nat) (Fa 1%nat 1%nat) (Fa 1%nat 2%nat) (Fa 1%nat 3%nat) (Fa 1%nat 4%nat) (Fa 1%nat 5%nat) (Fa 1%nat 6%nat) (Fa 1%nat 7%nat) (Fa 1%nat 8%nat) (Fa 2%nat 0%nat) (Fa 2%nat 1%nat) (Fa 2%nat 2%nat) (Fa 2%nat 3%nat) (Fa 2%nat 4%nat) (Fa 2%nat 5%nat) (Fa 2%nat 6%nat) (Fa 2%nat 7%nat) (Fa 2%nat 8%nat) (Fa 3%nat 0%nat) (Fa 3%nat 1%nat) (Fa 3%nat 2%nat) (Fa 3%nat 3%nat) (Fa 3%nat 4%nat) (Fa 3%nat 5%nat) (Fa 3%nat 6%nat) (Fa 3%nat 7%nat) (Fa 3%nat 8%nat) (Fa 4%nat 0%nat) (Fa 4%nat 1%nat) (Fa 4%nat 2%nat) (Fa 4%nat 3%nat) (Fa 4%nat 4%nat) (Fa 4%nat 5%nat) (Fa 4%nat 6%nat) (Fa 4%nat 7%nat) (Fa 4%nat 8%nat) (Fa 5%nat 0%nat) (Fa 5%nat 1%nat) (Fa 5%nat 2%nat) (Fa 5%nat 3%nat) (Fa 5%nat 4%nat) (Fa 5%nat 5%nat) (Fa 5%nat 6%nat) (Fa 5%nat 7%nat) (Fa 5%nat 8%nat) (Fa 6%nat 0%nat) (Fa 6%nat 1%nat) (Fa 6%nat 2%nat) (Fa 6%nat 3%nat) (Fa 6%nat 4%nat) (Fa 6%nat 5%nat) (Fa 6%nat 6%nat) (Fa 6%nat 7%nat) (Fa 6%nat 8%nat) (Fa 7%nat 0%nat) (Fa 7%nat 1%nat) (Fa 7%nat 2%nat) (Fa 7%nat 3%nat) (Fa 7%nat 4%nat) (Fa 7%nat 5%nat) (Fa 7%nat 6%nat) (Fa 7%nat 7%nat) (Fa 7%nat 8%nat) (Fa 8%nat 0%nat) (Fa 8%nat 1%nat) (Fa 8%nat 2%nat) (Fa 8%nat 3%nat) (Fa 8%nat 4%nat) (Fa 8%nat 5%nat) (Fa 8%nat 6%nat) (Fa 8%nat 7%nat) (Fa 8%nat 8%nat) (Fb 0%nat 0%nat) (Fb 0%nat 1%nat) (Fb 0%nat 2%nat) (Fb 0%nat 3%nat) (Fb 0%nat 4%nat) (Fb 0%nat 5%nat) (Fb 0%nat 6%nat) (Fb 0%nat 7%nat) (Fb 0%nat 8%nat) (Fb 1%nat 0%nat) (Fb 1%nat 1%nat) (Fb 1%nat 2%nat) (Fb 1%nat 3%nat) (Fb 1%nat 4%nat) (Fb 1%nat 5%nat) (Fb 1%nat 6%nat) (Fb 1%nat 7%nat) (Fb 1%nat 8%nat) (Fb 2%nat 0%nat) (Fb 2%nat 1%nat) (Fb 2%nat 2%nat) (Fb 2%nat 3%nat) (Fb 2%nat 4%nat) (Fb 2%nat 5%nat) (Fb 2%nat 6%nat) (Fb 2%nat 7%nat) (Fb 2%nat 8%nat) (Fb 3%nat 0%nat) (Fb 3%nat 1%nat) (Fb 3%nat 2%nat) (Fb 3%nat 3%nat) (Fb 3%nat 4%nat) (Fb 3%nat 5%nat) (Fb 3%nat 6%nat) (Fb 3%nat 7%nat) (Fb 3%nat 8%nat) (Fb 4%nat 0%nat) (Fb 4%nat 1%nat) (Fb 4%nat 2%nat) (Fb 4%nat 3%nat) (Fb 4%nat 4%nat) (Fb 4%nat 5%nat) (Fb 4%nat 6%nat) (Fb 4%nat 7%nat) (Fb 4%nat 8%nat) (Fb 5%nat 0%nat) (Fb 5%nat 1%nat) (Fb 5%nat 2%nat) (Fb 5%nat 3%nat) (Fb 5%nat 4%nat) (Fb 5%nat 5%nat) (Fb 5%nat 6%nat) (Fb 5%nat 7%nat) (Fb 5%nat 8%nat) (Fb 6%nat 0%nat) (Fb 6%nat 1%nat) (Fb 6%nat 2%nat) (Fb 6%nat 3%nat) (Fb 6%nat 4%nat) (Fb 6%nat 5%nat) (Fb 6%nat 6%nat) (Fb 6%nat 7%nat) (Fb 6%nat 8%nat) (Fb 7%nat 0%nat) (Fb 7%nat 1%nat) (Fb 7%nat 2%nat) (Fb 7%nat 3%nat) (Fb 7%nat 4%nat) (Fb 7%nat 5%nat) (Fb 7%nat 6%nat) (Fb 7%nat 7%nat) (Fb 7%nat 8%nat) (Fb 8%nat 0%nat) (Fb 8%nat 1%nat) (Fb 8%nat 2%nat) (Fb 8%nat 3%nat) (Fb 8%nat 4%nat) (Fb 8%nat 5%nat) (Fb 8%nat 6%nat) (Fb 8%nat 7%nat) (Fb 8%nat 8%nat) (Ga 0%nat 0%nat) (Ga 0%nat 1%nat) (Ga 0%nat 2%nat) (Ga 1%nat 0%nat) (Ga 1%nat 1%nat) (Ga 1%nat 2%nat) (Ga 2%nat 0%nat) (Ga 2%nat 1%nat) (Ga 2%nat 2%nat) (Ga 3%nat 0%nat) (Ga 3%nat 1%nat) (Ga 3%nat 2%nat) (Ga 4%nat 0%nat) (Ga 4%nat 1%nat) (Ga 4%nat 2%nat) (Ga 5%nat 0%nat) (Ga 5%nat 1%nat) (Ga 5%nat 2%nat) (Ga 6%nat 0%nat) (Ga 6%nat 1%nat) (Ga 6%nat 2%nat) (Ga 7%nat 0%nat) (Ga 7%nat 1%nat) (Ga 7%nat 2%nat) (Ga 8%nat 0%nat) (Ga 8%nat 1%nat) (Ga 8%nat 2%nat) (Gb 0%nat 0%nat) (Gb 0%nat 1%nat) (Gb 0%nat 2%nat) (Gb 1%nat 0%nat) (Gb 1%nat 1%nat) (Gb 1%nat 2%nat) (Gb 2%nat 0%nat) (Gb 2%nat 1%nat) (Gb 2%nat 2%nat) (Gb 3%nat 0%nat) (Gb 3%nat 1%nat) (Gb 3%nat 2%nat) (Gb 4%nat 0%nat) (Gb 4%nat 1%nat) (Gb 4%nat 2%nat) (Gb 5%nat 0%nat) (Gb 5%nat 1%nat) (Gb 5%nat 2%nat) (Gb 6%nat 0%nat) (Gb 6%nat 1%nat) (Gb 6%nat 2%nat) (Gb 7%nat 0%nat) (Gb 7%nat 1%nat) (Gb 7%nat 2%nat) (Gb 8%nat 0%nat) (Gb 8%nat 1%nat) (Gb 8%nat 2%nat) (Aa 0%nat 0%nat) (Aa 0%nat 1%nat) (Aa 0%nat 2%nat) (Aa 1%nat 0%nat) (Aa 1%nat 1%nat) (Aa 1%nat 2%nat) (Aa 2%nat 0%nat) (Aa 2%nat 1%nat) (Aa 2%nat 2%nat) (Aa 3%nat 0%nat) (Aa 3%nat 1%nat) (Aa 3%nat 2%nat) (Aa 4%nat 0%nat) (Aa 4%nat 1%nat) (Aa 4%nat 2%nat) (Aa 5%nat 0%nat) (Aa 5%nat 1%nat) (Aa 5%nat 2%nat) (Aa 6%nat 0%nat) (Aa 6%nat 1%nat) (Aa 6%nat 2%nat) (Aa 7%nat 0%nat) (Aa 7%nat 1%nat) (Aa 7%nat 2%nat) (Aa 8%nat 0%nat) (Aa 8%nat 1%nat) (Aa 8%nat 2%nat) (Ab 0%nat 0%nat) (Ab 0%nat 1%nat) (Ab 0%nat 2%nat) (Ab 1%nat 0%nat) (Ab 1%nat 1%nat) (Ab 1%nat 2%nat) (Ab 2%nat 0%nat) (Ab 2%nat 1%nat) (Ab 2%nat 2%nat) (Ab 3%nat 0%nat) (Ab 3%nat 1%nat) (Ab 3%nat 2%nat) (Ab 4%nat 0%nat) (Ab 4%nat 1%nat) (Ab 4%nat 2%nat) (Ab 5%nat 0%nat) (Ab 5%nat 1%nat) (Ab 5%nat 2%nat) (Ab 6%nat 0%nat) (Ab 6%nat 1%nat) (Ab 6%nat 2%nat) (Ab 7%nat 0%nat) (Ab 7%nat 1%nat) (Ab 7%nat 2%nat) (Ab 8%nat 0%nat) (Ab 8%nat 1%nat) (Ab 8%nat 2%nat) (x 0%nat) (x 1%nat) (x 2%nat) (x 3%nat) (x 4%nat) (x 5%nat) (x 6%nat) (x 7%nat) (x 8%nat) (eg 0%nat) (eg 1%nat) (eg 2%nat) (ea 0%nat) (ea 1%nat) (ea 2%nat)
  | 3 => prop3d_x3 dt (Fa 0%nat 0%nat) (Fa 0%nat 1%nat) (Fa 0%nat 2%nat) (Fa 0%nat 3%nat) (Fa 0%nat 4%nat) (Fa 0%nat 5%nat) (Fa 0%nat 6%nat) (Fa 0%nat 7%nat) (Fa 0%nat 8%nat) (Fa 1%nat 0%nat) (Fa 1%nat 1%nat) (Fa 1%nat 2%nat) (Fa 1%nat 3%nat) (Fa 1%nat 4%nat) (Fa 1%nat 5%nat) (Fa 1%nat 6%nat) (Fa 1%nat 7%nat) (Fa 1%nat 8%nat) (Fa 2%nat 0%nat) (Fa 2%nat 1%nat) (Fa 2%nat 2%nat) (Fa 2%nat 3%nat) (Fa 2%nat 4%nat) (Fa 2%nat 5%nat) (Fa 2%nat 6%nat) (Fa 2%nat 7%nat) (Fa 2%nat 8%nat) (Fa 3%nat 0%nat) (Fa 3%nat 1%nat) (Fa 3%nat 2%nat) (Fa 3%nat 3%nat) (Fa 3%nat 4%nat) (Fa 3%nat 5%nat) (Fa 3%nat 6%nat) (Fa 3%nat 7%nat) (Fa 3%nat 8%nat) (Fa 4%nat 0%nat) (Fa 4%nat 1%nat) (Fa 4%nat 2%nat) (Fa 4%nat 3%nat) (Fa 4%nat 4%nat) (Fa 4%nat 5%nat) (Fa 4%nat 6%nat) (Fa 4%nat 7%nat) (Fa 4%nat 8%nat) (Fa 5%nat 0%nat) (Fa 5%nat 1%nat) (Fa 5%nat 2%nat) (Fa 5%nat 3%nat) (Fa 5%nat 4%nat) (Fa 5%nat 5%nat) (Fa 5%nat 6%nat) (Fa 5%nat 7%nat) (Fa 5%nat 8%nat) (Fa 6%nat 0%nat) (Fa 6%nat 1%nat) (Fa 6%nat 2%nat) (Fa 6%nat 3%nat) (Fa 6%nat 4%nat) (Fa 6%nat 5%nat) (Fa 6%nat 6%nat) (Fa 6%nat 7%nat) (Fa 6%nat 8%nat) (Fa 7%nat 0%nat) (Fa 7%nat 1%nat) (Fa 7%nat 2%nat) (Fa 7%nat 3%nat) (Fa 7%nat 4%nat) (Fa 7%nat 5%nat) (Fa 7%nat 6%nat) (Fa 7%nat 7%nat) (Fa 7%nat 8%nat) (Fa 8%nat 0%nat) (Fa 8%nat 1%nat) (Fa 8%nat 2%nat) (Fa 8%nat 3%nat) (Fa 8%nat 4%nat) (Fa 8%nat 5%nat) (Fa 8%nat 6%nat) (Fa 8%nat 7%nat) (Fa 8%nat 8%nat) (Fb 0%nat 0%nat) (Fb 0%nat 1%nat) (Fb 0%nat 2%nat) (Fb 0%nat 3%nat) (Fb 0%nat 4%nat) (Fb 0%nat 5%nat) (Fb 0%nat 6%nat) (Fb 0%nat 7%nat) (Fb 0%nat 8%nat) (Fb 1%nat 0%nat) (Fb 1%nat 1%nat) (Fb 1%nat 2%nat) (Fb 1%nat 3%nat) (Fb 1%nat 4%nat) (Fb 1%nat 5%nat) (Fb 1%nat 6%nat) (Fb 1%nat 7%nat) (Fb 1%nat 8%nat) (Fb 2%nat 0%nat) (Fb 2%nat 1%nat) (Fb 2%nat 2%nat) (Fb 2%nat 3%nat) (Fb 2%nat 4%nat) (Fb 2%nat 5%nat) (Fb 2%nat 6%nat) (Fb 2%nat 7%nat) (Fb 2%nat 8%nat) (Fb 3%nat 0%nat) (Fb 3%nat 1%nat) (Fb 3%nat 2%nat) (Fb 3%nat 3%nat) (Fb 3%nat 4%nat) (Fb 3%nat 5%nat) (Fb 3%nat 6%nat) (Fb 3%nat 7%nat) (Fb 3%nat 8%nat) (Fb 4%nat 0%nat) (Fb 4%nat 1%nat) (Fb 4%nat 2%nat) (Fb 4%nat 3%nat) (Fb 4%nat 4%nat) (Fb 4%nat 5%nat) (Fb 4%nat 6%nat) (Fb 4%nat 7%nat) (Fb 4%nat 8%nat) (Fb 5%nat 0%nat) (Fb 5%nat 1%nat) (Fb 5%nat 2%nat) (Fb 5%nat 3%nat) (Fb 5%nat 4%nat) (Fb 5%nat 5%nat) (Fb 5%nat 6%nat) (Fb 5%nat 7%nat) (Fb 5%nat 8%nat) (Fb 6%nat 0%nat) (Fb 6%nat 1%nat) (Fb 6%nat 2%nat) (Fb 6%nat 3%nat) (Fb 6%nat 4%nat) (Fb 6%nat 5%nat) (Fb 6%nat 6%nat) (Fb 6%nat 7%nat) (Fb 6%nat 8%nat) (Fb 7%nat 0%nat) (Fb 7%nat 1%nat) (Fb 7%nat 2%nat) (Fb 7%nat 3%nat) (Fb 7%nat 4%nat) (Fb 7%nat 5%nat) (Fb 7%nat 6%nat) (Fb 7%nat 7%nat) (Fb 7%nat 8%nat) (Fb 8%nat 0%nat) (Fb 8%nat 1%nat) (Fb 8%nat 2%nat) (Fb 8%nat 3%nat) (Fb 8%nat 4%nat) (Fb 8%nat 5%nat) (Fb 8%nat 6%nat) (Fb 8%nat 7%nat) (Fb 8%nat 8%nat) (Ga 0%nat 0%nat) (Ga 0%nat 1%nat) (Ga 0%nat 2%nat) (Ga 1%nat 0%nat) (Ga 1%nat 1%nat) (Ga 1%nat 2%nat) (Ga 2%nat 0%nat) (Ga 2%nat 1%nat) (Ga 2%nat 2%nat) (Ga 3%nat 0%nat) (Ga 3%nat 1%nat) (Ga 3%nat 2%nat) (Ga 4%nat 0%nat) (Ga 4%nat 1%nat) (Ga 4%nat 2%nat) (Ga 5%nat 0%nat) (Ga 5%nat 1%nat) (Ga 5%nat 2%nat) (Ga 6%nat 0%nat) (Ga 6%nat 1%nat) (Ga 6%nat 2%nat) (Ga 7%nat 0%nat) (Ga 7%nat 1%nat) (Ga 7%nat 2%nat) (Ga 8%nat 0%nat) (Ga 8%nat 1%nat) (Ga 8%nat 2%nat) (Gb 0%nat 0%nat) (Gb 0%nat 1%nat) (Gb 0%nat 2%nat) (Gb 1%nat 0%nat) (Gb 1%nat 1%nat) (Gb 1%nat 2%nat) (Gb 2%nat 0%nat) (Gb 2%nat 1%nat) (Gb 2%nat 2%nat) (Gb 3%nat 0%nat) (Gb 3%nat 1%nat) (Gb 3%nat 2%nat) (Gb 4%nat 0%nat) (Gb 4%nat 1%nat) (Gb 4%nat 2%nat) (Gb 5%nat 0%nat) (Gb 5%nat 1%nat) (Gb 5%nat 2%nat) (Gb 6%nat 0%nat) (Gb 6%nat 1%nat) (Gb 6%nat 2%nat) (Gb 7%nat 0%nat) (Gb 7%nat 1%nat) (Gb 7%nat 2%nat) (Gb 8%nat 0%nat) (Gb 8%nat 1%nat) (Gb 8%nat 2%nat) (Aa 0%nat 0%nat) (Aa 0%nat 1%nat) (Aa 0%nat 2%nat) (Aa 1%nat 0%nat) (Aa 1%nat 1%nat) (Aa 1%nat 2%nat) (Aa 2%nat 0%nat) (Aa 2%nat 1%nat) (Aa 2%nat 2%nat) (Aa 3%nat 0%nat) (Aa 3%nat 1%nat) (Aa 3%nat 2%nat) (Aa 4%nat 0%nat) (Aa 4%nat 1%nat) (Aa 4%nat 2%nat) (Aa 5%nat 0%nat) (Aa 5%nat 1%nat) (Aa 5%nat 2%nat) (Aa 6%nat 0%nat) (Aa 6%nat 1%nat) (Aa 6%nat 2%nat) (Aa 7%nat 0%nat) (Aa 7%nat 1%nat) (Aa 7%nat 2%nat) (Aa 8%nat 0%nat) (Aa 8%nat 1%nat) (Aa 8%nat 2%nat) (Ab 0%nat 0%nat) (Ab 0%nat 1%nat) (Ab 0%nat 2%nat) (Ab 1%nat 0%nat) (Ab 1%nat 1%nat) (Ab 1%nat 2%nat) (Ab 2%nat 0%nat) (Ab 2%nat 1%nat) (Ab 2%nat 2%nat) (Ab 3%nat 0%nat) (Ab 3%nat 1%nat) (Ab 3%nat 2%nat) (Ab 4%nat 0%nat) (Ab 4%nat 1%nat) (Ab 4%nat 2%nat) (Ab 5%nat 0%nat) (Ab 5%nat 1%nat) (Ab 5%nat 2%nat) (Ab 6%nat 0%nat) (Ab 6%nat 1%nat) (Ab 6%nat 2%nat) (Ab 7%nat 0%nat) (Ab 7%nat 1%nat) (Ab 7%nat 2%nat) (Ab 8%nat 0%nat) (Ab 8%nat 1%nat) (Ab 8%nat 2%nat) (x 0%nat) (x 1%nat) (x 2%nat) (x 3%nat) (x 4%nat) (x 5%nat) (x 6%nat) (x 7%nat) (x 8%nat) (eg 0%nat) (eg 1%nat) (eg 2%nat) (ea 0%nat) (ea 1%nat) (ea 2%nat)
  | 4 => prop3d_x4 dt (Fa 0%nat 0%nat) (Fa 0%nat 1%nat) (Fa 0%nat 2%nat) (Fa 0%nat 3%nat) (Fa 0%nat 4%nat) (Fa 0%nat 5%nat) (Fa 0%nat 6%nat) (Fa 0%nat 7%nat) (Fa 0%nat 8%nat) (Fa 1%nat 0%nat) (Fa 1%nat 1%nat) (Fa 1%nat 2%nat) (Fa 1%nat 3%nat) (Fa 1%nat 4%nat) (Fa 1%nat 5%nat) (Fa 1%nat 6%nat) (Fa 1%nat 7%nat) (Fa 1%nat 8%nat) (Fa 2%nat 0%nat) (Fa 2%nat 1%nat) (Fa 2%nat 2%nat) (Fa 2%nat 3%nat) (Fa 2%nat 4%nat) (Fa 2%nat 5%nat) (Fa 2%nat 6%nat) (Fa 2%nat 7%nat) (Fa 2%nat 8%nat) (Fa 3%nat 0%nat) (Fa 3%nat 1%nat) (Fa 3%nat 2%nat) (Fa 3%nat 3%nat) (Fa 3%nat 4%nat) (Fa 3%nat 5%nat) (Fa 3%nat 6%nat) (Fa 3%nat 7%nat) (Fa 3%nat 8%nat) (Fa 4%nat 0%nat) (Fa 4%nat 1%nat) (Fa 4%nat 2%nat) (Fa 4%nat 3%nat) (Fa 4%nat 4%nat) (Fa 4%nat 5%nat) (Fa 4%nat 6%nat) (Fa 4%nat 7%nat) (Fa 4%nat 8%nat) (Fa 5%nat 0%nat) (Fa 5%nat 1%nat) (Fa 5%nat 2%nat) (Fa 5%nat 3%nat) (Fa 5%nat 4%nat) (Fa 5%nat 5%nat) (Fa 5%nat 6%nat) (Fa 5%nat 7%nat) (Fa 5%nat 8%nat) (Fa 6%nat 0%nat) (Fa 6%nat 1%nat) (Fa 6%nat 2%nat) (Fa 6%nat 3%nat) (Fa 6%nat 4%nat) (Fa 6%nat 5%nat) (Fa 6%nat 6%nat) (Fa 6%nat 7%nat) (Fa 6%nat 8%nat) (Fa 7%nat 0%nat) (Fa 7%nat 1%nat) (Fa 7%nat 2%nat) (Fa 7%nat 3%nat) (Fa 7%nat 4%nat) (Fa 7%nat 5%nat) (Fa 7%nat 6%nat) (Fa 7%nat 7%nat) (Fa 7%nat 8%nat) (Fa 8%nat 0%nat) (Fa 8%nat 1%nat) (Fa 8%nat 2%nat) (Fa 8%nat 3%nat) (Fa 8%nat 4%nat) (Fa 8%nat 5%nat) (Fa 8%nat 6%nat) (Fa 8%nat 7%nat) (Fa 8%nat 8%nat) (Fb 0%nat 0%nat) (Fb 0%nat 1%nat) (Fb 0%nat 2%nat) (Fb 0%nat 3%nat) (Fb 0%nat 4%nat) (Fb 0%nat 5%nat) (Fb 0%nat 6%nat) (Fb 0%nat 7%nat) (Fb 0%nat 8%nat) (Fb 1%nat 0%nat) (Fb 1%nat 1%nat) (Fb 1%nat 2%nat) (Fb 1%nat 3%nat) (Fb 1%nat 4%nat) (Fb 1%nat 5%nat) (Fb 1%nat 6%nat) (Fb 1%nat 7%nat) (Fb 1%nat 8%nat) (Fb 2%nat 0%nat) (Fb 2%nat 1%nat) (Fb 2%nat 2%nat) (Fb 2%nat 3%nat) (Fb 2%nat 4%nat) (Fb 2%nat 5%nat) (Fb 2%nat 6%nat) (Fb 2%nat 7%nat) (Fb 2%nat 8%nat) (Fb 3%nat 0%nat) (Fb 3%nat 1%nat) (Fb 3%nat 2%nat) (Fb 3%nat 3%nat) (Fb 3%nat 4%nat) (Fb 3%nat 5%nat) (Fb 3%nat 6%nat) (Fb 3%nat 7%nat) (Fb 3%nat 8%nat) (Fb 4%nat 0%nat) (Fb 4%nat 1%nat) (Fb 4%nat 2%nat) (Fb 4%nat 3%nat) (Fb 4%nat 4%nat) (Fb 4%nat 5%nat) (Fb 4%nat 6%nat) (Fb 4%nat 7%nat) (Fb 4%nat 8%nat) (Fb 5%nat 0%nat) (Fb 5%nat 1%nat) (Fb 5%nat 2%nat) (Fb 5%nat 3%nat) (Fb 5%nat 4%nat) (Fb 5%nat 5%nat) (Fb 5%nat 6%nat) (Fb 5%nat 7%nat) (Fb 5%nat 8%nat) (Fb 6%nat 0%nat) (Fb 6%nat 1%nat) (Fb 6%nat 2%nat) (Fb 6%nat 3%nat) (Fb 6%nat 4%nat) (Fb 6%nat 5%nat) (Fb 6%nat 6%nat) (Fb 6%nat 7%nat) (Fb 6%nat 8%nat) (Fb 7%nat 0%nat) (Fb 7%nat 1%nat) (Fb 7%nat 2%nat) (Fb 7%nat 3%nat) (Fb 7%nat 4%nat) (Fb 7%nat 5%nat) (Fb 7%nat 6%nat) (Fb 7%nat 7%nat) (Fb 7%nat 8%nat) (Fb 8%nat 0%nat) (Fb 8%nat 1%nat) (Fb 8%nat 2%nat) (Fb 8%nat 3%nat) (Fb 8%nat 4%nat) (Fb 8%nat 5%nat) (Fb 8%nat 6%nat) (Fb 8%nat 7%nat) (Fb 8%nat 8%nat) (Ga 0%nat 0%nat) (Ga 0%nat 1%nat) (Ga 0%nat 2%nat) (Ga 1%nat 0%nat) (Ga 1%nat 1%nat) (Ga 1%nat 2%nat) (Ga 2%nat 0%nat) (Ga 2%nat 1%nat) (Ga 2%nat 2%nat) (Ga 3%nat 0%nat) (Ga 3%nat 1%nat) (Ga 3%nat 2%nat) (Ga 4%nat 0%nat) (Ga 4%nat 1%nat) (Ga 4%nat 2%nat) (Ga 5%nat 0%nat) (Ga 5%nat 1%nat) (Ga 5%nat 2%nat) (Ga 6%nat 0%nat) (Ga 6%nat 1%nat) (Ga 6%nat 2%nat) (Ga 7%nat 0%nat) (Ga 7%nat 1%nat) (Ga 7%nat 2%nat) (Ga 8%nat 0%nat) (Ga 8%nat 1%nat) (Ga 8%nat 2%nat) (Gb 0%nat 0%nat) (Gb 0%nat 1%nat) (Gb 0%nat 2%nat) (Gb 1%nat 0%nat) (Gb 1%nat 1%nat) (Gb 1%nat 2%nat) (Gb 2%nat 0%nat) (Gb 2%nat 1%nat) (Gb 2%nat 2%nat) (Gb 3%nat 0%nat) (Gb 3%nat 1%nat) (Gb 3%nat 2%nat) (Gb 4%nat 0%nat) (Gb 4%nat 1%nat) (Gb 4%nat 2%nat) (Gb 5%nat 0%nat) (Gb 5%nat 1%nat) (Gb 5%nat 2%nat) (Gb 6%nat 0%nat) (Gb 6%nat 1%nat) (Gb 6%nat 2%nat) (Gb 7%nat 0%nat) (Gb 7%nat 1%nat) (Gb 7%nat 2%nat) (Gb 8%nat 0%nat) (Gb 8%nat 1%nat) (Gb 8%nat 2%nat) (Aa 0%nat 0%nat) (Aa 0%nat 1%nat) (Aa 0%nat 2%nat) (Aa 1%nat 0%nat) (Aa 1%nat 1%nat) (Aa 1%nat 2%nat) (Aa 2%nat 0%nat) (Aa 2%nat 1%nat) (Aa 2%nat 2%nat) (Aa 3%nat 0%nat) (Aa 3%nat 1%nat) (Aa 3%nat 2%nat) (Aa 4%nat 0%nat) (Aa 4%nat 1%nat) (Aa 4%nat 2%nat) (Aa 5%nat 0%nat) (Aa 5%nat 1%nat) (Aa 5%nat 2%nat) (Aa 6%nat 0%nat) (Aa 6%nat 1%nat) (Aa 6%nat 2%nat) (Aa 7%nat 0%nat) (Aa 7%nat 1%nat) (Aa 7%nat 2%nat) (Aa 8%nat 0%nat) (Aa 8%nat 1%nat) (Aa 8%nat 2%nat) (Ab 0%nat 0%nat) (Ab 0%nat 1%nat) (Ab 0%nat 2%nat) (Ab 1%nat 0%nat) (Ab 1%nat 1%nat) (Ab 1%nat 2%nat) (Ab 2%nat 0%nat) (Ab 2%nat 1%nat) (Ab 2%nat 2%nat) (Ab 3%nat 0%nat) (Ab 3%nat 1%nat) (Ab 3%nat 2%nat) (Ab 4%nat 0%nat) (Ab 4%nat 1%nat) (Ab 4%nat 2%nat) (Ab 5%nat 0%nat) (Ab 5%nat 1%nat) (Ab 5%nat 2%nat) (Ab 6%nat 0%nat) (Ab 6%nat 1%nat) (Ab 6%nat 2%nat) (Ab 7%nat 0%nat) (Ab 7%nat 1%nat) (Ab 7%nat 2%nat) (Ab 8%nat 0%nat) (Ab 8%nat 1%nat) (Ab 8%nat 2%nat) (x 0%nat) (x 1%nat) (x 2%nat) (x 3%nat) (x 4%nat) (x 5%nat) (x 6%nat) (x 7%nat) (x 8%nat) (eg 0%nat) (eg 1%nat) (eg 2%nat) (ea 0%nat) (ea 1%nat) (ea 2%nat)
  | 5 => prop3d_x5 dt (Fa 0%nat 0%nat) (Fa 0%nat 1%nat) (Fa 0%nat 2%nat) (Fa 0%nat 3%nat) (Fa 0%nat 4%nat) (Fa 0%nat 5%nat) (Fa 0%nat 6%nat) (Fa 0%nat 7%nat) (Fa 0%nat 8%nat) (Fa 1%nat 0%nat) (Fa 1%nat 1%nat) (Fa 1%nat 2%nat) (Fa 1%nat 3%nat) (Fa 1%nat 4%nat) (Fa 1%nat 5%nat) (Fa 1%nat 6%nat) (Fa 1%nat 7%nat) (Fa 1%nat 8%nat) (Fa 2%nat 0%nat) (Fa 2%nat 1%nat) (Fa 2%nat 2%nat) (Fa 2%nat 3%nat) (Fa 2%nat 4%nat) (Fa 2%nat 5%nat) (Fa 2%nat 6%nat) (Fa 2%nat 7%nat) (Fa 2%nat 8%nat) (Fa 3%nat 0%nat) (Fa 3%nat 1%nat) (Fa 3%nat 2%nat) (Fa 3%nat 3%nat) (Fa 3%nat 4%nat) (Fa 3%nat 5%nat) (Fa 3%nat 6%nat) (Fa 3%nat 7%nat) (Fa 3%nat 8%nat) (Fa 4%nat 0%nat) (Fa 4%nat 1%nat) (Fa 4%nat 2%nat) (Fa 4%nat 3%nat) (Fa 4%nat 4%nat) (Fa 4%nat 5%nat) (Fa 4%nat 6%nat) (Fa 4%nat 7%nat) (Fa 4%nat 8%nat) (Fa 5%nat 0%nat) (Fa 5%nat 1%nat) (Fa 5%nat 2%nat) (Fa 5%nat 3%nat) (Fa 5%nat 4%nat) (Fa 5%nat 5%nat) (Fa 5%nat 6%nat) (Fa 5%nat 7%nat) (Fa 5%nat 8%nat) (Fa 6%nat 0%nat) (Fa 6%nat 1%nat) (Fa 6%nat 2%nat) (Fa 6%nat 3%nat) (Fa 6%nat 4%nat) (Fa 6%nat 5%nat) (Fa 6%nat 6%nat) (Fa 6%nat 7%nat) (Fa 6%nat 8%nat) (Fa 7%nat 0%nat) (Fa 7%nat 1%nat) (Fa 7%nat 2%nat) (Fa 7%nat 3%nat) (Fa 7%nat 4%nat) (Fa 7%nat 5%nat) (Fa 7%nat 6%nat) (Fa 7%nat 7%nat) (Fa 7%nat 8%nat) (Fa 8%nat 0%nat) (Fa 8%nat 1%nat) (Fa 8%nat 2%nat) (Fa 8%nat 3%nat) (Fa 8%nat 4%nat) (Fa 8%nat 5%nat) (Fa 8%nat 6%nat) (Fa 8%nat 7%nat) (Fa 8%nat 8%nat) (Fb 0%nat 0%nat) (Fb 0%nat 1%nat) (Fb 0%nat 2%nat) (Fb 0%nat 3%nat) (Fb 0%nat 4%nat) (Fb 0%nat 5%nat) (Fb 0%nat 6%nat) (Fb 0%nat 7%nat) (Fb 0%nat 8%nat) (Fb 1%nat 0%nat) (Fb 1%nat 1%nat) (Fb 1%nat 2%nat) (Fb 1%nat 3%nat) (Fb 1%nat 4%nat) (Fb 1%nat 5%nat) (Fb 1%nat 6%nat) (Fb 1%nat 7%nat) (Fb 1%nat 8%nat) (Fb 2%nat 0%nat) (Fb 2%nat 1%nat) (Fb 2%nat 2%nat) (Fb 2%nat 3%nat) (Fb 2%nat 4%nat) (Fb 2%nat 5%nat) (Fb 2%nat 6%nat) (Fb 2%nat 7%nat) (Fb 2%nat 8%nat) (Fb 3%nat 0%nat) (Fb 3%nat 1%nat) (Fb 3%nat 2%nat) (Fb 3%nat 3%nat) (Fb 3%nat 4%nat) (Fb 3%nat 5%nat) (Fb 3%nat 6%nat) (Fb 3%nat 7%nat) (Fb 3%nat 8%nat) (Fb 4%nat 0%nat) (Fb 4%nat 1%nat) (Fb 4%nat 2%nat) (Fb 4%nat 3%nat) (Fb 4%nat 4%nat) (Fb 4%nat 5%nat) (Fb 4%nat 6%nat) (Fb 4%nat 7%nat) (Fb 4%nat 8%nat) (Fb 5%nat 0%nat) (Fb 5%nat 1%nat) (Fb 5%nat 2%nat) (Fb 5%nat 3%nat) (Fb 5%nat 4%nat) (Fb 5%nat 5%nat) (Fb 5%nat 6%nat) (Fb 5%nat 7%nat) (Fb 5%nat 8%nat) (Fb 6%nat 0%nat) (Fb 6%nat 1%nat) (Fb 6%nat 2%nat) (Fb 6%nat 3%nat) (Fb 6%nat 4%nat) (Fb 6%nat 5%nat) (Fb 6%nat 6%nat) (Fb 6%nat 7%nat) (Fb 6%nat 8%nat) (Fb 7%nat 0%nat) (Fb 7%nat 1%nat) (Fb 7%nat 2%nat) (Fb 7%nat 3%nat) (Fb 7%nat 4%nat) (Fb 7%nat 5%nat) (Fb 7%nat 6%nat) (Fb 7%nat 7%nat) (Fb 7%nat 8%nat) (Fb 8%nat 0%nat) (Fb 8%nat 1%nat) (Fb 8%nat 2%nat) (Fb 8%nat 3%nat) (Fb 8%nat 4%nat) (Fb 8%nat 5%nat) (Fb 8%nat 6%nat) (Fb 8%nat 7%nat) (Fb 8%nat 8%nat) (Ga 0%nat 0%nat) (Ga 0%nat 1%nat) (Ga 0%nat 2%nat) (Ga 1%nat 0%nat) (Ga 1%nat 1%nat) (Ga 1%nat 2%nat) (Ga 2%nat 0%nat) (Ga 2%nat 1%nat) (Ga 2%nat 2%nat) (Ga 3%nat 0%nat) (Ga 3%nat 1%nat) (Ga 3%nat 2%nat) (Ga 4%nat 0%nat) (Ga 4%nat 1%nat) (Ga 4%nat 2%nat) (Ga 5%nat 0%nat) (Ga 5%nat 1%nat) (Ga 5%nat 2%nat) (Ga 6%nat 0%nat) (Ga 6%nat 1%nat) (Ga 6%nat 2%nat) (Ga 7%nat 0%nat) (Ga 7%nat 1%nat) (Ga 7%nat 2%nat) (Ga 8%nat 0%nat) (Ga 8%nat 1%nat) (Ga 8%nat 2%nat) (Gb 0%nat 0%nat) (Gb 0%nat 1%nat) (Gb 0%nat 2%nat) (Gb 1%nat 0%nat) (Gb 1%nat 1%nat) (Gb 1%nat 2%nat) (Gb 2%nat 0%nat) (Gb 2%nat 1%nat) (Gb 2%nat 2%nat) (Gb 3%nat 0%nat) (Gb 3%nat 1%nat) (Gb 3%nat 2%nat) (Gb 4%nat 0%nat) (Gb 4%nat 1%nat) (Gb 4%nat 2%nat) (Gb 5%nat 0%nat) (Gb 5%nat 1%nat) (Gb 5%nat 2%nat) (Gb 6%nat 0%nat) (Gb 6%nat 1%nat) (Gb 6%nat 2%nat) (Gb 7%nat 0%nat) (Gb 7%nat 1%nat) (Gb 7%nat 2%nat) (Gb 8%nat 0%nat) (Gb 8%nat 1%nat) (Gb 8%nat 2%nat) (Aa 0%nat 0%nat) (Aa 0%nat 1%nat) (Aa 0%nat 2%nat) (Aa 1%nat 0%nat) (Aa 1%nat 1%nat) (Aa 1%nat 2%nat) (Aa 2%nat 0%nat) (Aa 2%nat 1%nat) (Aa 2%nat 2%nat) (Aa 3%nat 0%nat) (Aa 3%nat 1%nat) (Aa 3%nat 2%nat) (Aa 4%nat 0%nat) (Aa 4%nat 1%nat) (Aa 4%nat 2%nat) (Aa 5%nat 0%nat) (Aa 5%nat 1%nat) (Aa 5%nat 2%nat) (Aa 6%nat 0%nat) (Aa 6%nat 1%nat) (Aa 6%nat 2%nat) (Aa 7%nat 0%nat) (Aa 7%nat 1%nat) (Aa 7%nat 2%nat) (Aa 8%nat 0%nat) (Aa 8%nat 1%nat) (Aa 8%nat 2%nat) (Ab 0%nat 0%nat) (Ab 0%nat 1%nat) (Ab 0%nat 2%nat) (Ab 1%nat 0%nat) (Ab 1%nat 1%nat) (Ab 1%nat 2%nat) (Ab 2%nat 0%nat) (Ab 2%nat 1%nat) (Ab 2%nat 2%nat) (Ab 3%nat 0%nat) (Ab 3%nat 1%nat) (Ab 3%nat 2%nat) (Ab 4%nat 0%nat) (Ab 4%nat 1%nat) (Ab 4%nat 2%nat) (Ab 5%nat 0%nat) (Ab 5%nat 1%nat) (Ab 5%nat 2%nat) (Ab 6%nat 0%nat) (Ab 6%nat 1%nat) (Ab 6%nat 2%nat) (Ab 7%nat 0%nat) (Ab 7%nat 1%nat) (Ab 7%nat 2%nat) (Ab 8%nat 0%nat) (Ab 8%nat 1%nat) (Ab 8%nat 2%nat) (x 0%nat) (x 1%nat) (x 2%nat) (x 3%nat) (x 4%nat) (x 5%nat) (x 6%nat) (x 7%nat) (x 8%nat) (eg 0%nat) (eg 1%nat) (eg 2%nat) (ea 0%nat) (ea 1%nat) (ea 2%nat)
  | 6 => prop3d_x6 dt (Fa 0%nat 0%nat) (Fa 0%nat 1%nat) (Fa 0%nat 2%nat) (Fa 0%nat 3%nat) (Fa 0%nat 4%nat) (Fa 0%nat 5%nat) (Fa 0%nat 6%nat) (Fa 0%nat 7%nat) (Fa 0%nat 8%nat) (Fa 1%nat 0%nat) (Fa 1%nat 1%nat) (Fa 1%nat 2%nat) (Fa 1%nat 3%nat) (Fa 1%nat 4%nat) (Fa 1%nat 5%nat) (Fa 1%nat 6%nat) (Fa 1%nat 7%nat) (Fa 1%nat 8%nat) (Fa 2%nat 0%nat) (Fa 2%nat 1%nat) (Fa 2%nat 2%nat) (Fa 2%nat 3%nat) (Fa 2%nat 4%nat) (Fa 2%nat 5%nat) (Fa 2%nat 6%nat) (Fa 2%nat 7%nat) (Fa 2%nat 8%nat) (Fa 3%nat 0%nat) (Fa 3%nat 1%nat) (Fa 3%nat 2%nat) (Fa 3%nat 3%nat) (Fa 3%nat 4%nat) (Fa 3%nat 5%nat) (Fa 3%nat 6%nat) (Fa 3%nat 7%nat) (Fa 3%nat 8%nat) (Fa 4%nat 0%nat) (Fa 4%nat 1%nat) (Fa 4%nat 2%nat) (Fa 4%nat 3%nat) (Fa 4%nat 4%nat) (Fa 4%nat 5%nat) (Fa 4%nat 6%nat) (Fa 4%nat 7%nat) (Fa 4%nat 8%nat) (Fa 5%nat 0%nat) (Fa 5%nat 1%nat) (Fa 5%nat 2%nat) (Fa 5%nat 3%nat) (Fa 5%nat 4%nat) (Fa 5%nat 5%nat) (Fa 5%nat 6%nat) (Fa 5%nat 7%nat) (Fa 5%nat 8%nat) (Fa 6%nat 0%nat) (Fa 6%nat 1%nat) (Fa 6%nat 2%nat) (Fa 6%nat 3%nat) (Fa 6%nat 4%nat) (Fa 6%nat 5%nat) (Fa 6%nat 6%nat) (Fa 6%nat 7%nat) (Fa 6%nat 8%nat) (Fa 7%nat 0%nat) (Fa 7%nat 1%nat) (Fa 7%nat 2%nat) (Fa 7%nat 3%nat) (Fa 7%nat 4%nat) (Fa 7%nat 5%nat) (Fa 7%nat 6%nat) (Fa 7%nat 7%nat) (Fa 7%nat 8%nat) (Fa 8%nat 0%nat) (Fa 8%nat 1%nat) (Fa 8%nat 2%nat) (Fa 8%nat 3%nat) (Fa 8%nat 4%nat) (Fa 8%nat 5%nat) (Fa 8%nat 6%nat) (Fa 8%nat 7%nat) (Fa 8%nat 8%nat) (Fb 0%nat 0%nat) (Fb 0%nat 1%nat) (Fb 0%nat 2%nat) (Fb 0%nat 3%nat) (Fb 0%nat 4%nat) (Fb 0%nat 5%nat) (Fb 0%nat 6%nat) (Fb 0%nat 7%nat) (Fb 0%nat 8%nat) (Fb 1%nat 0%nat) (Fb 1%nat 1%nat) (Fb 1%nat 2%nat) (Fb 1%nat 3%nat) (Fb 1%nat 4%nat) (Fb 1%nat 5%nat) (Fb 1%nat 6%nat) (Fb 1%nat 7%nat) (Fb 1%nat 8%nat) (Fb 2%nat 0%nat) (Fb 2%nat 1%nat) (Fb 2%nat 2%nat) (Fb 2%nat 3%nat) (Fb 2%nat 4%nat) (Fb 2%nat 5%nat) (Fb 2%nat 6%nat) (Fb 2%nat 7%nat) (Fb 2%nat 8%nat) (Fb 3%nat 0%nat) (Fb 3%nat 1%nat) (Fb 3%nat 2%nat) (Fb 3%nat 3%nat) (Fb 3%nat 4%nat) (Fb 3%nat 5%nat) (Fb 3%nat 6%nat) (Fb 3%nat 7%nat) (Fb 3%nat 8%nat) (Fb 4%nat 0%nat) (Fb 4%nat 1%nat) (Fb 4%nat 2%nat) (Fb 4%nat 3%nat) (Fb 4%nat 4%nat) (Fb 4%nat 5%nat) (Fb 4%nat 6%nat) (Fb 4%nat 7%nat) (Fb 4%nat 8%nat) (Fb 5%nat 0%nat) (Fb 5%nat 1%nat) (Fb 5%nat 2%nat) (Fb 5%nat 3%nat) (Fb 5%nat 4%nat) (Fb 5%nat 5%nat) (Fb 5%nat 6%nat) (Fb 5%nat 7%nat) (Fb 5%nat 8%nat) (Fb 6%nat 0%nat) (Fb 6%nat 1%nat) (Fb 6%nat 2%nat) (Fb 6%nat 3%nat) (Fb 6%nat 4%nat) (Fb 6%nat 5%nat) (Fb 6%nat 6%nat) (Fb 6%nat 7%nat) (Fb 6%nat 8%nat) (Fb 7%nat 0%nat) (Fb 7%nat 1%nat) (Fb 7%nat 2%nat) (Fb 7%nat 3%nat) (Fb 7%nat 4%nat) (Fb 7%nat 5%nat) (Fb 7%nat 6%nat) (Fb 7%nat 7%nat) (Fb 7%nat 8%nat) (Fb 8%nat 0%nat) (Fb 8%nat 1%nat) (Fb 8%nat 2%nat) (Fb 8%nat 3%nat) (Fb 8%nat 4%nat) (Fb 8%nat 5%nat) (Fb 8%nat 6%nat) (Fb 8%nat 7%nat) (Fb 8%nat 8%nat) (Ga 0%nat 0%nat) (Ga 0%nat 1%nat) (Ga 0%nat 2%nat) (Ga 1%nat 0%nat) (Ga 1%nat 1%nat) (Ga 1%nat 2%nat) (Ga 2%nat 0%nat) (Ga 2%nat 1%nat) (Ga 2%nat 2%nat) (Ga 3%nat 0%nat) (Ga 3%nat 1%nat) (Ga 3%nat 2%nat) (Ga 4%nat 0%nat) (Ga 4%nat 1%nat) (Ga 4%nat 2%nat) (Ga 5%nat 0%nat) (Ga 5%nat 1%nat) (Ga 5%nat 2%nat) (Ga 6%nat 0%nat) (Ga 6%nat 1%nat) (Ga 6%nat 2%nat) (Ga 7%nat 0%nat) (Ga 7%nat 1%nat) (Ga 7%nat 2%nat) (Ga 8%nat 0%nat) (Ga 8%nat 1%nat) (Ga 8%nat 2%nat) (Gb 0%nat 0%nat) (Gb 0%nat 1%nat) (Gb 0%nat 2%nat) (Gb 1%nat 0%nat) (Gb 1%nat 1%nat) (Gb 1%nat 2%nat) (Gb 2%nat 0%nat) (Gb 2%nat 1%nat) (Gb 2%nat 2%nat) (Gb 3%nat 0%nat) (Gb 3%nat 1%nat) (Gb 3%nat 2%nat) (Gb 4%nat 0%nat) (Gb 4%nat 1%nat) (Gb 4%nat 2%nat) (Gb 5%nat 0%nat) (Gb 5%nat 1%nat) (Gb 5%nat 2%nat) (Gb 6%nat 0%nat) (Gb 6%nat 1%nat) (Gb 6%nat 2%nat) (Gb 7%nat 0%nat) (Gb 7%nat 1%nat) (Gb 7%nat 2%nat) (Gb 8%nat 0%nat) (Gb 8%nat 1%nat) (Gb 8%nat 2%nat) (Aa 0%nat 0%nat) (Aa 0%nat 1%nat) (Aa 0%nat 2%nat) (Aa 1%nat 0%nat) (Aa 1%nat 1%nat) (Aa 1%nat 2%nat) (Aa 2%nat 0%nat) (Aa 2%nat 1%nat) (Aa 2%nat 2%nat) (Aa 3%nat 0%nat) (Aa 3%nat 1%nat) (Aa 3%nat 2%nat) (Aa 4%nat 0%nat) (Aa 4%nat 1%nat) (Aa 4%nat 2%nat) (Aa 5%nat 0%nat) (Aa 5%nat 1%nat) (Aa 5%nat 2%nat) (Aa 6%nat 0%nat) (Aa 6%nat 1%nat) (Aa 6%nat 2%nat) (Aa 7%nat 0%nat) (Aa 7%nat 1%nat) (Aa 7%nat 2%nat) (Aa 8%nat 0%nat) (Aa 8%nat 1%nat) (Aa 8%nat 2%nat) (Ab 0%nat 0%nat) (Ab 0%nat 1%nat) (Ab 0%nat 2%nat) (Ab 1%nat 0%nat) (Ab 1%nat 1%nat) (Ab 1%nat 2%nat) (Ab 2%nat 0%nat) (Ab 2%nat 1%nat) (Ab 2%nat 2%nat) (Ab 3%nat 0%nat) (Ab 3%nat 1%nat) (Ab 3%nat 2%nat) (Ab 4%nat 0%nat) (Ab 4%nat 1%nat) (Ab 4%nat 2%nat) (Ab 5%nat 0%nat) (Ab 5%nat 1%nat) (Ab 5%nat 2%nat) (Ab 6%nat 0%nat) (Ab 6%nat 1%nat) (Ab 6%nat 2%nat) (Ab 7%nat 0%nat) (Ab 7%nat 1%nat) (Ab 7%nat 2%nat) (Ab 8%nat 0%nat) (Ab 8%nat 1%nat) (Ab 8%nat 2%nat) (x 0%nat) (x 1%nat) (x 2%nat) (x 3%nat) (x 4%nat) (x 5%nat) (x 6%nat) (x 7%nat) (x 8%nat) (eg 0%nat) (eg 1%nat) (eg 2%nat) (ea 0%nat) (ea 1%nat) (ea 2%nat)
  | 7 => prop3d_x7 dt (Fa 0%nat 0%nat) (Fa 0%nat 1%nat) (Fa 0%nat 2%nat) (Fa 0%nat 3%nat) (Fa 0%nat 4%nat) (Fa 0%nat 5%nat) (Fa 0%nat 6%nat) (Fa 0%nat 7%nat) (Fa 0%nat 8%nat) (Fa 1%nat 0%nat) (Fa 1%nat 1%nat) (Fa 1%nat 2%nat) (Fa 1%nat 3%nat) (Fa 1%nat 4%nat) (Fa 1%nat 5%nat) (Fa 1%nat 6%nat) (Fa 1%nat 7%nat) (Fa 1%nat 8%nat) (Fa 2%nat 0%nat) (Fa 2%nat 1%nat) (Fa 2%nat 2%nat) (Fa 2%nat 3%nat) (Fa 2%nat 4%nat) (Fa 2%nat 5%nat) (Fa 2%nat 6%nat) (Fa 2%nat 7%nat) (Fa 2%nat 8%nat) (Fa 3%nat 0%nat) (Fa 3%nat 1%nat) (Fa 3%nat 2%nat) (Fa 3%nat 3%nat) (Fa 3%nat 4%nat) (Fa 3%nat 5%nat) (Fa 3%nat 6%nat) (Fa 3%nat 7%nat) (Fa 3%nat 8%nat) (Fa 4%nat 0%nat) (Fa 4%nat 1%nat) (Fa 4%nat 2%nat) (Fa 4%nat 3%nat) (Fa 4%nat 4%nat) (Fa 4%nat 5%nat) (Fa 4%nat 6%nat) (Fa 4%nat 7%nat) (Fa 4%nat 8%nat) (Fa 5%nat 0%nat) (Fa 5%nat 1%nat) (Fa 5%nat 2%nat) (Fa 5%nat 3%nat) (Fa 5%nat 4%nat) (Fa 5%nat 5%nat) (Fa 5%nat 6%nat) (Fa 5%nat 7%nat) (Fa 5%nat 8%nat) (Fa 6%nat 0%nat) (Fa 6%nat 1%nat) (Fa 6%nat 2%nat) (Fa 6%nat 3%nat) (Fa 6%nat 4%nat) (Fa 6%nat 5%nat) (Fa 6%nat 6%nat) (Fa 6%nat 7%nat) (Fa 6%nat 8%nat) (Fa 7%nat 0%nat) (Fa 7%nat 1%nat) (Fa 7%nat 2%nat) (Fa 7%nat 3%nat) (Fa 7%nat 4%nat) (Fa 7%nat 5%nat) (Fa 7%nat 6%nat) (Fa 7%nat 7%nat) (Fa 7%nat 8%nat) (Fa 8%nat 0%nat) (Fa 8%nat 1%nat) (Fa 8%nat 2%nat) (Fa 8%nat 3%nat) (Fa 8%nat 4%nat) (Fa 8%nat 5%nat) (Fa 8%nat 6%nat) (Fa 8%nat 7%nat) (Fa 8%nat 8%nat) (Fb 0%nat 0%nat) (Fb 0%nat 1%nat) (Fb 0%nat 2%nat) (Fb 0%nat 3%nat) (Fb 0%nat 4%nat) (Fb 0%nat 5%nat) (Fb 0%nat 6%nat) (Fb 0%nat 7%nat) (Fb 0%nat 8%nat) (Fb 1%nat 0%nat) (Fb 1%nat 1%nat) (Fb 1%nat 2%nat) (Fb 1%nat 3%nat) (Fb 1%nat 4%nat) (Fb 1%nat 5%nat) (Fb 1%nat 6%nat) (Fb 1%nat 7%nat) (Fb 1%nat 8%nat) (Fb 2%nat 0%nat) (Fb 2%nat 1%nat) (Fb 2%nat 2%nat) (Fb 2%nat 3%nat) (Fb 2%nat 4%nat) (Fb 2%nat 5%nat) (Fb 2%nat 6%nat) (Fb 2%nat 7%nat) (Fb 2%nat 8%nat) (Fb 3%nat 0%nat) (Fb 3%nat 1%nat) (Fb 3%nat 2%nat) (Fb 3%nat 3%nat) (Fb 3%nat 4%nat) (Fb 3%nat 5%nat) (Fb 3%nat 6%nat) (Fb 3%nat 7%nat) (Fb 3%nat 8%nat) (Fb 4%nat 0%nat) (Fb 4%nat 1%nat) (Fb 4%nat 2%nat) (Fb 4%nat 3%nat) (Fb 4%nat 4%nat) (Fb 4%nat 5%nat) (Fb 4%nat 6%nat) (Fb 4%nat 7%nat) (Fb 4%nat 8%nat) (Fb 5%nat 0%nat) (Fb 5%nat 1%nat) (Fb 5%nat 2%nat) (Fb 5%nat 3%nat) (Fb 5%nat 4%nat) (Fb 5%nat 5%nat) (Fb 5%nat 6%nat) (Fb 5%nat 7%nat) (Fb 5%nat 8%nat) (Fb 6%nat 0%nat) (Fb 6%nat 1%nat) (Fb 6%nat 2%nat) (Fb 6%nat 3%nat) (Fb 6%nat 4%nat) (Fb 6%nat 5%nat) (Fb 6%nat 6%nat) (Fb 6%nat 7%nat) (Fb 6%nat 8%nat) (Fb 7%nat 0%nat) (Fb 7%nat 1%nat) (Fb 7%nat 2%nat) (Fb 7%nat 3%nat) (Fb 7%nat 4%nat) (Fb 7%nat 5%nat) (Fb 7%nat 6%nat) (Fb 7%nat 7%nat) (Fb 7%nat 8%nat) (Fb 8%nat 0%nat) (Fb 8%nat 1%nat) (Fb 8%nat 2%nat) (Fb 8%nat 3%nat) (Fb 8%nat 4%nat) (Fb 8%nat 5%nat) (Fb 8%nat 6%nat) (Fb 8%nat 7%nat) (Fb 8%nat 8%nat) (Ga 0%nat 0%nat) (Ga 0%nat 1%nat) (Ga 0%nat 2%nat) (Ga 1%nat 0%nat) (Ga 1%nat 1%nat) (Ga 1%nat 2%nat) (Ga 2%nat 0%nat) (Ga 2%nat 1%nat) (Ga 2%nat 2%nat) (Ga 3%nat 0%nat) (Ga 3%nat 1%nat) (Ga 3%nat 2%nat) (Ga 4%nat 0%nat) (Ga 4%nat 1%nat) (Ga 4%nat 2%nat) (Ga 5%nat 0%nat) (Ga 5%nat 1%nat) (Ga 5%nat 2%nat) (Ga 6%nat 0%nat) (Ga 6%nat 1%nat) (Ga 6%nat 2%nat) (Ga 7%nat 0%nat) (Ga 7%nat 1%nat) (Ga 7%nat 2%nat) (Ga 8%nat 0%nat) (Ga 8%nat 1%nat) (Ga 8%nat 2%nat) (Gb 0%nat 0%nat) (Gb 0%nat 1%nat) (Gb 0%nat 2%nat) (Gb 1%nat 0%nat) (Gb 1%nat 1%nat) (Gb 1%nat 2%nat) (Gb 2%nat 0%nat) (Gb 2%nat 1%nat) (Gb 2%nat 2%nat) (Gb 3%nat 0%nat) (Gb 3%nat 1%nat) (Gb 3%nat 2%nat) (Gb 4%nat 0%nat) (Gb 4%nat 1%nat) (Gb 4%nat 2%nat) (Gb 5%nat 0%nat) (Gb 5%nat 1%nat) (Gb 5%nat 2%nat) (Gb 6%nat 0%nat) (Gb 6%nat 1%nat) (Gb 6%nat 2%nat) (Gb 7%nat 0%nat) (Gb 7%nat 1%nat) (Gb 7%nat 2%nat) (Gb 8%nat 0%nat) (Gb 8%nat 1%nat) (Gb 8%nat 2%nat) (Aa 0%nat 0%nat) (Aa 0%nat 1%nat) (Aa 0%nat 2%nat) (Aa 1%nat 0%nat) (Aa 1%nat 1%nat) (Aa 1%nat 2%nat) (Aa 2%nat 0%nat) (Aa 2%nat 1%nat) (Aa 2%nat 2%nat) (Aa 3%nat 0%nat) (Aa 3%nat 1%nat) (Aa 3%nat 2%nat) (Aa 4%nat 0%nat) (Aa 4%nat 1%nat) (Aa 4%nat 2%nat) (Aa 5%nat 0%nat) (Aa 5%nat 1%nat) (Aa 5%nat 2%nat) (Aa 6%nat 0%nat) (Aa 6%nat 1%nat) (Aa 6%nat 2%nat) (Aa 7%nat 0%nat) (Aa 7%nat 1%nat) (Aa 7%nat 2%nat) (Aa 8%nat 0%nat) (Aa 8%nat 1%nat) (Aa 8%nat 2%nat) (Ab 0%nat 0%nat) (Ab 0%nat 1%nat) (Ab 0%nat 2%nat) (Ab 1%nat 0%nat) (Ab 1%nat 1%nat) (Ab 1%nat 2%nat) (Ab 2%nat 0%nat) (Ab 2%nat 1%nat) (Ab 2%nat 2%nat) (Ab 3%nat 0%nat) (Ab 3%nat 1%nat) (Ab 3%nat 2%nat) (Ab 4%nat 0%nat) (Ab 4%nat 1%nat) (Ab 4%nat 2%nat) (Ab 5%nat 0%nat) (Ab 5%nat 1%nat) (Ab 5%nat 2%nat) (Ab 6%nat 0%nat) (Ab 6%nat 1%nat) (Ab 6%nat 2%nat) (Ab 7%nat 0%nat) (Ab 7%nat 1%nat) (Ab 7%nat 2%nat) (Ab 8%nat 0%nat) (Ab 8%nat 1%nat) (Ab 8%nat 2%nat) (x 0%nat) (x 1%nat) (x 2%nat) (x 3%nat) (x 4%nat) (x 5%nat) (x 6%nat) (x 7%nat) (x 8%nat) (eg 0%nat) (eg 1%nat) (eg 2%nat) (ea 0%nat) (ea 1%nat) (ea 2%nat)
  | 8 => prop3d_x8 dt (Fa 0%nat 0%nat) (Fa 0%nat 1%nat) (Fa 0%nat 2%nat) (Fa 0%nat 3%nat) (Fa 0%nat 4%nat) (Fa 0%nat 5%nat) (Fa 0%nat 6%nat) (Fa 0%nat 7%nat) (Fa 0%nat 8%nat) (Fa 1%nat 0%nat) (Fa 1%nat 1%nat) (Fa 1%nat 2%nat) (Fa 1%nat 3%nat) (Fa 1%nat 4%nat) (Fa 1%nat 5%nat) (Fa 1%nat 6%nat) (Fa 1%nat 7%nat) (Fa 1%nat 8%nat) (Fa 2%nat 0%nat) (Fa 2%nat 1%nat) (Fa 2%nat 2%nat) (Fa 2%nat 3%nat) (Fa 2%nat 4%nat) (Fa 2%nat 5%nat) (Fa 2%nat 6%nat) (Fa 2%nat 7%nat) (Fa 2%nat 8%nat) (Fa 3%nat 0%nat) (Fa 3%nat 1%nat) (Fa 3%nat 2%nat) (Fa 3%nat 3%nat) (Fa 3%nat 4%nat) (Fa 3%nat 5%nat) (Fa 3%nat 6%nat) (Fa 3%nat 7%nat) (Fa 3%nat 8%nat) (Fa 4%nat 0%nat) (Fa 4%nat 1%nat) (Fa 4%nat 2%nat) (Fa 4%nat 3%nat) (Fa 4%nat 4%nat) (Fa 4%nat 5%nat) (Fa 4%nat 6%nat) (Fa 4%nat 7%nat) (Fa 4%nat 8%nat) (Fa 5%nat 0%nat) (Fa 5%nat 1%nat) (Fa 5%nat 2%nat) (Fa 5%nat 3%nat) (Fa 5%nat 4%nat) (Fa 5%nat 5%nat) (Fa 5%nat 6%nat) (Fa 5%nat 7%nat) (Fa 5%nat 8%nat) (Fa 6%nat 0%nat) (Fa 6%nat 1%nat) (Fa 6%nat 2%nat) (Fa 6%nat 3%nat) (Fa 6%nat 4%nat) (Fa 6%nat 5%nat) (Fa 6%nat 6%nat) (Fa 6%nat 7%nat) (Fa 6%nat 8%nat) (Fa 7%nat 0%nat) (Fa 7%nat 1%nat) (Fa 7%nat 2%nat) (Fa 7%nat 3%nat) (Fa 7%nat 4%nat) (Fa 7%nat 5%nat) (Fa 7%nat 6%nat) (Fa 7%nat 7%nat) (Fa 7%nat 8%nat) (Fa 8%nat 0%nat) (Fa 8%nat 1%nat) (Fa 8%nat 2%nat) (Fa 8%nat 3%nat) (Fa 8%nat 4%nat) (Fa 8%nat 5%nat) (Fa 8%nat 6%nat) (Fa 8%nat 7%nat) (Fa 8%nat 8%nat) (Fb 0%nat 0%nat) (Fb 0%nat 1%nat) (Fb 0%nat 2%nat) (Fb 0%nat 3%nat) (Fb 0%nat 4%nat) (Fb 0%nat 5%nat) (Fb 0%nat 6%nat) (Fb 0%nat 7%nat) (Fb 0%nat 8%nat) (Fb 1%nat 0%nat) (Fb 1%nat 1%nat) (Fb 1%nat 2%nat) (Fb 1%nat 3%nat) (Fb 1%nat 4%nat) (Fb 1%nat 5%nat) (Fb 1%nat 6%nat) (Fb 1%nat 7%nat) (Fb 1%nat 8%nat) (Fb 2%nat 0%nat) (Fb 2%nat 1%nat) (Fb 2%nat 2%nat) (Fb 2%nat 3%nat) (Fb 2%nat 4%nat) (Fb 2%nat 5%nat) (Fb 2%nat 6%nat) (Fb 2%nat 7%nat) (Fb 2%nat 8%nat) (Fb 3%nat 0%nat) (Fb 3%nat 1%nat) (Fb 3%nat 2%nat) (Fb 3%nat 3%nat) (Fb 3%nat 4%nat) (Fb 3%nat 5%nat) (Fb 3%nat 6%nat) (Fb 3%nat 7%nat) (Fb 3%nat 8%nat) (Fb 4%nat 0%nat) (Fb 4%nat 1%nat) (Fb 4%nat 2%nat) (Fb 4%nat 3%nat) (Fb 4%nat 4%nat) (Fb 4%nat 5%nat) (Fb 4%nat 6%nat) (Fb 4%nat 7%nat) (Fb 4%nat 8%nat) (Fb 5%nat 0%nat) (Fb 5%nat 1%nat) (Fb 5%nat 2%nat) (Fb 5%nat 3%nat) (Fb 5%nat 4%nat) (Fb 5%nat 5%nat) (Fb 5%nat 6%nat) (Fb 5%nat 7%nat) (Fb 5%nat 8%nat) (Fb 6%nat 0%nat) (Fb 6%nat 1%nat) (Fb 6%nat 2%nat) (Fb 6%nat 3%nat) (Fb 6%nat 4%nat) (Fb 6%nat 5%nat) (Fb 6%nat 6%nat) (Fb 6%nat 7%nat) (Fb 6%nat 8%nat) (Fb 7%nat 0%nat) (Fb 7%nat 1%nat) (Fb 7%nat 2%nat) (Fb 7%nat 3%nat) (Fb 7%nat 4%nat) (Fb 7%nat 5%nat) (Fb 7%nat 6%nat) (Fb 7%nat 7%nat) (Fb 7%nat 8%nat) (Fb 8%nat 0%nat) (Fb 8%nat 1%nat) (Fb 8%nat 2%nat) (Fb 8%nat 3%nat) (Fb 8%nat 4%nat) (Fb 8%nat 5%nat) (Fb 8%nat 6%nat) (Fb 8%nat 7%nat) (Fb 8%nat 8%nat) (Ga 0%nat 0%nat) (Ga 0%nat 1%nat) (Ga 0%nat 2%nat) (Ga 1%nat 0%nat) (Ga 1%nat 1%nat) (Ga 1%nat 2%nat) (Ga 2%nat 0%nat) (Ga 2%nat 1%nat) (Ga 2%nat 2%nat) (Ga 3%nat 0%nat) (Ga 3%nat 1%nat) (Ga 3%nat 2%nat) (Ga 4%nat 0%nat) (Ga 4%nat 1%nat) (Ga 4%nat 2%nat) (Ga 5%nat 0%nat) (Ga 5%nat 1%nat) (Ga 5%nat 2%nat) (Ga 6%nat 0%nat) (Ga 6%nat 1%nat) (Ga 6%nat 2%nat) (Ga 7%nat 0%nat) (Ga 7%nat 1%nat) (Ga 7%nat 2%nat) (Ga 8%nat 0%nat) (Ga 8%nat 1%nat) (Ga 8%nat 2%nat) (Gb 0%nat 0%nat) (Gb 0%nat 1%nat) (Gb 0%nat 2%nat) (Gb 1%nat 0%nat) (Gb 1%nat 1%nat) (Gb 1%nat 2%nat) (Gb 2%nat 0%nat) (Gb 2%nat 1%nat) (Gb 2%nat 2%nat) (Gb 3%nat 0%nat) (Gb 3%nat 1%nat) (Gb 3%nat 2%nat) (Gb 4%nat 0%nat) (Gb 4%nat 1%nat) (Gb 4%nat 2%nat) (Gb 5%nat 0%nat) (Gb 5%nat 1%nat) (Gb 5%nat 2%nat) (Gb 6%nat 0%nat) (Gb 6%nat 1%nat) (Gb 6%nat 2%nat) (Gb 7%nat 0%nat) (Gb 7%nat 1%nat) (Gb 7%nat 2%nat) (Gb 8%nat 0%nat) (Gb 8%nat 1%nat) (Gb 8%nat 2%nat) (Aa 0%nat 0%nat) (Aa 0%nat 1%nat) (Aa 0%nat 2%nat) (Aa 1%nat 0%nat) (Aa 1%nat 1%nat) (Aa 1%nat 2%nat) (Aa 2%nat 0%nat) (Aa 2%nat 1%nat) (Aa 2%nat 2%nat) (Aa 3%nat 0%nat) (Aa 3%nat 1%nat) (Aa 3%nat 2%nat) (Aa 4%nat 0%nat) (Aa 4%nat 1%nat) (Aa 4%nat 2%nat) (Aa 5%nat 0%nat) (Aa 5%nat 1%nat) (Aa 5%nat 2%nat) (Aa 6%nat 0%nat) (Aa 6%nat 1%nat) (Aa 6%nat 2%nat) (Aa 7%nat 0%nat) (Aa 7%nat 1%nat) (Aa 7%nat 2%nat) (Aa 8%nat 0%nat) (Aa 8%nat 1%nat) (Aa 8%nat 2%nat) (Ab 0%nat 0%nat) (Ab 0%nat 1%nat) (Ab 0%nat 2%nat) (Ab 1%nat 0%nat) (Ab 1%nat 1%nat) (Ab 1%nat 2%nat) (Ab 2%nat 0%nat) (Ab 2%nat 1%nat) (Ab 2%nat 2%nat) (Ab 3%nat 0%nat) (Ab 3%nat 1%nat) (Ab 3%nat 2%nat) (Ab 4%nat 0%nat) (Ab 4%nat 1%nat) (Ab 4%nat 2%nat) (Ab 5%nat 0%nat) (Ab 5%nat 1%nat) (Ab 5%nat 2%nat) (Ab 6%nat 0%nat) (Ab 6%nat 1%nat) (Ab 6%nat 2%nat) (Ab 7%nat 0%nat) (Ab 7%nat 1%nat) (Ab 7%nat 2%nat) (Ab 8%nat 0%nat) (Ab 8%nat 1%nat) (Ab 8%nat 2%nat) (x 0%nat) (x 1%nat) (x 2%nat) (x 3%nat) (x 4%nat) (x 5%nat) (x 6%nat) (x 7%nat) (x 8%nat) (eg 0%nat) (eg 1%nat) (eg 2%nat) (ea 0%nat) (ea 1%nat) (ea 2%nat)
  | _ => 0%R
  end%nat.
Definition rate3 (i : nat) (Fa Fb Ga Gb Aa Ab : mat) (x eg ea : nat -> R) : R :=
  (Fa i 0%nat + Fb i 0%nat) / 2 * x 0%nat + (Fa i 1%nat + Fb i 1%nat) / 2 * x 1%nat + (Fa i 2%nat + Fb i 2%nat) / 2 * x 2%nat + (Fa i 3%nat + Fb i 3%nat) / 2 * x 3%nat + (Fa i 4%nat + Fb i 4%nat) / 2 * x 4%nat + (Fa i 5%nat + Fb i 5%nat) / 2 * x 5%nat + (Fa i 6%nat + Fb i 6%nat) / 2 * x 6%nat + (Fa i 7%nat + Fb i 7%nat) / 2 * x 7%nat + (Fa i 8%nat + Fb i 8%nat) / 2 * x 8%nat
  + (Ga i 0%nat + Gb i 0%nat) / 2 * eg 0%nat + (Ga i 1%nat + Gb i 1%nat) / 2 * eg 1%nat + (Ga i 2%nat + Gb i 2%nat) / 2 * eg 2%nat
  + (Aa i 0%nat + Ab i 0%nat) / 2 * ea 0%nat + (Aa i 1%nat + Ab i 1%nat) / 2 * ea 1%nat + (Aa i 2%nat + Ab i 2%nat) / 2 * ea 2%nat.

(** the step is affine in dt: trapezoid rule with the mean of the two system matrices *)
Lemma prop3_affine : forall (Fa Fb Ga Gb Aa Ab : mat) (x eg ea : nat -> R) (dt : R) (i : nat), (i < 9)%nat ->
  prop3 i dt Fa Fb Ga Gb Aa Ab x eg ea = x i + dt * rate3 i Fa Fb Ga Gb Aa Ab x eg ea.
Proof.
  intros Fa Fb Ga Gb Aa Ab x eg ea dt i Hi.
  cases_lt lt9_cases i Hi; unfold prop3, rate3; unfold prop3d_x0, prop3d_x1, prop3d_x2, prop3d_x3, prop3d_x4, prop3d_x5, prop3d_x6, prop3d_x7, prop3d_x8; lra.
Qed.

Definition prop2 (i : nat) (dt : R) (Fa Fb Ga Gb Aa Ab : mat) (x eg ea : nat -> R) : R :=
  match i with
  | 0 => prop2d_x0 dt (Fa 0%nat 0%nat) (Fa 0%nat 1%nat) (Fa 0%nat 2%nat) (Fa 0%nat 3%nat) (Fa 0%nat 4%nat) (Fa 0%nat 5%nat) (Fa 0%nat 6%nat) (Fa 1%nat 0%nat) (Fa 1%nat 1%nat) (Fa 1%nat 2%nat) (Fa 1%nat 3%nat) (Fa 1%nat 4%nat) (Fa 1%nat 5%nat) (Fa 1%nat 6%nat) (Fa 2%nat 0%nat) (Fa 2%nat 1%nat) (Fa 2%nat 2%nat) (Fa 2%nat 3%nat) (Fa 2%nat 4%nat) (Fa 2%nat 5%nat) (Fa 2%nat 6%nat) (Fa 3%nat 0%nat) (Fa 3%nat 1%nat) (Fa 3%nat 2%nat) (Fa 3%nat 3%nat) (Fa 3%nat 4%nat) (Fa 3%nat 5%nat) (Fa 3%nat 6%nat) (Fa 4%nat 0%nat) (Fa 4%nat 1%nat) (Fa 4%nat 2%nat) (Fa 4%nat 3%nat) (Fa 4%nat 4%nat) (Fa 4%nat 5%nat) (Fa 4%nat 6%nat) (Fa 5%nat 0%nat) (Fa 5%nat 1%nat) (Fa 5%nat 2%nat) (Fa 5%nat 3%nat) (Fa 5%nat 4%nat) (Fa 5%nat 5%nat) (Fa 5%nat 6%nat) (Fa 6%nat 0%nat) (Fa 6%nat 1%nat) (Fa 6%nat 2%nat) (Fa 6%nat 3%nat) (Fa 6%nat 4%nat) (Fa 6%nat 5%nat) (Fa 6%nat 6%nat) (Fb 0%nat 0%nat) (Fb 0%nat 1%nat) (Fb 0%nat 2%nat) (Fb 0%nat 3%nat) (Fb 0%nat 4%nat) (Fb 0%nat 5%nat) (Fb 0%nat 6%nat) (Fb 1%nat 0%nat) (Fb 1%nat 1%nat) (Fb 1%nat 2%nat) (Fb 1%nat 3%nat) (Fb 1%nat 4%nat) (Fb 1%nat 5%nat) (Fb 1%nat 6%nat) (Fb 2%nat 0%nat) (Fb 2%nat 1%nat) (Fb 2%nat 2%nat) (Fb 2%nat 3%nat) (Fb 2%nat 4%nat) (Fb 2%nat 5%nat) (Fb 2%nat 6%nat) (Fb 3%nat 0%nat) (Fb 3%nat 1%nat) (Fb 3%nat 2%nat) (Fb 3%nat 3%nat) (Fb 3%nat 4%nat) (Fb 3%nat 5%nat) (Fb 3%nat 6%nat) (Fb 4%nat 0%nat) (Fb 4%nat 1%nat) (Fb 4%nat 2%nat) (Fb 4%nat 3%nat) (Fb 4%nat 4%nat) (Fb 4%nat 5%nat) (Fb 4%nat 6%nat) (Fb 5%nat 0%nat) (Fb 5%nat 1%nat) (Fb 5%nat 2%nat) (Fb 5%nat 3%nat) (Fb 5%nat 4%nat) (Fb 5%nat 5%nat) (Fb 5%nat 6%nat) (Fb 6%nat 0%nat) (Fb 6%nat 1%nat) (Fb 6%nat 2%nat) (Fb 6%nat 3%nat) (Fb 6%nat 4%nat) (Fb 6%nat 5%nat) (Fb 6%nat 6%nat) (Ga 0%nat 0%nat) (Ga 0%nat 1%nat) (Ga 0%nat 2%nat) (Ga 1%nat 0%nat) (Ga 1%nat 1%nat) (Ga 1%nat 2%nat) (Ga 2%nat 0%nat) (Ga 2%nat 1%nat) (Ga 2%nat 2%nat) (Ga 3%nat 0%nat) (Ga 3%nat 1%nat) (Ga 3%nat 2%nat) (Ga 4%nat 0%nat) (Ga 4%nat 1%nat) (Ga 4%nat 2%nat) (Ga 5%nat 0%nat) (Ga 5%nat 1%nat) (Ga 5%nat 2%nat) (Ga 6%nat 0%nat) (Ga 6%nat 1%nat) (Ga 6%nat 2%nat) (Gb 0%nat 0%nat) (Gb 0%nat 1%nat) (Gb 0%nat 2%nat) (Gb 1%nat 0%nat) (Gb 1%nat 1%nat) (Gb 1%nat 2%nat) (Gb 2%nat 0%nat) (Gb 2%nat 1%nat) (Gb 2%nat 2%nat) (Gb 3%nat 0%nat) (Gb 3%nat 1%nat) (Gb 3%nat 2%nat) (Gb 4%nat 0%nat) (Gb 4%nat 1%nat) (Gb 4%nat 2%nat) (Gb 5%nat 0%nat) (Gb 5%nat 1%nat) (Gb 5%nat 2%nat) (Gb 6%nat 0%nat) (Gb 6%nat 1%nat) (Gb 6%nat 2%nat) (Aa 0%nat 0%nat) (Aa 0%nat 1%nat) (Aa 0%nat 2%nat) (Aa 1%nat 0%nat) (Aa 1%nat 1%nat) (Aa 1%nat 2%nat) (Aa 2%nat 0%nat) (Aa 2%nat 1%nat) (Aa 2%nat 2%nat) (Aa 3%nat 0%nat) (Aa 3%nat 1%nat) (Aa 3%nat 2%nat) (Aa 4%nat 0%nat) (Aa 4%nat 1%nat) (Aa 4%nat 2%nat) (Aa 5%nat 0%nat) (Aa 5%nat 1%nat) (Aa 5%nat 2%nat) (Aa 6%nat 0%nat) (Aa 6%nat 1%nat) (Aa 6%nat 2%nat) (Ab 0%nat 0%nat) (Ab 0%nat 1%nat) (Ab 0%nat 2%nat) (Ab 1%nat 0%nat) (Ab 1%nat 1%nat) (Ab 1%nat 2%nat) (Ab 2%nat 0%nat) (Ab 2%nat 1%nat) (Ab 2%nat 2%nat) (Ab 3%nat 0%nat) (Ab 3%nat 1%nat) (Ab 3%nat 2%nat) (Ab 4%nat 0%nat) (Ab 4%nat 1%nat) (Ab 4%nat 2%nat) (Ab 5%nat 0%nat) (Ab 5%nat 1%nat) (Ab 5%nat 2%nat) (Ab 6%nat 0%nat) (Ab 6%nat 1%nat) (Ab 6%nat 2%nat) (x 0%nat) (x 1%nat) (x 2%nat) (x 3%nat) (x 4%nat) (x 5%nat) (x 6%nat) (eg 0%nat) (eg 1%nat) (eg 2%nat) (ea 0%nat) (ea 1%nat) (ea 2%nat)
  | 1 => prop2d_x1 dt (Fa 0%nat 0%nat) (Fa 0%nat 1%nat) (Fa 0%nat 2%nat) (Fa 0%nat 3%nat) (Fa 0%nat 4%nat) (Fa 0%nat 5%nat) (Fa 0%nat 6%nat) (Fa 1%nat 0%nat) (Fa 1%nat 1%nat) (Fa 1%nat 2%nat) (Fa 1%nat 3%nat) (Fa 1%nat 4%nat) (Fa 1%nat 5%nat) (Fa 1%nat 6%nat) (Fa 2%nat 0%nat) (Fa 2%nat 1%nat) (Fa 2%nat 2%nat) (Fa 2%nat 3%nat) (Fa 2%nat 4%nat) (Fa 2%nat 5%nat) (Fa 2%nat 6%nat) (Fa 3%nat 0%nat) (Fa 3%nat 1%nat) (Fa 3%nat 2%nat) (Fa 3%nat 3%nat) (Fa 3%nat 4%nat) (Fa 3%nat 5%nat) (Fa 3%nat 6%nat) (Fa 4%nat 0%nat) (Fa 4%nat 1%nat) (Fa 4%nat 2%nat) (Fa 4%nat 3%nat) (Fa 4%nat 4%nat) (Fa 4%nat 5%nat) (Fa 4%nat 6%nat) (Fa 5%nat 0%nat) (Fa 5%nat 1%nat) (Fa 5%nat 2%nat) (Fa 5%nat 3%nat) (Fa 5%nat 4%nat) (Fa 5%nat 5%nat) (Fa 5%nat 6%nat) (Fa 6%nat 0%nat) (Fa 6%nat 1%nat) (Fa 6%nat 2%nat) (Fa 6%nat 3%nat) (Fa 6%nat 4%nat) (Fa 6%nat 5%nat) (Fa 6%nat 6%nat) (Fb 0%nat 0%nat) (Fb 0%nat 1%nat) (Fb 0%nat 2%nat) (Fb 0%nat 3%nat) (Fb 0%nat 4%nat) (Fb 0%nat 5%nat) (Fb 0%nat 6%nat) (Fb 1%nat 0%nat) (Fb 1%nat 1%nat) (Fb 1%nat 2%nat) (Fb 1%nat 3%nat) (Fb 1%nat 4%nat) (Fb 1%nat 5%nat) (Fb 1%nat 6%nat) (Fb 2%nat 0%nat) (Fb 2%nat 1%nat) (Fb 2%nat 2%nat) (Fb 2%nat 3%nat) (Fb 2%nat 4%nat) (Fb 2%nat 5%nat) (Fb 2%nat 6%nat) (Fb 3%nat 0%nat) (Fb 3%nat 1%nat) (Fb 3%nat 2%nat) (Fb 3%nat 3%nat) (Fb 3%nat 4%nat) (Fb 3%nat 5%nat) (Fb 3%nat 6%nat) (Fb 4%nat 0%nat) (Fb 4%nat 1%nat) (Fb 4%nat 2%nat) (Fb 4%nat 3%nat) (Fb 4%nat 4%nat) (Fb 4%nat 5%nat) (Fb 4%nat 6%nat) (Fb 5%nat 0%nat) (Fb 5%nat 1%nat) (Fb 5%nat 2%nat) (Fb 5%nat 3%nat) (Fb 5%nat 4%nat) (Fb 5%nat 5%nat) (Fb 5%nat 6%nat) (Fb 6%nat 0%nat) (Fb 6%nat 1%nat) (Fb 6%nat 2%nat) (Fb 6%nat 3%nat) (Fb 6%nat 4%nat) (Fb 6%nat 5%nat) (Fb 6%nat 6%nat) (Ga 0%nat 0%nat) (Ga 0%nat 1%nat) (Ga 0%nat 2%nat) (Ga 1%nat 0%nat) (Ga 1%nat 1%nat) (Ga 1%nat 2%nat) (Ga 2%nat 0%nat) (Ga 2%nat 1%nat) (Ga 2%nat 2%nat) (Ga 3%nat 0%nat) (Ga 3%nat 1%nat) (Ga 3%nat 2%nat) (Ga 4%nat 0%nat) (Ga 4%nat 1%nat) (Ga 4%nat 2%nat) (Ga 5%nat 0%nat) (Ga 5%nat 1%nat) (Ga 5%nat 2%nat) (Ga 6%nat 0%nat) (Ga 6%nat 1%nat) (Ga 6%nat 2%nat) (Gb 0%nat 0%nat) (Gb 0%nat 1%nat) (Gb 0%nat 2%nat) (Gb 1%nat 0%nat) (Gb 1%nat 1%nat) (Gb 1%nat 2%nat) (Gb 2%nat 0%nat) (Gb 2%nat 1%nat) (Gb 2%nat 2%nat) (Gb 3%nat 0%nat) (Gb 3%nat 1%nat) (Gb 3%nat 2%nat) (Gb 4%nat 0%nat) (Gb 4%nat 1%nat) (Gb 4%nat 2%nat) (Gb 5%nat 0%nat) (Gb 5%nat 1%nat) (Gb 5%nat 2%nat) (Gb 6%nat 0%nat) (Gb 6%nat 1%nat) (Gb 6%nat 2%nat) (Aa 0%nat 0%nat) (Aa 0%nat 1%nat) (Aa 0%nat 2%nat) (Aa 1%nat 0%nat) (Aa 1%nat 1%nat) (Aa 1%nat 2%nat) (Aa 2%nat 0%nat) (Aa 2%nat 1%nat) (Aa 2%nat 2%nat) (Aa 3%nat 0%nat) (Aa 3%nat 1%nat) (Aa 3%nat 2%nat) (Aa 4%nat 0%nat) (Aa 4%nat 1%nat) (Aa 4%nat 2%nat) (Aa 5%nat 0%nat) (Aa 5%nat 1%nat) (Aa 5%nat 2%nat) (Aa 6%nat 0%nat) (Aa 6%nat 1%nat) (Aa 6%nat 2%nat) (Ab 0%nat 0%nat) (Ab 0%nat 1%nat) (Ab 0%nat 2%nat) (Ab 1%nat 0%nat) (Ab 1%nat 1%nat) (Ab 1%nat 2%nat) (Ab 2%nat 0%nat) (Ab 2%nat 1%nat) (Ab 2%nat 2%nat) (Ab 3%nat 0%nat) (Ab 3%nat 1%nat) (Ab 3%nat 2%nat) (Ab 4%nat 0%nat) (Ab 4%nat 1%nat) (Ab 4%nat 2%nat) (Ab 5%nat 0%nat) (Ab 5%nat 1%nat) (Ab 5%nat 2%nat) (Ab 6%nat 0%nat) (Ab 6%nat 1%nat) (Ab 6%nat 2%nat) (x 0%nat) (x 1%nat) (x 2%nat) (x 3%nat) (x 4%nat) (x 5%nat) (x 6%nat) (eg 0%nat) (eg 1%nat) (eg 2%nat) (ea 0%nat) (ea 1%nat) (ea 2%nat)
  | 2 => prop2d_x2 dt (Fa 0%nat 0%nat) (Fa 0%nat 1%nat) (Fa 0%nat 2%nat) (Fa 0%nat 3%nat) (Fa 0%nat 4%nat) (Fa 0%nat 5%nat) (Fa 0%nat 6%nat) (Fa 1%nat 0%nat) (Fa 1%nat 1%nat) (Fa 1%nat 2%nat) (Fa 1%nat 3%nat) (Fa 1%nat 4%nat) (Fa 1%nat 5%nat) (Fa 1%nat 6%nat) (Fa 2%nat 0%nat) (Fa 2%nat 1%nat) (Fa 2%nat 2%nat) (Fa 2%nat 3%nat) (Fa 2%nat 4%nat) (Fa 2%nat 5%nat) (Fa 2%nat 6%nat) (Fa 3%nat 0%nat) (Fa 3%nat 1%nat) (Fa 3%nat 2%nat) (Fa 3%nat 3%nat) (Fa 3%nat 4%nat) (Fa 3%nat 5%nat) (Fa 3%nat 6%nat) (Fa 4%nat 0%nat) (Fa 4%nat 1%nat) (Fa 4%nat 2%nat) (Fa 4%nat 3%nat) (Fa 4%nat 4%nat) (Fa 4%nat 5%nat) (Fa 4%nat 6%nat) (Fa 5%nat 0%nat) (Fa 5%nat 1%nat) (Fa 5%nat 2%nat) (Fa 5%nat 3%nat) (Fa 5%nat 4%nat) (Fa 5%nat 5%nat) (Fa 5%nat 6%nat) (Fa 6%nat 0%nat) (Fa 6%nat 1%nat) (Fa 6%nat 2%nat) (Fa 6%nat 3%nat) (Fa 6%nat 4%nat) (Fa 6%nat 5%nat) (Fa 6%nat 6%nat) (Fb 0%nat 0%nat) (Fb 0%nat 1%nat) (Fb 0%nat 2%nat) (Fb 0%nat 3%nat) (Fb 0%nat 4%nat) (Fb 0%nat 5%nat) (Fb 0%nat 6%nat) (Fb 1%nat 0%nat) (Fb 1%nat 1%nat) (Fb 1%nat 2%nat) (Fb 1%nat 3%nat) (Fb 1%nat 4%nat) (Fb 1%nat 5%nat) (Fb 1%nat 6%nat) (Fb 2%nat 0%nat) (Fb 2%nat 1%nat) (Fb 2%nat 2%nat) (Fb 2%nat 3%nat) (Fb 2%nat 4%nat) (Fb 2%nat 5%nat) (Fb 2%nat 6%nat) (Fb 3%nat 0%nat) (Fb 3%nat 1%nat) (Fb 3%nat 2%nat) (Fb 3%nat 3%nat) (Fb 3%nat 4%nat) (Fb 3%nat 5%nat) (Fb 3%nat 6%nat) (Fb 4%nat 0%nat) (Fb 4%nat 1%nat) (Fb 4%nat 2%nat) (Fb 4%nat 3%nat) (Fb 4%nat 4%nat) (Fb 4%nat 5%nat) (Fb 4%nat 6%nat) (Fb 5%nat 0%nat) (Fb 5%nat 1%nat) (Fb 5%nat 2%nat) (Fb 5%nat 3%nat) (Fb 5%nat 4%nat) (Fb 5%nat 5%nat) (Fb 5%nat 6%nat) (Fb 6%nat 0%nat) (Fb 6%nat 1%nat) (Fb 6%nat 2%nat) (Fb 6%nat 3%nat) (Fb 6%nat 4%nat) (Fb 6%nat 5%nat) (Fb 6%nat 6%nat) (Ga 0%nat 0%nat) (Ga 0%nat 1%nat) (Ga 0%nat 2%nat) (Ga 1%nat 0%nat) (Ga 1%nat 1%nat) (Ga 1%nat 2%nat) (Ga 2%nat 0%nat) (Ga 2%nat 1%nat) (Ga 2%nat 2%nat) (Ga 3%nat 0%nat) (Ga 3%nat 1%nat) (Ga 3%nat 2%nat) (Ga 4%nat 0%nat) (Ga 4%nat 1%nat) (Ga 4%nat 2%nat) (Ga 5%nat 0%nat) (Ga 5%nat 1%nat) (Ga 5%nat 2%nat) (Ga 6%nat 0%nat) (Ga 6%nat 1%nat) (Ga 6%nat 2%nat) (Gb 0%nat 0%nat) (Gb 0%nat 1%nat) (Gb 0%nat 2%nat) (Gb 1%nat 0%nat) (Gb 1%nat 1%nat) (Gb 1%nat 2%nat) (Gb 2%nat 0%nat) (Gb 2%nat 1%nat) (Gb 2%nat 2%nat) (Gb 3%nat 0%nat) (Gb 3%nat 1%nat) (Gb 3%nat 2%nat) (Gb 4%nat 0%nat) (Gb 4%nat 1%nat) (Gb 4%nat 2%nat) (Gb 5%nat 0%nat) (Gb 5%nat 1%nat) (Gb 5%nat 2%nat) (Gb 6%nat 0%nat) (Gb 6%nat 1%nat) (Gb 6%nat 2%nat) (Aa 0%nat 0%nat) (Aa 0%nat 1%nat) (Aa 0%nat 2%nat) (Aa 1%nat 0%nat) (Aa 1%nat 1%nat) (Aa 1%nat 2%nat) (Aa 2%nat 0%nat) (Aa 2%nat 1%nat) (Aa 2%nat 2%nat) (Aa 3%nat 0%nat) (Aa 3%nat 1%nat) (Aa 3%nat 2%nat) (Aa 4%nat 0%nat) (Aa 4%nat 1%nat) (Aa 4%nat 2%nat) (Aa 5%nat 0%nat) (Aa 5%nat 1%nat) (Aa 5%nat 2%nat) (Aa 6%nat 0%nat) (Aa 6%nat 1%nat) (Aa 6%nat 2%nat) (Ab 0%nat 0%nat) (Ab 0%nat 1%nat) (Ab 0%nat 2%nat) (Ab 1%nat 0%nat) (Ab 1%nat 1%nat) (Ab 1%nat 2%nat) (Ab 2%nat 0%nat) (Ab 2%nat 1%nat) (Ab 2%nat 2%nat) (Ab 3%nat 0%nat) (Ab 3%nat 1%nat) (Ab 3%nat 2%nat) (Ab 4%nat 0%nat) (Ab 4%nat 1%nat) (Ab 4%nat 2%nat) (Ab 5%nat 0%nat) (Ab 5%nat 1%nat) (Ab 5%nat 2%nat) (Ab 6%nat 0%nat) (Ab 6%nat 1%nat) (Ab 6%nat 2%nat) (x 0%nat) (x 1%nat) (x 2%nat) (x 3%nat) (x 4%nat) (x 5%nat) (x 6%nat) (eg 0%nat) (eg 1%nat) (eg 2%nat) (ea 0%nat) (ea 1%nat) (ea 2%nat)
  | 3 => prop2d_x3 dt (Fa 0%nat 0%nat) (Fa 0%nat 1%nat) (Fa 0%nat 2%nat) (Fa 0%nat 3%nat) (Fa 0%nat 4%nat) (Fa 0%nat 5%nat) (Fa 0%nat 6%nat) (Fa 1%nat 0%nat) (Fa 1%nat 1%nat) (Fa 1%nat 2%nat) (Fa 1%nat 3%nat) (Fa 1%nat 4%nat) (Fa 1%nat 5%nat) (Fa 1%nat 6%nat) (Fa 2%nat 0%nat) (Fa 2%nat 1%nat) (Fa 2%nat 2%nat) (Fa 2%nat 3%nat) (Fa 2%nat 4%nat) (Fa 2%nat 5%nat) (Fa 2%nat 6%nat) (Fa 3%nat 0%nat) (Fa 3%nat 1%nat) (Fa 3%nat 2%nat) (Fa 3%nat 3%nat) (Fa 3%nat 4%nat) (Fa 3%nat 5%nat) (Fa 3%nat 6%nat) (Fa 4%nat 0%nat) (Fa 4%nat 1%nat) (Fa 4%nat 2%nat) (Fa 4%nat 3%nat) (Fa 4%nat 4%nat) (Fa 4%nat 5%nat) (Fa 4%nat 6%nat) (Fa 5%nat 0%nat) (Fa 5%nat 1%nat) (Fa 5%nat 2%nat) (Fa 5%nat 3%nat) (Fa 5%nat 4%nat) (Fa 5%nat 5%nat) (Fa 5%nat 6%nat) (Fa 6%nat 0%nat) (Fa 6%nat 1%nat) (Fa 6%nat 2%nat) (Fa 6%nat 3%nat) (Fa 6%nat 4%nat) (Fa 6%nat 5%nat) (Fa 6%nat 6%nat) (Fb 0%nat 0%nat) (Fb 0%nat 1%nat) (Fb 0%nat 2%nat) (Fb 0%nat 3%nat) (Fb 0%nat 4%nat) (Fb 0%nat 5%nat) (Fb 0%nat 6%nat) (Fb 1%nat 0%nat) (Fb 1%nat 1%nat) (Fb 1%nat 2%nat) (Fb 1%nat 3%nat) (Fb 1%nat 4%nat) (Fb 1%nat 5%nat) (Fb 1%nat 6%nat) (Fb 2%nat 0%nat) (Fb 2%nat 1%nat) (Fb 2%nat 2%nat) (Fb 2%nat 3%nat) (Fb 2%nat 4%nat) (Fb 2%nat 5%nat) (Fb 2%nat 6%nat) (Fb 3%nat 0%nat) (Fb 3%nat 1%nat) (Fb 3%nat 2%nat) (Fb 3%nat 3%nat) (Fb 3%nat 4%nat) (Fb 3%nat 5%nat) (Fb 3%nat 6%nat) (Fb 4%nat 0%nat) (Fb 4%nat 1%nat) (Fb 4%nat 2%nat) (Fb 4%nat 3%nat) (Fb 4%nat 4%nat) (Fb 4%nat 5%nat) (Fb 4%nat 6%nat) (Fb 5%nat 0%nat) (Fb 5%nat 1%nat) (Fb 5%nat 2%nat) (Fb 5%nat 3%nat) (Fb 5%nat 4%nat) (Fb 5%nat 5%nat) (Fb 5%nat 6%nat) (Fb 6%nat 0%nat) (Fb 6%nat 1%nat) (Fb 6%nat 2%nat) (Fb 6%nat 3%nat) (Fb 6%nat 4%nat) (Fb 6%nat 5%nat) (Fb 6%nat 6%nat) (Ga 0%nat 0%nat) (Ga 0%nat 1%nat) (Ga 0%nat 2%nat) (Ga 1%nat 0%nat) (Ga 1%nat 1%nat) (Ga 1%nat 2%nat) (Ga 2%nat 0%nat) (Ga 2%nat 1%nat) (Ga 2%nat 2%nat) (Ga 3%nat 0%nat) (Ga 3%nat 1%nat) (Ga 3%nat 2%nat) (Ga 4%nat 0%nat) (Ga 4%nat 1%nat) (Ga 4%nat 2%nat) (Ga 5%nat 0%nat) (Ga 5%nat 1%nat) (Ga 5%nat 2%nat) (Ga 6%nat 0%nat) (Ga 6%nat 1%nat) (Ga 6%nat 2%nat) (Gb 0%nat 0%nat) (Gb 0%nat 1%nat) (Gb 0%nat 2%nat) (Gb 1%nat 0%nat) (Gb 1%nat 1%nat) (Gb 1%nat 2%nat) (Gb 2%nat 0%nat) (Gb 2%nat 1%nat) (Gb 2%nat 2%nat) (Gb 3%nat 0%nat) (Gb 3%nat 1%nat) (Gb 3%nat 2%nat) (Gb 4%nat 0%nat) (Gb 4%nat 1%nat) (Gb 4%nat 2%nat) (Gb 5%nat 0%nat) (Gb 5%nat 1%nat) (Gb 5%nat 2%nat) (Gb 6%nat 0%nat) (Gb 6%nat 1%nat) (Gb 6%nat 2%nat) (Aa 0%nat 0%nat) (Aa 0%nat 1%nat) (Aa 0%nat 2%nat) (Aa 1%nat 0%nat) (Aa 1%nat 1%nat) (Aa 1%nat 2%nat) (Aa 2%nat 0%nat) (Aa 2%nat 1%nat) (Aa 2%nat 2%nat) (Aa 3%nat 0%nat) (Aa 3%nat 1%nat) (Aa 3%nat 2%nat) (Aa 4%nat 0%nat) (Aa 4%nat 1%nat) (Aa 4%nat 2%nat) (Aa 5%nat 0%nat) (Aa 5%nat 1%nat) (Aa 5%nat 2%nat) (Aa 6%nat 0%nat) (Aa 6%nat 1%nat) (Aa 6%nat 2%nat) (Ab 0%nat 0%nat) (Ab 0%nat 1%nat) (Ab 0%nat 2%nat) (Ab 1%nat 0%nat) (Ab 1%nat 1%nat) (Ab 1%nat 2%nat) (Ab 2%nat 0%nat) (Ab 2%nat 1%nat) (Ab 2%nat 2%nat) (Ab 3%nat 0%nat) (Ab 3%nat 1%nat) (Ab 3%nat 2%nat) (Ab 4%nat 0%nat) (Ab 4%nat 1%nat) (Ab 4%nat 2%nat) (Ab 5%nat 0%nat) (Ab 5%nat 1%nat) (Ab 5%nat 2%nat) (Ab 6%nat 0%nat) (Ab 6%nat 1%nat) (Ab 6%nat 2%nat) (x 0%nat) (x 1%nat) (x 2%nat) (x 3%nat) (x 4%nat) (x 5%nat) (x 6%nat) (eg 0%nat) (eg 1%nat) (eg 2%nat) (ea 0%nat) (ea 1%nat) (ea 2%nat)
  | 4 => prop2d_x4 dt (Fa 0%nat 0%nat) (Fa 0%nat 1%nat) (Fa 0%nat 2%nat) (Fa 0%nat 3%nat) (Fa 0%nat 4%nat) (Fa 0%nat 5%nat) (Fa 0%nat 6%nat) (Fa 1%nat 0%nat) (Fa 1%nat 1%nat) (Fa 1%nat 2%nat) (Fa 1%nat 3%nat) (Fa 1%nat 4%nat) (Fa 1%nat 5%nat) (Fa 1%nat 6%nat) (Fa 2%nat 0%nat) (Fa 2%nat 1%nat) (Fa 2%nat 2%nat) (Fa 2%nat 3%nat) (Fa 2%nat 4%nat) (Fa 2%nat 5%nat) (Fa 2%nat 6%nat) (Fa 3%nat 0%nat) (Fa 3%nat 1%nat) (Fa 3%nat 2%nat) (Fa 3%nat 3%nat) (Fa 3%nat 4%nat) (Fa 3%nat 5%nat) (Fa 3%nat 6%nat) (Fa 4%nat 0%nat) (Fa 4%nat 1%nat) (Fa 4%nat 2%nat) (Fa 4%nat 3%nat) (Fa 4%nat 4%nat) (Fa 4%nat 5%nat) (Fa 4%nat 6%nat) (Fa 5%nat 0%nat) (Fa 5%nat 1%nat) (Fa 5%nat 2%nat) (Fa 5%nat 3%nat) (Fa 5%nat 4%nat) (Fa 5%nat 5%nat) (Fa 5%nat 6%nat) (Fa 6%nat 0%nat) (Fa 6%nat 1%nat) (Fa 6%nat 2%nat) (Fa 6%nat 3%nat) (Fa 6%nat 4%nat) (Fa 6%nat 5%nat) (Fa 6%nat 6%nat) (Fb 0%nat 0%nat) (Fb 0%nat 1%nat) (Fb 0%nat 2%nat) (Fb 0%nat 3%nat) (Fb 0%nat 4%nat) (Fb 0%nat 5%nat) (Fb 0%nat 6%nat) (Fb 1%nat 0%nat) (Fb 1%nat 1%nat) (Fb 1%nat 2%nat) (Fb 1%nat 3%nat) (Fb 1%nat 4%nat) (Fb 1%nat 5%nat) (Fb 1%nat 6%nat) (Fb 2%nat 0%nat) (Fb 2%nat 1%nat) (Fb 2%nat 2%nat) (Fb 2%nat 3%nat) (Fb 2%nat 4%nat) (Fb 2%nat 5%nat) (Fb 2%nat 6%nat) (Fb 3%nat 0%nat) (Fb 3%nat 1%nat) (Fb 3%nat 2%nat) (Fb 3%nat 3%nat) (Fb 3%nat 4%nat) (Fb 3%nat 5%nat) (Fb 3%nat 6%nat) (Fb 4%nat 0%nat) (Fb 4%nat 1%nat) (Fb 4%nat 2%nat) (Fb 4%nat 3%nat) (Fb 4%nat 4%nat) (Fb 4%nat 5%nat) (Fb 4%nat 6%nat) (Fb 5%nat 0%nat) (Fb 5%nat 1%nat) (Fb 5%nat 2%nat) (Fb 5%nat 3%nat) (Fb 5%nat 4%nat) (Fb 5%nat 5%nat) (Fb 5%nat 6%nat) (Fb 6%nat 0%nat) (Fb 6%nat 1%nat) (Fb 6%nat 2%nat) (Fb 6%nat 3%nat) (Fb 6%nat 4%nat) (Fb 6%nat 5%nat) (Fb 6%nat 6%nat) (Ga 0%nat 0%nat) (Ga 0%nat 1%nat) (Ga 0%nat 2%nat) (Ga 1%nat 0%nat) (Ga 1%nat 1%nat) (Ga 1%nat 2%nat) (Ga 2%nat 0%nat) (Ga 2%nat 1%nat) (Ga 2%nat 2%nat) (Ga 3%nat 0%nat) (Ga 3%nat 1%nat) (Ga 3%nat 2%nat) (Ga 4%nat 0%nat) (Ga 4%nat 1%nat) (Ga 4%nat 2%nat) (Ga 5%nat 0%nat) (Ga 5%nat 1%nat) (Ga 5%nat 2%nat) (Ga 6%nat 0%nat) (Ga 6%nat 1%nat) (Ga 6%nat 2%nat) (Gb 0%nat 0%nat) (Gb 0%nat 1%nat) (Gb 0%nat 2%nat) (Gb 1%nat 0%nat) (Gb 1%nat 1%nat) (Gb 1%nat 2%nat) (Gb 2%nat 0%nat) (Gb 2%nat 1%nat) (Gb 2%nat 2%nat) (Gb 3%nat 0%nat) (Gb 3%nat 1%nat) (Gb 3%nat 2%nat) (Gb 4%nat 0%nat) (Gb 4%nat 1%nat) (Gb 4%nat 2%nat) (Gb 5%nat 0%nat) (Gb 5%nat 1%nat) (Gb 5%nat 2%nat) (Gb 6%nat 0%nat) (Gb 6%nat 1%nat) (Gb 6%nat 2%nat) (Aa 0%nat 0%nat) (Aa 0%nat 1%nat) (Aa 0%nat 2%nat) (Aa 1%nat 0%nat) (Aa 1%nat 1%nat) (Aa 1%nat 2%nat) (Aa 2%nat 0%nat) (Aa 2%nat 1%nat) (Aa 2%nat 2%nat) (Aa 3%nat 0%nat) (Aa 3%nat 1%nat) (Aa 3%nat 2%nat) (Aa 4%nat 0%nat) (Aa 4%nat 1%nat) (Aa 4%nat 2%nat) (Aa 5%nat 0%nat) (Aa 5%nat 1%nat) (Aa 5%nat 2%nat) (Aa 6%nat 0%nat) (Aa 6%nat 1%nat) (Aa 6%nat 2%nat) (Ab 0%nat 0%nat) (Ab 0%nat 1%nat) (Ab 0%nat 2%nat) (Ab 1%nat 0%nat) (Ab 1%nat 1%nat) (Ab 1%nat 2%nat) (Ab 2%nat 0%nat) (Ab 2%nat 1%nat) (Ab 2%nat 2%nat) (Ab 3%nat 0%nat) (Ab 3%nat 1%nat) (Ab 3%nat 2%nat) (Ab 4%nat 0%nat) (Ab 4%nat 1%nat) (Ab 4%nat 2%nat) (Ab 5%nat 0%nat) (Ab 5%nat 1%nat) (Ab 5%nat 2%nat) (Ab 6%nat 0%nat) (Ab 6%nat 1%nat) (Ab 6%nat 2%nat) (x 0%nat) (x 1%nat) (x 2%nat) (x 3%nat) (x 4%nat) (x 5%nat) (x 6%nat) (eg 0%nat) (eg 1%nat) (eg 2%nat) (ea 0%nat) (ea 1%nat) (ea 2%nat)
  | 5 => prop2d_x5 dt (Fa 0%nat 0%nat) (Fa 0%nat 1%nat) (Fa 0%nat 2%nat) (Fa 0%nat 3%nat) (Fa 0%nat 4%nat) (Fa 0%nat 5%nat) (Fa 0%nat 6%nat) (Fa 1%nat 0%nat) (Fa 1%nat 1%nat) (Fa 1%nat 2%nat) (Fa 1%nat 3%nat) (Fa 1%nat 4%nat) (Fa 1%nat 5%nat) (Fa 1%nat 6%nat) (Fa 2%nat 0%nat) (Fa 2%nat 1%nat) (Fa 2%nat 2%nat) (Fa 2%nat 3%nat) (Fa 2%nat 4%nat) (Fa 2%nat 5%nat) (Fa 2%nat 6%nat) (Fa 3%nat 0%nat) (Fa 3%nat 1%nat) (Fa 3%nat 2%nat) (Fa 3%nat 3%nat) (Fa 3%nat 4%nat) (Fa 3%nat 5%nat) (Fa 3%nat 6%nat) (Fa 4%nat 0%nat) (Fa 4%nat 1%nat) (Fa 4%nat 2%nat) (Fa 4%nat 3%nat) (Fa 4%nat 4%nat) (Fa 4%nat 5%nat) (Fa 4%nat 6%nat) (Fa 5%nat 0%nat) (Fa 5%nat 1%nat) (Fa 5%nat 2%nat) (Fa 5%nat 3%nat) (Fa 5%nat 4%nat) (Fa 5%nat 5%nat) (Fa 5%nat 6%nat) (Fa 6%nat 0%nat) (Fa 6%nat 1%nat) (Fa 6%nat 2%nat) (Fa 6%nat 3%nat) (Fa 6%nat 4%nat) (Fa 6%nat 5%nat) (Fa 6%nat 6%nat) (Fb 0%nat 0%nat) (Fb 0%nat 1%nat) (Fb 0%nat 2%nat) (Fb 0%nat 3%nat) (Fb 0%nat 4%nat) (Fb 0%nat 5%nat) (Fb 0%nat 6%nat) (Fb 1%nat 0%nat) (Fb 1%nat 1%nat) (Fb 1%nat 2%nat) (Fb 1%nat 3%nat) (Fb 1%nat 4%nat) (Fb 1%nat 5%nat) (Fb 1%nat 6%nat) (Fb 2%nat 0%nat) (Fb 2%nat 1%nat) (Fb 2%nat 2%nat) (Fb 2%nat 3%nat) (Fb 2%nat 4%nat) (Fb 2%nat 5%nat) (Fb 2%nat 6%nat) (Fb 3%nat 0%nat) (Fb 3%nat 1%nat) (Fb 3%nat 2%nat) (Fb 3%nat 3%nat) (Fb 3%nat 4%nat) (Fb 3%nat 5%nat) (Fb 3%nat 6%nat) (Fb 4%nat 0%nat) (Fb 4%nat 1%nat) (Fb 4%nat 2%nat) (Fb 4%nat 3%nat) (Fb 4%nat 4%nat) (Fb 4%nat 5%nat) (Fb 4%nat 6%nat) (Fb 5%nat 0%nat) (Fb 5%nat 1%nat) (Fb 5%nat 2%nat) (Fb 5%nat 3%nat) (Fb 5%nat 4%nat) (Fb 5%nat 5%nat) (Fb 5%nat 6%nat) (Fb 6%nat 0%nat) (Fb 6%nat 1%nat) (Fb 6%nat 2%nat) (Fb 6%nat 3%nat) (Fb 6%nat 4%nat) (Fb 6%nat 5%nat) (Fb 6%nat 6%nat) (Ga 0%nat 0%nat) (Ga 0%nat 1%nat) (Ga 0%nat 2%nat) (Ga 1%nat 0%nat) (Ga 1%nat 1%nat) (Ga 1%nat 2%nat) (Ga 2%nat 0%nat) (Ga 2%nat 1%nat) (Ga 2%nat 2%nat) (Ga 3%nat 0%nat) (Ga 3%nat 1%nat) (Ga 3%nat 2%nat) (Ga 4%nat 0%nat) (Ga 4%nat 1%nat) (Ga 4%nat 2%nat) (Ga 5%nat 0%nat) (Ga 5%nat 1%nat) (Ga 5%nat 2%nat) (Ga 6%nat 0%nat) (Ga 6%nat 1%nat) (Ga 6%nat 2%nat) (Gb 0%nat 0%nat) (Gb 0%nat 1%nat) (Gb 0%nat 2%nat) (Gb 1%nat 0%nat) (Gb 1%nat 1%nat) (Gb 1%nat 2%nat) (Gb 2%nat 0%nat) (Gb 2%nat 1%nat) (Gb 2%nat 2%nat) (Gb 3%nat 0%nat) (Gb 3%nat 1%nat) (Gb 3%nat 2%nat) (Gb 4%nat 0%nat) (Gb 4%nat 1%nat) (Gb 4%nat 2%nat) (Gb 5%nat 0%nat) (Gb 5%nat 1%nat) (Gb 5%nat 2%nat) (Gb 6%nat 0%nat) (Gb 6%nat 1%nat) (Gb 6%nat 2%nat) (Aa 0%nat 0%nat) (Aa 0%nat 1%nat) (Aa 0%nat 2%nat) (Aa 1%nat 0%nat) (Aa 1%nat 1%nat) (Aa 1%nat 2%nat) (Aa 2%nat 0%nat) (Aa 2%nat 1%nat) (Aa 2%nat 2%nat) (Aa 3%nat 0%nat) (Aa 3%nat 1%nat) (Aa 3%nat 2%nat) (Aa 4%nat 0%nat) (Aa 4%nat 1%nat) (Aa 4%nat 2%nat) (Aa 5%nat 0%nat) (Aa 5%nat 1%nat) (Aa 5%nat 2%nat) (Aa 6%nat 0%nat) (Aa 6%nat 1%nat) (Aa 6%nat 2%nat) (Ab 0%nat 0%nat) (Ab 0%nat 1%nat) (Ab 0%nat 2%nat) (Ab 1%nat 0%nat) (Ab 1%nat 1%nat) (Ab 1%nat 2%nat) (Ab 2%nat 0%nat) (Ab 2%nat 1%nat) (Ab 2%nat 2%nat) (Ab 3%nat 0%nat) (Ab 3%nat 1%nat) (Ab 3%nat 2%nat) (Ab 4%nat 0%nat) (Ab 4%nat 1%nat) (Ab 4%nat 2%nat) (Ab 5%nat 0%nat) (Ab 5%nat 1%nat) (Ab 5%nat 2%nat) (Ab 6%nat 0%nat) (Ab 6%nat 1%nat) (Ab 6%nat 2%nat) (x 0%nat) (x 1%nat) (x 2%nat) (x 3%nat) (x 4%nat) (x 5%nat) (x 6%nat) (eg 0%nat) (eg 1%nat) (eg 2%nat) (ea 0%nat) (ea 1%nat) (ea 2%nat)
  | 6 => prop2d_x6 dt (Fa 0%nat 0%nat) (Fa 0%nat 1%nat) (Fa 0%nat 2%nat) (Fa 0%nat 3%nat) (Fa 0%nat 4%nat) (Fa 0%nat 5%nat) (Fa 0%nat 6%nat) (Fa 1%nat 0%nat) (Fa 1%nat 1%nat) (Fa 1%nat 2%nat) (Fa 1%nat 3%nat) (Fa 1%nat 4%nat) (Fa 1%nat 5%nat) (Fa 1%nat 6%nat) (Fa 2%nat 0%nat) (Fa 2%nat 1%nat) (Fa 2%nat 2%nat) (Fa 2%nat 3%nat) (Fa 2%nat 4%nat) (Fa 2%nat 5%nat) (Fa 2%nat 6%nat) (Fa 3%nat 0%nat) (Fa 3%nat 1%nat) (Fa 3%nat 2%nat) (Fa 3%nat 3%nat) (Fa 3%nat 4%nat) (Fa 3%nat 5%nat) (Fa 3%nat 6%nat) (Fa 4%nat 0%nat) (Fa 4%nat 1%nat) (Fa 4%nat 2%nat) (Fa 4%nat 3%nat) (Fa 4%nat 4%nat) (Fa 4%nat 5%nat) (Fa 4%nat 6%nat) (Fa 5%nat 0%nat) (Fa 5%nat 1%nat) (Fa 5%nat 2%nat) (Fa 5%nat 3%nat) (Fa 5%nat 4%nat) (Fa 5%nat 5%nat) (Fa 5%nat 6%nat) (Fa 6%nat 0%nat) (Fa 6%nat 1%nat) (Fa 6%nat 2%nat) (Fa 6%nat 3%nat) (Fa 6%nat 4%nat) (Fa 6%nat 5%nat) (Fa 6%nat 6%nat) (Fb 0%nat 0%nat) (Fb 0%nat 1%nat) (Fb 0%nat 2%nat) (Fb 0%nat 3%nat) (Fb 0%nat 4%nat) (Fb 0%nat 5%nat) (Fb 0%nat 6%nat) (Fb 1%nat 0%nat) (Fb 1%nat 1%nat) (Fb 1%nat 2%nat) (Fb 1%nat 3%nat) (Fb 1%nat 4%nat) (Fb 1%nat 5%nat) (Fb 1%nat 6%nat) (Fb 2%nat 0%nat) (Fb 2%nat 1%nat) (Fb 2%nat 2%nat) (Fb 2%nat 3%nat) (Fb 2%nat 4%nat) (Fb 2%nat 5%nat) (Fb 2%nat 6%nat) (Fb 3%nat 0%nat) (Fb 3%nat 1%nat) (Fb 3%nat 2%nat) (Fb 3%nat 3%nat) (Fb 3%nat 4%nat) (Fb 3%nat 5%nat) (Fb 3%nat 6%nat) (Fb 4%nat 0%nat) (Fb 4%nat 1%nat) (Fb 4%nat 2%nat) (Fb 4%nat 3%nat) (Fb 4%nat 4%nat) (Fb 4%nat 5%nat) (Fb 4%nat 6%nat) (Fb 5%nat 0%nat) (Fb 5%nat 1%nat) (Fb 5%nat 2%nat) (Fb 5%nat 3%nat) (Fb 5%nat 4%nat) (Fb 5%nat 5%nat) (Fb 5%nat 6%nat) (Fb 6%nat 0%nat) (Fb 6%nat 1%nat) (Fb 6%nat 2%nat) (Fb 6%nat 3%nat) (Fb 6%nat 4%nat) (Fb 6%nat 5%nat) (Fb 6%nat 6%nat) (Ga 0%nat 0%nat) (Ga 0%nat 1%nat) (Ga 0%nat 2%nat) (Ga 1%nat 0%nat) (Ga 1%nat 1%nat) (Ga 1%nat 2%nat) (Ga 2%nat 0%nat) (Ga 2%nat 1%nat) (Ga 2%nat 2%nat) (Ga 3%nat 0%nat) (Ga 3%nat 1%nat) (Ga 3%nat 2%nat) (Ga 4%nat 0%nat) (Ga 4%nat 1%nat) (Ga 4%nat 2%nat) (Ga 5%nat 0%nat) (Ga 5%nat 1%nat) (Ga 5%nat 2%nat) (Ga 6%nat 0%nat) (Ga 6%nat 1%nat) (Ga 6%nat 2%nat) (Gb 0%nat 0%nat) (Gb 0%nat 1%nat) (Gb 0%nat 2%nat) (Gb 1%nat 0%nat) (Gb 1%nat 1%nat) (Gb 1%nat 2%nat) (Gb 2%nat 0%nat) (Gb 2%nat 1%nat) (Gb 2%nat 2%nat) (Gb 3%nat 0%nat) (Gb 3%nat 1%nat) (Gb 3%nat 2%nat) (Gb 4%nat 0%nat) (Gb 4%nat 1%nat) (Gb 4%nat 2%nat) (Gb 5%nat 0%nat) (Gb 5%nat 1%nat) (Gb 5%nat 2%nat) (Gb 6%nat 0%nat) (Gb 6%nat 1%nat) (Gb 6%nat 2%nat) (Aa 0%nat 0%nat) (Aa 0%nat 1%nat) (Aa 0%nat 2%nat) (Aa 1%nat 0%nat) (Aa 1%nat 1%nat) (Aa 1%nat 2%nat) (Aa 2%nat 0%nat) (Aa 2%nat 1%nat) (Aa 2%nat 2%nat) (Aa 3%nat 0%nat) (Aa 3%nat 1%nat) (Aa 3%nat 2%nat) (Aa 4%nat 0%nat) (Aa 4%nat 1%nat) (Aa 4%nat 2%nat) (Aa 5%nat 0%nat) (Aa 5%nat 1%nat) (Aa 5%nat 2%nat) (Aa 6%nat 0%nat) (Aa 6%nat 1%nat) (Aa 6%nat 2%nat) (Ab 0%nat 0%nat) (Ab 0%nat 1%nat) (Ab 0%nat 2%nat) (Ab 1%nat 0%nat) (Ab 1%nat 1%nat) (Ab 1%nat 2%nat) (Ab 2%nat 0%nat) (Ab 2%nat 1%nat) (Ab 2%nat 2%nat) (Ab 3%nat 0%nat) (Ab 3%nat 1%nat) (Ab 3%nat 2%nat) (Ab 4%nat 0%nat) (Ab 4%nat 1%nat) (Ab 4%nat 2%nat) (Ab 5%nat 0%nat) (Ab 5%nat 1%nat) (Ab 5%nat 2%nat) (Ab 6%nat 0%nat) (Ab 6%nat 1%nat) (Ab 6%nat 2%nat) (x 0%nat) (x 1%nat) (x 2%nat) (x 3%nat) (x 4%nat) (x 5%nat) (x 6%nat) (eg 0%nat) (eg 1%nat) (eg 2%nat) (ea 0%nat) (ea 1%nat) (ea 2%nat)
  | _ => 0%R
  end%nat.
Definition rate2 (i : nat) (Fa Fb Ga Gb Aa Ab : mat) (x eg ea : nat -> R) : R :=
  (Fa i 0%nat + Fb i 0%nat) / 2 * x 0%nat + (Fa i 1%nat + Fb i 1%nat) / 2 * x 1%nat + (Fa i 2%nat + Fb i 2%nat) / 2 * x 2%nat + (Fa i 3%nat + Fb i 3%nat) / 2 * x 3%nat + (Fa i 4%nat + Fb i 4%nat) / 2 * x 4%nat + (Fa i 5%nat + Fb i 5%nat) / 2 * x 5%nat + (Fa i 6%nat + Fb i 6%nat) / 2 * x 6%nat
  + (Ga i 0%nat + Gb i 0%nat) / 2 * eg 0%nat + (Ga i 1%nat + Gb i 1%nat) / 2 * eg 1%nat + (Ga i 2%nat + Gb i 2%nat) / 2 * eg 2%nat
  + (Aa i 0%nat + Ab i 0%nat) / 2 * ea 0%nat + (Aa i 1%nat + Ab i 1%nat) / 2 * ea 1%nat + (Aa i 2%nat + Ab i 2%nat) / 2 * ea 2%nat.

(** the 7-state recursion: the same with 7 for 9 (the generated functions have 7 x 7 entries as arguments) *)
Lemma prop2_affine : forall (Fa Fb Ga Gb Aa Ab : mat) (x eg ea : nat -> R) (dt : R) (i : nat), (i < 7)%nat ->
  prop2 i dt Fa Fb Ga Gb Aa Ab x eg ea = x i + dt * rate2 i Fa Fb Ga Gb Aa Ab x eg ea.
Proof.
  intros Fa Fb Ga Gb Aa Ab x eg ea dt i Hi.
  cases_lt lt7_cases i Hi; unfold prop2, rate2; unfold prop2d_x0, prop2d_x1, prop2d_x2, prop2d_x3, prop2d_x4, prop2d_x5, prop2d_x6; lra.
Qed.

(** ** Every step of propagate_errors uses its own interval

    [propT3 i ...] / [propT3' i ...] are the GENERATED rows 1 and 2 of model_error on a three-row trajectory with two
    DIFFERENT intervals dt1, dt2 (matrices a, b, c at the three epochs).  Row 1 is the one-step map [prop3] with
    (dt1, a, b); row 2 is the same map with (dt2, b, c) applied to row 1: the rows are uniform, so
    what holds of [prop3] holds of every step with that step's own interval. *)
Definition propT3 (i : nat) (dt1 dt2 : R) (Fa Fb Fc Ga Gb Gc Aa Ab Ac : mat) (x eg ea : nat -> R) : R :=
  match i with
  | 0 => prop3d3_x0 dt1 dt2 (Fa 0%nat 0%nat) (Fa 0%nat 1%nat) (Fa 0%nat 2%nat) (Fa 0%nat 3%nat) (Fa 0%nat 4%nat) (Fa 0%nat 5%nat) (Fa 0%nat 6%nat) (Fa 0%nat 7%nat) (Fa 0%nat 8%nat) (Fa 1%nat 0%nat) (Fa 1%nat 1%nat) (Fa 1%nat 2%nat) (Fa 1%nat 3%nat) (Fa 1%nat 4%nat) (Fa 1%nat 5%nat) (Fa 1%nat 6%nat) (Fa 1%nat 7%nat) (Fa 1%nat 8%nat) (Fa 2%nat 0%nat) (Fa 2%nat 1%nat) (Fa 2%nat 2%nat) (Fa 2%nat 3%nat) (Fa 2%nat 4%nat) (Fa 2%nat 5%nat) (Fa 2%nat 6%nat) (Fa 2%nat 7%nat) (Fa 2%nat 8%nat) (Fa 3%nat 0%nat) (Fa 3%nat 1%nat) (Fa 3%nat 2%nat) (Fa 3%nat 3%nat) (Fa 3%nat 4%nat) (Fa 3%nat 5%nat) (Fa 3%nat 6%nat) (Fa 3%nat 7%nat) (Fa 3%nat 8%nat) (Fa 4%nat 0%nat) (Fa 4%nat 1%nat) (Fa 4%nat 2%nat) (Fa 4%nat 3%nat) (Fa 4%nat 4%nat) (Fa 4%nat 5%nat) (Fa 4%nat 6%nat) (Fa 4%nat 7%nat) (Fa 4%nat 8%nat) (Fa 5%nat 0%nat) (Fa 5%nat 1%nat) (Fa 5%nat 2%nat) (Fa 5%nat 3%nat) (Fa 5%nat 4%nat) (Fa 5%nat 5%nat) (Fa 5%nat 6%nat) (Fa 5%nat 7%nat) (Fa 5%nat 8%nat) (Fa 6%nat 0%nat) (Fa 6%nat 1%nat) (Fa 6%nat 2%nat) (Fa 6%nat 3%nat) (Fa 6%nat 4%nat) (Fa 6%nat 5%nat) (Fa 6%nat 6%nat) (Fa 6%nat 7%nat) (Fa 6%nat 8%nat) (Fa 7%nat 0%nat) (Fa 7%nat 1%nat) (Fa 7%nat 2%nat) (Fa 7%nat 3%nat) (Fa 7%nat 4%nat) (Fa 7%nat 5%nat) (Fa 7%nat 6%nat) (Fa 7%nat 7%nat) (Fa 7%nat 8%nat) (Fa 8%nat 0%nat) (Fa 8%nat 1%nat) (Fa 8%nat 2%nat) (Fa 8%nat 3%nat) (Fa 8%nat 4%nat) (Fa 8%nat 5%nat) (Fa 8%nat 6%nat) (Fa 8%nat 7%nat) (Fa 8%nat 8%nat) (Fb 0%nat 0%nat) (Fb 0%nat 1%nat) (Fb 0%nat 2%nat) (Fb 0%nat 3%nat) (Fb 0%nat 4%nat) (Fb 0%nat 5%nat) (Fb 0%nat 6%nat) (Fb 0%nat 7%nat) (Fb 0%nat 8%nat) (Fb 1%nat 0%nat) (Fb 1%nat 1%nat) (Fb 1%nat 2%nat) (Fb 1%nat 3%nat) (Fb 1%nat 4%nat) (Fb 1%nat 5%nat) (Fb 1%nat 6%nat) (Fb 1%nat 7%nat) (Fb 1%nat 8%nat) (Fb 2%nat 0%nat) (Fb 2%nat 1%nat) (Fb 2%nat 2%nat) (Fb 2%nat 3%nat) (Fb 2%nat 4%nat) (Fb 2%nat 5%nat) (Fb 2%nat 6%nat) (Fb 2%nat 7%nat) (Fb 2%nat 8%nat) (Fb 3%nat 0%nat) (Fb 3%nat 1%nat) (Fb 3%nat 2%nat) (Fb 3%nat 3%nat) (Fb 3%nat 4%nat) (Fb 3%nat 5%nat) (Fb 3%nat 6%nat) (Fb 3%nat 7%nat) (Fb 3%nat 8%nat) (Fb 4%nat 0%nat) (Fb 4%nat 1%nat) (Fb 4%nat 2%nat) (Fb 4%nat 3%nat) (Fb 4%nat 4%nat) (Fb 4%nat 5%nat) (Fb 4%nat 6%nat) (Fb 4%nat 7%nat) (Fb 4%nat 8%nat) (Fb 5%nat 0%nat) (Fb 5%nat 1%nat) (Fb 5%nat 2%nat) (Fb 5%nat 3%nat) (Fb 5%nat 4%nat) (Fb 5%nat 5%nat) (Fb 5%nat 6%nat) (Fb 5%nat 7%nat) (Fb 5%nat 8%nat) (Fb 6%nat 0%nat) (Fb 6%nat 1%nat) (Fb 6%nat 2%nat) (Fb 6%nat 3%nat) (Fb 6%nat 4%nat) (Fb 6%nat 5%nat) (Fb 6%nat 6%nat) (Fb 6%nat 7%nat) (Fb 6%nat 8%nat) (Fb 7%nat 0%nat) (Fb 7%nat 1%nat) (Fb 7%nat 2%nat) (Fb 7%nat 3%nat) (Fb 7%nat 4%nat) (Fb 7%nat 5%nat) (Fb 7%nat 6%nat) (Fb 7%nat 7%nat) (Fb 7%nat 8%nat) (Fb 8%nat 0%nat) (Fb 8%nat 1%nat) (Fb 8%nat 2%nat) (Fb 8%nat 3%nat) (Fb 8%nat 4%nat) (Fb 8%nat 5%nat) (Fb 8%nat 6%nat) (Fb 8%nat 7%nat) (Fb 8%nat 8%nat) (Fc 0%nat 0%nat) (Fc 0%nat 1%nat) (Fc 0%nat 2%nat) (Fc 0%nat 3%nat) (Fc 0%nat 4%nat) (Fc 0%nat 5%nat) (Fc 0%nat 6%nat) (Fc 0%nat 7%nat) (Fc 0%nat 8%nat) (Fc 1%nat 0%nat) (Fc 1%nat 1%nat) (Fc 1%nat 2%nat) (Fc 1%nat 3%nat) (Fc 1%nat 4%nat) (Fc 1%nat 5%nat) (Fc 1%nat 6%nat) (Fc 1%nat 7%nat) (Fc 1%nat 8%nat) (Fc 2%nat 0%nat) (Fc 2%nat 1%nat) (Fc 2%nat 2%nat) (Fc 2%nat 3%nat) (Fc 2%nat 4%nat) (Fc 2%nat 5%nat) (Fc 2%nat 6%nat) (Fc 2%nat 7%nat) (Fc 2%nat 8%nat) (Fc 3%nat 0%nat) (Fc 3%nat 1%nat) (Fc 3%nat 2%nat) (Fc 3%nat 3%nat) (Fc 3%nat 4%nat) (Fc 3%nat 5%nat) (Fc 3%nat 6%nat) (Fc 3%nat 7%nat) (Fc 3%nat 8%nat) (Fc 4%nat 0%nat) (Fc 4%nat 1%nat) (Fc 4%nat 2%nat) (Fc 4%nat 3%nat) (Fc 4%nat 4%nat) (Fc 4%nat 5%nat) (Fc 4%nat 6%nat) (Fc 4%nat 7%nat) (Fc 4%nat 8%nat) (Fc 5%nat 0%nat) (Fc 5%nat 1%nat) (Fc 5%nat 2%nat) (Fc 5%nat 3%nat) (Fc 5%nat 4%nat) (Fc 5%nat 5%nat) (Fc 5%nat 6%nat) (Fc 5%nat 7%nat) (Fc 5%nat 8%nat) (Fc 6%nat 0%nat) (Fc 6%nat 1%nat) (Fc 6%nat 2%nat) (Fc 6%nat 3%nat) (Fc 6%nat 4%nat) (Fc 6%nat 5%nat) (Fc 6%nat 6%nat) (Fc 6%nat 7%nat) (Fc 6%nat 8%nat) (Fc 7%nat 0%nat) (Fc 7%nat 1%nat) (Fc 7%nat 2%nat) (Fc 7%nat 3%nat) (Fc 7%nat 4%nat) (Fc 7%nat 5%nat) (Fc 7%nat 6%nat) (Fc 7%nat 7%nat) (Fc 7%nat 8%nat) (Fc 8%nat 0%nat) (Fc 8%nat 1%nat) (Fc 8%nat 2%nat) (Fc 8%nat 3%nat) (Fc 8%nat 4%nat) (Fc 8%nat 5%nat) (Fc 8%nat 6%nat) (Fc 8%nat 7%nat) (Fc 8%nat 8%nat) (Ga 0%nat 0%nat) (Ga 0%nat 1%nat) (Ga 0%nat 2%nat) (Ga 1%nat 0%nat) (Ga 1%nat 1%nat) (Ga 1%nat 2%nat) (Ga 2%nat 0%nat) (Ga 2%nat 1%nat) (Ga 2%nat 2%nat) (Ga 3%nat 0%nat) (Ga 3%nat 1%nat) (Ga 3%nat 2%nat) (Ga 4%nat 0%nat) (Ga 4%nat 1%nat) (Ga 4%nat 2%nat) (Ga 5%nat 0%nat) (Ga 5%nat 1%nat) (Ga 5%nat 2%nat) (Ga 6%nat 0%nat) (Ga 6%nat 1%nat) (Ga 6%nat 2%nat) (Ga 7%nat 0%nat) (Ga 7%nat 1%nat) (Ga 7%nat 2%nat) (Ga 8%nat 0%nat) (Ga 8%nat 1%nat) (Ga 8%nat 2%nat) (Gb 0%nat 0%nat) (Gb 0%nat 1%nat) (Gb 0%nat 2%nat) (Gb 1%nat 0%nat) (Gb 1%nat 1%nat) (Gb 1%nat 2%nat) (Gb 2%nat 0%nat) (Gb 2%nat 1%nat) (Gb 2%nat 2%nat) (Gb 3%nat 0%nat) (Gb 3%nat 1%nat) (Gb 3%nat 2%nat) (Gb 4%nat 0%nat) (Gb 4%nat 1%nat) (Gb 4%nat 2%nat) (Gb 5%nat 0%nat) (Gb 5%nat 1%nat) (Gb 5%nat 2%nat) (Gb 6%nat 0%nat) (Gb 6%nat 1%nat) (Gb 6%nat 2%nat) (Gb 7%nat 0%nat) (Gb 7%nat 1%nat) (Gb 7%nat 2%nat) (Gb 8%nat 0%nat) (Gb 8%nat 1%nat) (Gb 8%nat 2%nat) (Gc 0%nat 0%nat) (Gc 0%nat 1%nat) (Gc 0%nat 2%nat) (Gc 1%nat 0%nat) (Gc 1%nat 1%nat) (Gc 1%nat 2%nat) (Gc 2%nat 0%nat) (Gc 2%nat 1%nat) (Gc 2%nat 2%nat) (Gc 3%nat 0%nat) (Gc 3%nat 1%nat) (Gc 3%nat 2%nat) (Gc 4%nat 0%nat) (Gc 4%nat 1%nat) (Gc 4%nat 2%nat) (Gc 5%nat 0%nat) (Gc 5%nat 1%nat) (Gc 5%nat 2%nat) (Gc 6%nat 0%nat) (Gc 6%nat 1%nat) (Gc 6%nat 2%nat) (Gc 7%nat 0%nat) (Gc 7%nat 1%nat) (Gc 7%nat 2%nat) (Gc 8%nat 0%nat) (Gc 8%nat 1%nat) (Gc 8%nat 2%nat) (Aa 0%nat 0%nat) (Aa 0%nat 1%nat) (Aa 0%nat 2%nat) (Aa 1%nat 0%nat) (Aa 1%nat 1%nat) (Aa 1%nat 2%nat) (Aa 2%nat 0%nat) (Aa 2%nat 1%nat) (Aa 2%nat 2%nat) (Aa 3%nat 0%nat) (Aa 3%nat 1%nat) (Aa 3%nat 2%nat) (Aa 4%nat 0%nat) (Aa 4%nat 1%nat) (Aa 4%nat 2%nat) (Aa 5%nat 0%nat) (Aa 5%nat 1%nat) (Aa 5%nat 2%nat) (Aa 6%nat 0%nat) (Aa 6%nat 1%nat) (Aa 6%nat 2%nat) (Aa 7%nat 0%nat) (Aa 7%nat 1%nat) (Aa 7%nat 2%nat) (Aa 8%nat 0%nat) (Aa 8%nat 1%nat) (Aa 8%nat 2%nat) (Ab 0%nat 0%nat) (Ab 0%nat 1%nat) (Ab 0%nat 2%nat) (Ab 1%nat 0%nat) (Ab 1%nat 1%nat) (Ab 1%nat 2%nat) (Ab 2%nat 0%nat) (Ab 2%nat 1%nat) (Ab 2%nat 2%nat) (Ab 3%nat 0%nat) (Ab 3%nat 1%nat) (Ab 3%nat 2%nat) (Ab 4%nat 0%nat) (Ab 4%nat 1%nat) (Ab 4%nat 2%nat) (Ab 5%nat 0%nat) (Ab 5%nat 1%nat) (Ab 5%nat 2%nat) (Ab 6%nat 0%nat) (Ab 6%nat 1%nat) (Ab 6%nat 2%nat) (Ab 7%nat 0%nat) (Ab 7%nat 1%nat) (Ab 7%nat 2%nat) (Ab 8%nat 0%nat) (Ab 8%nat 1%nat) (Ab 8%nat 2%nat) (Ac 0%nat 0%nat) (Ac 0%nat 1%nat) (Ac 0%nat 2%nat) (Ac 1%nat 0%nat) (Ac 1%nat 1%nat) (Ac 1%nat 2%nat) (Ac 2%nat 0%nat) (Ac 2%nat 1%nat) (Ac 2%nat 2%nat) (Ac 3%nat 0%nat) (Ac 3%nat 1%nat) (Ac 3%nat 2%nat) (Ac 4%nat 0%nat) (Ac 4%nat 1%nat) (Ac 4%nat 2%nat) (Ac 5%nat 0%nat) (Ac 5%nat 1%nat) (Ac 5%nat 2%nat) (Ac 6%nat 0%nat) (Ac 6%nat 1%nat) (Ac 6%nat 2%nat) (Ac 7%nat 0%nat) (Ac 7%nat 1%nat) (Ac 7%nat 2%nat) (Ac 8%nat 0%nat) (Ac 8%nat 1%nat) (Ac 8%nat 2%nat) (x 0%nat) (x 1%nat) (x 2%nat) (x 3%nat) (x 4%nat) (x 5%nat) (x 6%nat) (x 7%nat) (x 8%nat) (eg 0%nat) (eg 1%nat) (eg 2%nat) (ea 0%nat) (ea 1%nat) (ea 2%nat)
  | 1 => prop3d3_x1 dt1 dt2 (Fa 0%nat 0%nat) (Fa 0%nat 1%nat) (Fa 0%nat 2%nat) (Fa 0%nat 3%nat) (Fa 0%nat 4%nat) (Fa 0%nat 5%nat) (Fa 0%nat 6%nat) (Fa 0%nat 7%nat) (Fa 0%nat 8%nat) (Fa 1%nat 0%nat) (Fa 1%nat 1%nat) (Fa 1%nat 2%nat) (Fa 1%nat 3%nat) (Fa 1%nat 4%nat) (Fa 1%nat 5%nat) (Fa 1%nat 6%nat) (Fa 1%nat 7%nat) (Fa 1%nat 8%nat) (Fa 2%nat 0%nat) (Fa 2%nat 1%nat) (Fa 2%nat 2%nat) (Fa 2%nat 3%nat) (Fa 2%nat 4%nat) (Fa 2%nat 5%nat) (Fa 2%nat 6%nat) (Fa 2%nat 7%nat) (Fa 2%nat 8%nat) (Fa 3%nat 0%nat) (Fa 3%nat 1%nat) (Fa 3%nat 2%nat) (Fa 3%nat 3%nat) (Fa 3%nat 4%nat) (Fa 3%nat 5%nat) (Fa 3%nat 6%nat) (Fa 3%nat 7%nat) (Fa 3%nat 8%nat) (Fa 4%nat 0%nat) (Fa 4%nat 1%nat) (Fa 4%nat 2%nat) (Fa 4%nat 3%nat) (Fa 4%nat 4%nat) (Fa 4%nat 5%nat) (Fa 4%nat 6%nat) (Fa 4%nat 7%nat) (Fa 4%nat 8%nat) (Fa 5%nat 0%nat) (Fa 5%nat 1%nat) (Fa 5%nat 2%nat) (Fa 5%nat 3%nat) (Fa 5%nat 4%nat) (Fa 5%nat 5%nat) (Fa 5%nat 6%nat) (Fa 5%nat 7%nat) (Fa 5%nat 8%nat) (Fa 6%nat 0%nat) (Fa 6%nat 1%nat) (Fa 6%nat 2%nat) (Fa 6%nat 3%nat) (Fa 6%nat 4%nat) (Fa 6%nat 5%nat) (Fa 6%nat 6%nat) (Fa 6%nat 7%nat) (Fa 6%nat 8%nat) (Fa 7%nat 0%nat) (Fa 7%nat 1%nat) (Fa 7%nat 2%nat) (Fa 7%nat 3%nat) (Fa 7%nat 4%nat) (Fa 7%nat 5%nat) (Fa 7%nat 6%nat) (Fa 7%nat 7%nat) (Fa 7%nat 8%nat) (Fa 8%nat 0%nat) (Fa 8%nat 1%nat) (Fa 8%nat 2%nat) (Fa 8%nat 3%nat) (Fa 8%nat 4%nat) (Fa 8%nat 5%nat) (Fa 8%nat 6%nat) (Fa 8%nat 7%nat) (Fa 8%nat 8%nat) (Fb 0%nat 0%nat) (Fb 0%nat 1%nat) (Fb 0%nat 2%nat) (Fb 0%nat 3%nat) (Fb 0%nat 4%nat) (Fb 0%nat 5%nat) (Fb 0%nat 6%nat) (Fb 0%nat 7%nat) (Fb 0%nat 8%nat) (Fb 1%nat 0%nat) (Fb 1%nat 1%nat) (Fb 1%nat 2%nat) (Fb 1%nat 3%nat) (Fb 1%nat 4%nat) (Fb 1%nat 5%nat) (Fb 1%nat 6%nat) (Fb 1%nat 7%nat) (Fb 1%nat 8%nat) (Fb 2%nat 0%nat) (Fb 2%nat 1%nat) (Fb 2%nat 2%nat) (Fb 2%nat 3%nat) (Fb 2%nat 4%nat) (Fb 2%nat 5%nat) (Fb 2%nat 6%nat) (Fb 2%nat 7%nat) (Fb 2%nat 8%nat) (Fb 3%nat 0%nat) (Fb 3%nat 1%nat) (Fb 3%nat 2%nat) (Fb 3%nat 3%nat) (Fb 3%nat 4%nat) (Fb 3%nat 5%nat) (Fb 3%nat 6%nat) (Fb 3%nat 7%nat) (Fb 3%nat 8%nat) (Fb 4%nat 0%nat) (Fb 4%nat 1%nat) (Fb 4%nat 2%nat) (Fb 4%nat 3%nat) (Fb 4%nat 4%nat) (Fb 4%nat 5%nat) (Fb 4%nat 6%nat) (Fb 4%nat 7%nat) (Fb 4%nat 8%nat) (Fb 5%nat 0%nat) (Fb 5%nat 1%nat) (Fb 5%nat 2%nat) (Fb 5%nat 3%nat) (Fb 5%nat 4%nat) (Fb 5%nat 5%nat) (Fb 5%nat 6%nat) (Fb 5%nat 7%nat) (Fb 5%nat 8%nat) (Fb 6%nat 0%nat) (Fb 6%nat 1%nat) (Fb 6%nat 2%nat) (Fb 6%nat 3%nat) (Fb 6%nat 4%nat) (Fb 6%nat 5%nat) (Fb 6%nat 6%nat) (Fb 6%nat 7%nat) (Fb 6%nat 8%nat) (Fb 7%nat 0%nat) (Fb 7%nat 1%nat) (Fb 7%nat 2%nat) (Fb 7%nat 3%nat) (Fb 7%nat 4%nat) (Fb 7%nat 5%nat) (Fb 7%nat 6%nat) (Fb 7%nat 7%nat) (Fb 7%nat 8%nat) (Fb 8%nat 0%nat) (Fb 8%nat 1%nat) (Fb 8%nat 2%nat) (Fb 8%nat 3%nat) (Fb 8%nat 4%nat) (Fb 8%nat 5%nat) (Fb 8%nat 6%nat) (Fb 8%nat 7%nat) (Fb 8%nat 8%nat) (Fc 0%nat 0%nat) (Fc 0%nat 1%nat) (Fc 0%nat 2%nat) (Fc 0%nat 3%nat) (Fc 0%nat 4%nat) (Fc 0%nat 5%nat) (Fc 0%nat 6%nat) (Fc 0%nat 7%nat) (Fc 0%nat 8%nat) (Fc 1%nat 0%nat) (Fc 1%nat 1%nat) (Fc 1%nat 2%nat) (Fc 1%nat 3%nat) (Fc 1%nat 4%nat) (Fc 1%nat 5%nat) (Fc 1%nat 6%nat) (Fc 1%nat 7%nat) (Fc 1%nat 8%nat) (Fc 2%nat 0%nat) (Fc 2%nat 1%nat) (Fc 2%nat 2%nat) (Fc 2%nat 3%nat) (Fc 2%nat 4%nat) (Fc 2%nat 5%nat) (Fc 2%nat 6%nat) (Fc 2%nat 7%nat) (Fc 2%nat 8%nat) (Fc 3%nat 0%nat) (Fc 3%nat 1%nat) (Fc 3%nat 2%nat) (Fc 3%nat 3%nat) (Fc 3%nat 4%nat) (Fc 3%nat 5%nat) (Fc 3%nat 6%nat) (Fc 3%nat 7%nat) (Fc 3%nat 8%nat) (Fc 4%nat 0%nat) (Fc 4%nat 1%nat) (Fc 4%nat 2%nat) (Fc 4%nat 3%nat) (Fc 4%nat 4%nat) (Fc 4%nat 5%nat) (Fc 4%nat 6%nat) (Fc 4%nat 7%nat) (Fc 4%nat 8%nat) (Fc 5%nat 0%nat) (Fc 5%nat 1%nat) (Fc 5%nat 2%nat) (Fc 5%nat 3%nat) (Fc 5%nat 4%nat) (Fc 5%nat 5%nat) (Fc 5%nat 6%nat) (Fc 5%nat 7%nat) (Fc 5%nat 8%nat) (Fc 6%nat 0%nat) (Fc 6%nat 1%nat) (Fc 6%nat 2%nat) (Fc 6%nat 3%nat) (Fc 6%nat 4%nat) (Fc 6%nat 5%nat) (Fc 6%nat 6%nat) (Fc 6%nat 7%nat) (Fc 6%nat 8%nat) (Fc 7%nat 0%nat) (Fc 7%nat 1%nat) (Fc 7%nat 2%nat) (Fc 7%nat 3%nat) (Fc 7%nat 4%nat) (Fc 7%nat 5%nat) (Fc 7%nat 6%nat) (Fc 7%nat 7%nat) (Fc 7%nat 8%nat) (Fc 8%nat 0%nat) (Fc 8%nat 1%nat) (Fc 8%nat 2%nat) (Fc 8%nat 3%nat) (Fc 8%nat 4%nat) (Fc 8%nat 5%nat) (Fc 8%nat 6%nat) (Fc 8%nat 7%nat) (Fc 8%nat 8%nat) (Ga 0%nat 0%nat) (Ga 0%nat 1%nat) (Ga 0%nat 2%nat) (Ga 1%nat 0%nat) (Ga 1%nat 1%nat) (Ga 1%nat 2%nat) (Ga 2%nat 0%nat) (Ga 2%nat 1%nat) (Ga 2%nat 2%nat) (Ga 3%nat 0%nat) (Ga 3%nat 1%nat) (Ga 3%nat 2%nat) (Ga 4%nat 0%nat) (Ga 4%nat 1%nat) (Ga 4%nat 2%nat) (Ga 5%nat 0%nat) (Ga 5%nat 1%nat) (Ga 5%nat 2%nat) (Ga 6%nat 0%nat) (Ga 6%nat 1%nat) (Ga 6%nat 2%nat) (Ga 7%nat 0%nat) (Ga 7%nat 1%nat) (Ga 7%nat 2%nat) (Ga 8%nat 0%nat) (Ga 8%nat 1%nat) (Ga 8%nat 2%nat) (Gb 0%nat 0%nat) (Gb 0%nat 1%nat) (Gb 0%nat 2%nat) (Gb 1%nat 0%nat) (Gb 1%nat 1%nat) (Gb 1%nat 2%nat) (Gb 2%nat 0%nat) (Gb 2%nat 1%nat) (Gb 2%nat 2%nat) (Gb 3%nat 0%nat) (Gb 3%nat 1%nat) (Gb 3%nat 2%nat) (Gb 4%nat 0%nat) (Gb 4%nat 1%nat) (Gb 4%nat 2%nat) (Gb 5%nat 0%nat) (Gb 5%nat 1%nat) (Gb 5%nat 2%nat) (Gb 6%nat 0%nat) (Gb 6%nat 1%nat) (Gb 6%nat 2%nat) (Gb 7%nat 0%nat) (Gb 7%nat 1%nat) (Gb 7%nat 2%nat) (Gb 8%nat 0%nat) (Gb 8%nat 1%nat) (Gb 8%nat 2%nat) (Gc 0%nat 0%nat) (Gc 0%nat 1%nat) (Gc 0%nat 2%nat) (Gc 1%nat 0%nat) (Gc 1%nat 1%nat) (Gc 1%nat 2%nat) (Gc 2%nat 0%nat) (Gc 2%nat 1%nat) (Gc 2%nat 2%nat) (Gc 3%nat 0%nat) (Gc 3%nat 1%nat) (Gc 3%nat 2%nat) (Gc 4%nat 0%nat) (Gc 4%nat 1%nat) (Gc 4%nat 2%nat) (Gc 5%nat 0%nat) (Gc 5%nat 1%nat) (Gc 5%nat 2%nat) (Gc 6%nat 0%nat) (Gc 6%nat 1%nat) (Gc 6%nat 2%nat) (Gc 7%nat 0%nat) (Gc 7%nat 1%nat) (Gc 7%nat 2%nat) (Gc 8%nat 0%nat) (Gc 8%nat 1%nat) (Gc 8%nat 2%nat) (Aa 0%nat 0%nat) (Aa 0%nat 1%nat) (Aa 0%nat 2%nat) (Aa 1%nat 0%nat) (Aa 1%nat 1%nat) (Aa 1%nat 2%nat) (Aa 2%nat 0%nat) (Aa 2%nat 1%nat) (Aa 2%nat 2%nat) (Aa 3%nat 0%nat) (Aa 3%nat 1%nat) (Aa 3%nat 2%nat) (Aa 4%nat 0%nat) (Aa 4%nat 1%nat) (Aa 4%nat 2%nat) (Aa 5%nat 0%nat) (Aa 5%nat 1%nat) (Aa 5%nat 2%nat) (Aa 6%nat 0%nat) (Aa 6%nat 1%nat) (Aa 6%nat 2%nat) (Aa 7%nat 0%nat) (Aa 7%nat 1%nat) (Aa 7%nat 2%nat) (Aa 8%nat 0%nat) (Aa 8%nat 1%nat) (Aa 8%nat 2%nat) (Ab 0%nat 0%nat) (Ab 0%nat 1%nat) (Ab 0%nat 2%nat) (Ab 1%nat 0%nat) (Ab 1%nat 1%nat) (Ab 1%nat 2%nat) (Ab 2%nat 0%nat) (Ab 2%nat 1%nat) (Ab 2%nat 2%nat) (Ab 3%nat 0%nat) (Ab 3%nat 1%nat) (Ab 3%nat 2%nat) (Ab 4%nat 0%nat) (Ab 4%nat 1%nat) (Ab 4%nat 2%nat) (Ab 5%nat 0%nat) (Ab 5%nat 1%nat) (Ab 5%nat 2%nat) (Ab 6%nat 0%nat) (Ab 6%nat 1%nat) (Ab 6%nat 2%nat) (Ab 7%nat 0%nat) (Ab 7%nat 1%nat) (Ab 7%nat 2%nat) (Ab 8%nat 0%nat) (Ab 8%nat 1%nat) (Ab 8%nat 2%nat) (Ac 0%nat 0%nat) (Ac 0%nat 1%nat) (Ac 0%nat 2%nat) (Ac 1%nat 0%nat) (Ac 1%nat 1%nat) (Ac 1%nat 2%nat) (Ac 2%nat 0%nat) (Ac 2%nat 1%nat) (Ac 2%nat 2%nat) (Ac 3%nat 0%nat) (Ac 3%nat 1%nat) (Ac 3%nat 2%nat) (Ac 4%nat 0%nat) (Ac 4%nat 1%nat) (Ac 4%nat 2%nat) (Ac 5%nat 0%nat) (Ac 5%nat 1%nat) (Ac 5%nat 2%nat) (Ac 6%nat 0%nat) (Ac 6%nat 1%nat) (Ac 6%nat 2%nat) (Ac 7%nat 0%nat) (Ac 7%nat 1%nat) (Ac 7%nat 2%nat) (Ac 8%nat 0%nat) (Ac 8%nat 1%nat) (Ac 8%nat 2%nat) (x 0%nat) (x 1%nat) (x 2%nat) (x 3%nat) (x 4%nat) (x 5%nat) (x 6%nat) (x 7%nat) (x 8%nat) (eg 0%nat) (eg 1%nat) (eg 2%nat) (ea 0%nat) (ea 1%nat) (ea 2%nat)
  | 2 => prop3d3_x2 dt1 dt2 (Fa 0%nat 0%nat) (Fa 0%nat 1%nat) (Fa 0%nat 2%nat) (Fa 0%nat 3%nat) (Fa 0%nat 4%nat) (Fa 0%nat 5%nat) (Fa 0%nat 6%nat) (Fa 0%nat 7%nat) (Fa 0%nat 8%nat) (Fa 1%nat 0%nat) (Fa 1%nat 1%nat) (Fa 1%nat 2%nat) (Fa 1%nat 3%nat) (Fa 1%nat 4%nat) (Fa 1%nat 5%nat) (Fa 1%nat 6%nat) (Fa 1%nat 7%nat) (Fa 1%nat 8%nat) (Fa 2%nat 0%nat) (Fa 2%nat 1%nat) (Fa 2%nat 2%nat) (Fa 2%nat 3%nat) (Fa 2%nat 4%nat) (Fa 2%nat 5%nat) (Fa 2%nat 6%nat) (Fa 2%nat 7%nat) (Fa 2%nat 8%nat) (Fa 3%nat 0%nat) (Fa 3%nat 1%nat) (Fa 3%nat 2%nat) (Fa 3%nat 3%nat) (Fa 3%nat 4%nat) (Fa 3%nat 5%nat) (Fa 3%nat 6%nat) (Fa 3%nat 7%nat) (Fa 3%nat 8%nat) (Fa 4%nat 0%nat) (Fa 4%nat 1%nat) (Fa 4%nat 2%nat) (Fa 4%nat 3%nat) (Fa 4%nat 4%nat) (Fa 4%nat 5%nat) (Fa 4%nat 6%nat) (Fa 4%nat 7%nat) (Fa 4%nat 8%nat) (Fa 5%nat 0%nat) (Fa 5%nat 1%nat) (Fa 5%nat 2%nat) (Fa 5%nat 3%nat) (Fa 5%nat 4%nat) (Fa 5%nat 5%nat) (Fa 5%nat 6%nat) (Fa 5%nat 7%nat) (Fa 5%nat 8%nat) (Fa 6%nat 0%nat) (Fa 6%nat 1%nat) (Fa 6%nat 2%nat) (Fa 6%nat 3%nat) (Fa 6%nat 4%nat) (Fa 6%nat 5%nat) (Fa 6%nat 6%nat) (Fa 6%nat 7%nat) (Fa 6%nat 8%nat) (Fa 7%nat 0%nat) (Fa 7%nat 1%nat) (Fa 7%nat 2%nat) (Fa 7%nat 3%nat) (Fa 7%nat 4%nat) (Fa 7%nat 5%nat) (Fa 7%nat 6%nat) (Fa 7%nat 7%nat) (Fa 7%nat 8%nat) (Fa 8%nat 0%nat) (Fa 8%nat 1%nat) (Fa 8%nat 2%nat) (Fa 8%nat 3%nat) (Fa 8%nat 4%nat) (Fa 8%nat 5%nat) (Fa 8%nat 6%nat) (Fa 8%nat 7%nat) (Fa 8%nat 8%nat) (Fb 0%nat 0%nat) (Fb 0%nat 1%nat) (Fb 0%nat 2%nat) (Fb 0%nat 3%nat) (Fb 0%nat 4%nat) (Fb 0%nat 5%nat) (Fb 0%nat 6%nat) (Fb 0%nat 7%nat) (Fb 0%nat 8%nat) (Fb 1%nat 0%nat) (Fb 1%nat 1%nat) (Fb 1%nat 2%nat) (Fb 1%nat 3%nat) (Fb 1%nat 4%nat) (Fb 1%nat 5%nat) (Fb 1%nat 6%nat) (Fb 1%nat 7%nat) (Fb 1%nat 8%nat) (Fb 2%nat 0%nat) (Fb 2%nat 1%nat) (Fb 2%nat 2%nat) (Fb 2%nat 3%nat) (Fb 2%nat 4%nat) (Fb 2%nat 5%nat) (Fb 2%nat 6%nat) (Fb 2%nat 7%nat) (Fb 2%nat 8%nat) (Fb 3%nat 0%nat) (Fb 3%nat 1%nat) (Fb 3%nat 2%nat) (Fb 3%nat 3%nat) (Fb 3%nat 4%nat) (Fb 3%nat 5%nat) (Fb 3%nat 6%nat) (Fb 3%nat 7%nat) (Fb 3%nat 8%nat) (Fb 4%nat 0%nat) (Fb 4%nat 1%nat) (Fb 4%nat 2%nat) (Fb 4%nat 3%nat) (Fb 4%nat 4%nat) (Fb 4%nat 5%nat) (Fb 4%nat 6%nat) (Fb 4%nat 7%nat) (Fb 4%nat 8%nat) (Fb 5%nat 0%nat) (Fb 5%nat 1%nat) (Fb 5%nat 2%nat) (Fb 5%nat 3%nat) (Fb 5%nat 4%nat) (Fb 5%nat 5%nat) (Fb 5%nat 6%nat) (Fb 5%nat 7%nat) (Fb 5%nat 8%nat) (Fb 6%nat 0%nat) (Fb 6%nat 1%nat) (Fb 6%nat 2%nat) (Fb 6%nat 3%nat) (Fb 6%nat 4%nat) (Fb 6%nat 5%nat) (Fb 6%nat 6%nat) (Fb 6%nat 7%nat) (Fb 6%nat 8%nat) (Fb 7%nat 0%nat) (Fb 7%nat 1%nat) (Fb 7%nat 2%nat) (Fb 7%nat 3%nat) (Fb 7%nat 4%nat) (Fb 7%nat 5%nat) (Fb 7%nat 6%nat) (Fb 7%nat 7%nat) (Fb 7%nat 8%nat) (Fb 8%nat 0%nat) (Fb 8%nat 1%nat) (Fb 8%nat 2%nat) (Fb 8%nat 3%nat) (Fb 8%nat 4%nat) (Fb 8%nat 5%nat) (Fb 8%nat 6%nat) (Fb 8%nat 7%nat) (Fb 8%nat 8%nat) (Fc 0%nat 0%nat) (Fc 0%nat 1%nat) (Fc 0%nat 2%nat) (Fc 0%nat 3%nat) (Fc 0%nat 4%nat) (Fc 0%nat 5%nat) (Fc 0%nat 6%nat) (Fc 0%nat 7%nat) (Fc 0%nat 8%nat) (Fc 1%nat 0%nat) (Fc 1%nat 1%nat) (Fc 1%nat 2%nat) (Fc 1%nat 3%nat) (Fc 1%nat 4%nat) (Fc 1%nat 5%nat) (Fc 1%nat 6%nat) (Fc 1%nat 7%nat) (Fc 1%nat 8%nat) (Fc 2%nat 0%nat) (Fc 2%nat 1%nat) (Fc 2%nat 2%nat) (Fc 2%nat 3%nat) (Fc 2%nat 4%nat) (Fc 2%nat 5%nat) (Fc 2%nat 6%nat) (Fc 2%nat 7%nat) (Fc 2%nat 8%nat) (Fc 3%nat 0%nat) (Fc 3%nat 1%nat) (Fc 3%nat 2%nat) (Fc 3%nat 3%nat) (Fc 3%nat 4%nat) (Fc 3%nat 5%nat) (Fc 3%nat 6%nat) (Fc 3%nat 7%nat) (Fc 3%nat 8%nat) (Fc 4%nat 0%nat) (Fc 4%nat 1%nat) (Fc 4%nat 2%nat) (Fc 4%nat 3%nat) (Fc 4%nat 4%nat) (Fc 4%nat 5%nat) (Fc 4%nat 6%nat) (Fc 4%nat 7%nat) (Fc 4%nat 8%nat) (Fc 5%nat 0%nat) (Fc 5%nat 1%nat) (Fc 5%nat 2%nat) (Fc 5%nat 3%nat) (Fc 5%nat 4%nat) (Fc 5%nat 5%nat) (Fc 5%nat 6%nat) (Fc 5%nat 7%nat) (Fc 5%nat 8%nat) (Fc 6%nat 0%nat) (Fc 6%nat 1%nat) (Fc 6%nat 2%nat) (Fc 6%nat 3%nat) (Fc 6%nat 4%nat) (Fc 6%nat 5%nat) (Fc 6%nat 6%nat) (Fc 6%nat 7%nat) (Fc 6%nat 8%nat) (Fc 7%nat 0%nat) (Fc 7%nat 1%nat) (Fc 7%nat 2%nat) (Fc 7%nat 3%nat) (Fc 7%nat 4%nat) (Fc 7%nat 5%nat) (Fc 7%nat 6%nat) (Fc 7%nat 7%nat) (Fc 7%nat 8%nat) (Fc 8%nat 0%nat) (Fc 8%nat 1%nat) (Fc 8%nat 2%nat) (Fc 8%nat 3%nat) (Fc 8%nat 4%nat) (Fc 8%nat 5%nat) (Fc 8%nat 6%nat) (Fc 8%nat 7%nat) (Fc 8%nat 8%nat) (Ga 0%nat 0%nat) (Ga 0%nat 1%nat) (Ga 0%nat 2%nat) (Ga 1%nat 0%nat) (Ga 1%nat 1%nat) (Ga 1%nat 2%nat) (Ga 2%nat 0%nat) (Ga 2%nat 1%nat) (Ga 2%nat 2%nat) (Ga 3%nat 0%nat) (Ga 3%nat 1%nat) (Ga 3%nat 2%nat) (Ga 4%nat 0%nat) (Ga 4%nat 1%nat) (Ga 4%nat 2%nat) (Ga 5%nat 0%nat) (Ga 5%nat 1%nat) (Ga 5%nat 2%nat) (Ga 6%nat 0%nat) (Ga 6%nat 1%nat) (Ga 6%nat 2%nat) (Ga 7%nat 0%nat) (Ga 7%nat 1%nat) (Ga 7%nat 2%nat) (Ga 8%nat 0%nat) (Ga 8%nat 1%nat) (Ga 8%nat 2%nat) (Gb 0%nat 0%nat) (Gb 0%nat 1%nat) (Gb 0%nat 2%nat) (Gb 1%nat 0%nat) (Gb 1%nat 1%nat) (Gb 1%nat 2%nat) (Gb 2%nat 0%nat) (Gb 2%nat 1%nat) (Gb 2%nat 2%nat) (Gb 3%nat 0%nat) (Gb 3%nat 1%nat) (Gb 3%nat 2%nat) (Gb 4%nat 0%nat) (Gb 4%nat 1%nat) (Gb 4%nat 2%nat) (Gb 5%nat 0%nat) (Gb 5%nat 1%nat) (Gb 5%nat 2%nat) (Gb 6%nat 0%nat) (Gb 6%nat 1%nat) (Gb 6%nat 2%nat) (Gb 7%nat 0%nat) (Gb 7%nat 1%nat) (Gb 7%nat 2%nat) (Gb 8%nat 0%nat) (Gb 8%nat 1%nat) (Gb 8%nat 2%nat) (Gc 0%nat 0%nat) (Gc 0%nat 1%nat) (Gc 0%nat 2%nat) (Gc 1%nat 0%nat) (Gc 1%nat 1%nat) (Gc 1%nat 2%nat) (Gc 2%nat 0%nat) (Gc 2%nat 1%nat) (Gc 2%nat 2%nat) (Gc 3%nat 0%nat) (Gc 3%nat 1%nat) (Gc 3%nat 2%nat) (Gc 4%nat 0%nat) (Gc 4%nat 1%nat) (Gc 4%nat 2%nat) (Gc 5%nat 0%nat) (Gc 5%nat 1%nat) (Gc 5%nat 2%nat) (Gc 6%nat 0%nat) (Gc 6%nat 1%nat) (Gc 6%nat 2%nat) (Gc 7%nat 0%nat) (Gc 7%nat 1%nat) (Gc 7%nat 2%nat) (Gc 8%nat 0%nat) (Gc 8%nat 1%nat) (Gc 8%nat 2%nat) (Aa 0%nat 0%nat) (Aa 0%nat 1%nat) (Aa 0%nat 2%nat) (Aa 1%nat 0%nat) (Aa 1%nat 1%nat) (Aa 1%nat 2%nat) (Aa 2%nat 0%nat) (Aa 2%nat 1%nat) (Aa 2%nat 2%nat) (Aa 3%nat 0%nat) (Aa 3%nat 1%nat) (Aa 3%nat 2%nat) (Aa 4%nat 0%nat) (Aa 4%nat 1%nat) (Aa 4%nat 2%nat) (Aa 5%nat 0%nat) (Aa 5%nat 1%nat) (Aa 5%nat 2%nat) (Aa 6%nat 0%nat) (Aa 6%nat 1%nat) (Aa 6%nat 2%nat) (Aa 7%nat 0%nat) (Aa 7%nat 1%nat) (Aa 7%nat 2%nat) (Aa 8%nat 0%nat) (Aa 8%nat 1%nat) (Aa 8%nat 2%nat) (Ab 0%nat 0%nat) (Ab 0%nat 1%nat) (Ab 0%nat 2%nat) (Ab 1%nat 0%nat) (Ab 1%nat 1%nat) (Ab 1%nat 2%nat) (Ab 2%nat 0%nat) (Ab 2%nat 1%nat) (Ab 2%nat 2%nat) (Ab 3%nat 0%nat) (Ab 3%nat 1%nat) (Ab 3%nat 2%nat) (Ab 4%nat 0%nat) (Ab 4%nat 1%nat) (Ab 4%nat 2%nat) (Ab 5%nat 0%nat) (Ab 5%nat 1%nat) (Ab 5%nat 2%nat) (Ab 6%nat 0%nat) (Ab 6%nat 1%nat) (Ab 6%nat 2%nat) (Ab 7%nat 0%nat) (Ab 7%nat 1%nat) (Ab 7%nat 2%nat) (Ab 8%nat 0%nat) (Ab 8%nat 1%nat) (Ab 8%nat 2%nat) (Ac 0%nat 0%nat) (Ac 0%nat 1%nat) (Ac 0%nat 2%nat) (Ac 1%nat 0%nat) (Ac 1%nat 1%nat) (Ac 1%nat 2%nat) (Ac 2%nat 0%nat) (Ac 2%nat 1%nat) (Ac 2%nat 2%nat) (Ac 3%nat 0%nat) (Ac 3%nat 1%nat) (Ac 3%nat 2%nat) (Ac 4%nat 0%nat) (Ac 4%nat 1%nat) (Ac 4%nat 2%nat) (Ac 5%nat 0%nat) (Ac 5%nat 1%nat) (Ac 5%nat 2%nat) (Ac 6%nat 0%nat) (Ac 6%nat 1%nat) (Ac 6%nat 2%nat) (Ac 7%nat 0%nat) (Ac 7%nat 1%nat) (Ac 7%nat 2%nat) (Ac 8%nat 0%nat) (Ac 8%nat 1%nat) (Ac 8%nat 2%nat) (x 0%nat) (x 1%nat) (x 2%nat) (x 3%nat) (x 4%nat) (x 5%nat) (x 6%nat) (x 7%nat) (x 8%nat) (eg 0%nat) (eg 1%nat) (eg 2%nat) (ea 0%nat) (ea 1%nat) (ea 2%nat)
  | 3 => prop3d3_x3 dt1 dt2 (Fa 0%nat 0%nat) (Fa 0%nat 1%nat) (Fa 0%nat 2%nat) (Fa 0%nat 3%nat) (Fa 0%nat 4%nat) (Fa 0%nat 5%nat) (Fa 0%nat 6%nat) (Fa 0%nat 7%nat) (Fa 0%nat 8%nat) (Fa 1%nat 0%nat) (Fa 1%nat 1%nat) (Fa 1%nat 2%nat) (Fa 1%nat 3%nat) (Fa 1%nat 4%nat) (Fa 1%nat 5%nat) (Fa 1%nat 6%nat) (Fa 1%nat 7%nat) (Fa 1%nat 8%nat) (Fa 2%nat 0%nat) (Fa 2%nat 1%nat) (Fa 2%nat 2%nat) (Fa 2%nat 3%nat) (Fa 2%nat 4%nat) (Fa 2%nat 5%nat) (Fa 2%nat 6%nat) (Fa 2%nat 7%nat) (Fa 2%nat 8%nat) (Fa 3%nat 0%nat) (Fa 3%nat 1%nat) (Fa 3%nat 2%nat) (Fa 3%nat 3%nat) (Fa 3%nat 4%nat) (Fa 3%nat 5%nat) (Fa 3%nat 6%nat) (Fa 3%nat 7%nat) (Fa 3%nat 8%nat) (Fa 4%nat 0%nat) (Fa 4%nat 1%nat) (Fa 4%nat 2%nat) (Fa 4%nat 3%nat) (Fa 4%nat 4%nat) (Fa 4%nat 5%nat) (Fa 4%nat 6%nat) (Fa 4%nat 7%nat) (Fa 4%nat 8%nat) (Fa 5%nat 0%nat) (Fa 5%nat 1%nat) (Fa 5%nat 2%nat) (Fa 5%nat 3%nat) (Fa 5%nat 4%nat) (Fa 5%nat 5%nat) (Fa 5%nat 6%nat) (Fa 5%nat 7%nat) (Fa 5%nat 8%nat) (Fa 6%nat 0%nat) (Fa 6%nat 1%nat) (Fa 6%nat 2%nat) (Fa 6%nat 3%nat) (Fa 6%nat 4%nat) (Fa 6%nat 5%nat) (Fa 6%nat 6%nat) (Fa 6%nat 7%nat) (Fa 6%nat 8%nat) (Fa 7%nat 0%nat) (Fa 7%nat 1%nat) (Fa 7%nat 2%nat) (Fa 7%nat 3%nat) (Fa 7%nat 4%nat) (Fa 7%nat 5%nat) (Fa 7%nat 6%nat) (Fa 7%nat 7%nat) (Fa 7%nat 8%nat) (Fa 8%nat 0%nat) (Fa 8%nat 1%nat) (Fa 8%nat 2%nat) (Fa 8%nat 3%nat) (Fa 8%nat 4%nat) (Fa 8%nat 5%nat) (Fa 8%nat 6%nat) (Fa 8%nat 7%nat) (Fa 8%nat 8%nat) (Fb 0%nat 0%nat) (Fb 0%nat 1%nat) (Fb 0%nat 2%nat) (Fb 0%nat 3%nat) (Fb 0%nat 4%nat) (Fb 0%nat 5%nat) (Fb 0%nat 6%nat) (Fb 0%nat 7%nat) (Fb 0%nat 8%nat) (Fb 1%nat 0%nat) (Fb 1%nat 1%nat) (Fb 1%nat 2%nat) (Fb 1%nat 3%nat) (Fb 1%nat 4%nat) (Fb 1%nat 5%nat) (Fb 1%nat 6%nat) (Fb 1%nat 7%nat) (Fb 1%nat 8%nat) (Fb 2%nat 0%nat) (Fb 2%nat 1%nat) (Fb 2%nat 2%nat) (Fb 2%nat 3%nat) (Fb 2%nat 4%nat) (Fb 2%nat 5%nat) (Fb 2%nat 6%nat) (Fb 2%nat 7%nat) (Fb 2%nat 8%nat) (Fb 3%nat 0%nat) (Fb 3%nat 1%nat) (Fb 3%nat 2%nat) (Fb 3%nat 3%nat) (Fb 3%nat 4%nat) (Fb 3%nat 5%nat) (Fb 3%nat 6%nat) (Fb 3%nat 7%nat) (Fb 3%nat 8%nat) (Fb 4%nat 0%nat) (Fb 4%nat 1%nat) (Fb 4%nat 2%nat) (Fb 4%nat 3%nat) (Fb 4%nat 4%nat) (Fb 4%nat 5%nat) (Fb 4%nat 6%nat) (Fb 4%nat 7%nat) (Fb 4%nat 8%nat) (Fb 5%nat 0%nat) (Fb 5%nat 1%nat) (Fb 5%nat 2%nat) (Fb 5%nat 3%nat) (Fb 5%nat 4%nat) (Fb 5%nat 5%nat) (Fb 5%nat 6%nat) (Fb 5%nat 7%nat) (Fb 5%nat 8%nat) (Fb 6%nat 0%nat) (Fb 6%nat 1%nat) (Fb 6%nat 2%nat) (Fb 6%nat 3%nat) (Fb 6%nat 4%nat) (Fb 6%nat 5%nat) (Fb 6%nat 6%nat) (Fb 6%nat 7%nat) (Fb 6%nat 8%nat) (Fb 7%nat 0%nat) (Fb 7%nat 1%nat) (Fb 7%nat 2%nat) (Fb 7%nat 3%nat) (Fb 7%nat 4%nat) (Fb 7%nat 5%nat) (Fb 7%nat 6%nat) (Fb 7%nat 7%nat) (Fb 7%nat 8%nat) (Fb 8%nat 0%nat) (Fb 8%nat 1%nat) (Fb 8%nat 2%nat) (Fb 8%nat 3%nat) (Fb 8%nat 4%nat) (Fb 8%nat 5%nat) (Fb 8%nat 6%nat) (Fb 8%nat 7%nat) (Fb 8%nat 8%nat) (Fc 0%nat 0%nat) (Fc 0%nat 1%nat) (Fc 0%nat 2%nat) (Fc 0%nat 3%nat) (Fc 0%nat 4%nat) (Fc 0%nat 5%nat) (Fc 0%nat 6%nat) (Fc 0%nat 7%nat) (Fc 0%nat 8%nat) (Fc 1%nat 0%nat) (Fc 1%nat 1%nat) (Fc 1%nat 2%nat) (Fc 1%nat 3%nat) (Fc 1%nat 4%nat) (Fc 1%nat 5%nat) (Fc 1%nat 6%nat) (Fc 1%nat 7%nat) (Fc 1%nat 8%nat) (Fc 2%nat 0%nat) (Fc 2%nat 1%nat) (Fc 2%nat 2%nat) (Fc 2%nat 3%nat) (Fc 2%nat 4%nat) (Fc 2%nat 5%nat) (Fc 2%nat 6%nat) (Fc 2%nat 7%nat) (Fc 2%nat 8%nat) (Fc 3%nat 0%nat) (Fc 3%nat 1%nat) (Fc 3%nat 2%nat) (Fc 3%nat 3%nat) (Fc 3%nat 4%nat) (Fc 3%nat 5%nat) (Fc 3%nat 6%nat) (Fc 3%nat 7%nat) (Fc 3%nat 8%nat) (Fc 4%nat 0%nat) (Fc 4%nat 1%nat) (Fc 4%nat 2%nat) (Fc 4%nat 3%nat) (Fc 4%nat 4%nat) (Fc 4%nat 5%nat) (Fc 4%nat 6%nat) (Fc 4%nat 7%nat) (Fc 4%nat 8%nat) (Fc 5%nat 0%nat) (Fc 5%nat 1%nat) (Fc 5%nat 2%nat) (Fc 5%nat 3%nat) (Fc 5%nat 4%nat) (Fc 5%nat 5%nat) (Fc 5%nat 6%nat) (Fc 5%nat 7%nat) (Fc 5%nat 8%nat) (Fc 6%nat 0%nat) (Fc 6%nat 1%nat) (Fc 6%nat 2%nat) (Fc 6%nat 3%nat) (Fc 6%nat 4%nat) (Fc 6%nat 5%nat) (Fc 6%nat 6%nat) (Fc 6%nat 7%nat) (Fc 6%nat 8%nat) (Fc 7%nat 0%nat) (Fc 7%nat 1%nat) (Fc 7%nat 2%nat) (Fc 7%nat 3%nat) (Fc 7%nat 4%nat) (Fc 7%nat 5%nat) (Fc 7%nat 6%nat) (Fc 7%nat 7%nat) (Fc 7%nat 8%nat) (Fc 8%nat 0%nat) (Fc 8%nat 1%nat) (Fc 8%nat 2%nat) (Fc 8%nat 3%nat) (Fc 8%nat 4%nat) (Fc 8%nat 5%nat) (Fc 8%nat 6%nat) (Fc 8%nat 7%nat) (Fc 8%nat 8%nat) (Ga 0%nat 0%nat) (Ga 0%nat 1%nat) (Ga 0%nat 2%nat) (Ga 1%nat 0%nat) (Ga 1%nat 1%nat) (Ga 1%nat 2%nat) (Ga 2%nat 0%nat) (Ga 2%nat 1%nat) (Ga 2%nat 2%nat) (Ga 3%nat 0%nat) (Ga 3%nat 1%nat) (Ga 3%nat 2%nat) (Ga 4%nat 0%nat) (Ga 4%nat 1%nat) (Ga 4%nat 2%nat) (Ga 5%nat 0%nat) (Ga 5%nat 1%nat) (Ga 5%nat 2%nat) (Ga 6%nat 0%nat) (Ga 6%nat 1%nat) (Ga 6%nat 2%nat) (Ga 7%nat 0%nat) (Ga 7%nat 1%nat) (Ga 7%nat 2%nat) (Ga 8%nat 0%nat) (Ga 8%nat 1%nat) (Ga 8%nat 2%nat) (Gb 0%nat 0%nat) (Gb 0%nat 1%nat) (Gb 0%nat 2%nat) (Gb 1%nat 0%nat) (Gb 1%nat 1%nat) (Gb 1%nat 2%nat) (Gb 2%nat 0%nat) (Gb 2%nat 1%nat) (Gb 2%nat 2%nat) (Gb 3%nat 0%nat) (Gb 3%nat 1%nat) (Gb 3%nat 2%nat) (Gb 4%nat 0%nat) (Gb 4%nat 1%nat) (Gb 4%nat 2%nat) (Gb 5%nat 0%nat) (Gb 5%nat 1%nat) (Gb 5%nat 2%nat) (Gb 6%nat 0%nat) (Gb 6%nat 1%nat) (Gb 6%nat 2%nat) (Gb 7%nat 0%nat) (Gb 7%nat 1%nat) (Gb 7%nat 2%nat) (Gb 8%nat 0%nat) (Gb 8%nat 1%nat) (Gb 8%nat 2%nat) (Gc 0%nat 0%nat) (Gc 0%nat 1%nat) (Gc 0%nat 2%nat) (Gc 1%nat 0%nat) (Gc 1%nat 1%nat) (Gc 1%nat 2%nat) (Gc 2%nat 0%nat) (Gc 2%nat 1%nat) (Gc 2%nat 2%nat) (Gc 3%nat 0%nat) (Gc 3%nat 1%nat) (Gc 3%nat 2%nat) (Gc 4%nat 0%nat) (Gc 4%nat 1%nat) (Gc 4%nat 2%nat) (Gc 5%nat 0%nat) (Gc 5%nat 1%nat) (Gc 5%nat 2%nat) (Gc 6%nat 0%nat) (Gc 6%nat 1%nat) (Gc 6%nat 2%nat) (Gc 7%nat 0%nat) (Gc 7%nat 1%nat) (Gc 7%nat 2%nat) (Gc 8%nat 0%nat) (Gc 8%nat 1%nat) (Gc 8%nat 2%nat) (Aa 0%nat 0%nat) (Aa 0%nat 1%nat) (Aa 0%nat 2%nat) (Aa 1%nat 0%nat) (Aa 1%nat 1%nat) (Aa 1%nat 2%nat) (Aa 2%nat 0%nat) (Aa 2%nat 1%nat) (Aa 2%nat 2%nat) (Aa 3%nat 0%nat) (Aa 3%nat 1%nat) (Aa 3%nat 2%nat) (Aa 4%nat 0%nat) (Aa 4%nat 1%nat) (Aa 4%nat 2%nat) (Aa 5%nat 0%nat) (Aa 5%nat 1%nat) (Aa 5%nat 2%nat) (Aa 6%nat 0%nat) (Aa 6%nat 1%nat) (Aa 6%nat 2%nat) (Aa 7%nat 0%nat) (Aa 7%nat 1%nat) (Aa 7%nat 2%nat) (Aa 8%nat 0%nat) (Aa 8%nat 1%nat) (Aa 8%nat 2%nat) (Ab 0%nat 0%nat) (Ab 0%nat 1%nat) (Ab 0%nat 2%nat) (Ab 1%nat 0%nat) (Ab 1%nat 1%nat) (Ab 1%nat 2%nat) (Ab 2%nat 0%nat) (Ab 2%nat 1%nat) (Ab 2%nat 2%nat) (Ab 3%nat 0%nat) (Ab 3%nat 1%nat) (Ab 3%nat 2%nat) (Ab 4%nat 0%nat) (Ab 4%nat 1%nat) (Ab 4%nat 2%nat) (Ab 5%nat 0%nat) (Ab 5%nat 1%nat) (Ab 5%nat 2%nat) (Ab 6%nat 0%nat) (Ab 6%nat 1%nat) (Ab 6%nat 2%nat) (Ab 7%nat 0%nat) (Ab 7%nat 1%nat) (Ab 7%nat 2%nat) (Ab 8%nat 0%nat) (Ab 8%nat 1%nat) (Ab 8%nat 2%nat) (Ac 0%nat 0%nat) (Ac 0%nat 1%nat) (Ac 0%nat 2%nat) (Ac 1%nat 0%nat) (Ac 1%nat 1%nat) (Ac 1%nat 2%nat) (Ac 2%nat 0%nat) (Ac 2%nat 1%nat) (Ac 2%nat 2%nat) (Ac 3%nat 0%nat) (Ac 3%nat 1%nat) (Ac 3%nat 2%nat) (Ac 4%nat 0%nat) (Ac 4%nat 1%nat) (Ac 4%nat 2%nat) (Ac 5%nat 0%nat) (Ac 5%nat 1%nat) (Ac 5%nat 2%nat) (Ac 6%nat 0%nat) (Ac 6%nat 1%nat) (Ac 6%nat 2%nat) (Ac 7%nat 0%nat) (Ac 7%nat 1%nat) (Ac 7%nat 2%nat) (Ac 8%nat 0%nat) (Ac 8%nat 1%nat) (Ac 8%nat 2%nat) (x 0%nat) (x 1%nat) (x 2%nat) (x 3%nat) (x 4%nat) (x 5%nat) (x 6%nat) (x 7%nat) (x 8%nat) (eg 0%nat) (eg 1%nat) (eg 2%nat) (ea 0%nat) (ea 1%nat) (ea 2%nat)
  | 4 => prop3d3_x4 dt1 dt2 (Fa 0%nat 0%nat) (Fa 0%nat 1%nat) (Fa 0%nat 2%nat) (Fa 0%nat 3%nat) (Fa 0%nat 4%nat) (Fa 0%nat 5%nat) (Fa 0%nat 6%nat) (Fa 0%nat 7%nat) (Fa 0%nat 8%nat) (Fa 1%nat 0%nat) (Fa 1%nat 1%nat) (Fa 1%nat 2%nat) (Fa 1%nat 3%nat) (Fa 1%nat 4%nat) (Fa 1%nat 5%nat) (Fa 1%nat 6%nat) (Fa 1%nat 7%nat) (Fa 1%nat 8%nat) (Fa 2%nat 0%nat) (Fa 2%nat 1%nat) (Fa 2%nat 2%nat) (Fa 2%nat 3%nat) (Fa 2%nat 4%nat) (Fa 2%nat 5%nat) (Fa 2%nat 6%nat) (Fa 2%nat 7%nat) (Fa 2%nat 8%nat) (Fa 3%nat 0%nat) (Fa 3%nat 1%nat) (Fa 3%nat 2%nat) (Fa 3%nat 3%nat) (Fa 3%nat 4%nat) (Fa 3%nat 5%nat) (Fa 3%nat 6%nat) (Fa 3%nat 7%nat) (Fa 3%nat 8%nat) (Fa 4%nat 0%nat) (Fa 4%nat 1%nat) (Fa 4%nat 2%nat) (Fa 4%nat 3%nat) (Fa 4%nat 4%nat) (Fa 4%nat 5%nat) (Fa 4%nat 6%nat) (Fa 4%nat 7%nat) (Fa 4%nat 8%nat) (Fa 5%nat 0%nat) (Fa 5%nat 1%nat) (Fa 5%nat 2%nat) (Fa 5%nat 3%nat) (Fa 5%nat 4%nat) (Fa 5%nat 5%nat) (Fa 5%nat 6%nat) (Fa 5%nat 7%nat) (Fa 5%nat 8%nat) (Fa 6%nat 0%nat) (Fa 6%nat 1%nat) (Fa 6%nat 2%nat) (Fa 6%nat 3%nat) (Fa 6%nat 4%nat) (Fa 6%nat 5%nat) (Fa 6%nat 6%nat) (Fa 6%nat 7%nat) (Fa 6%nat 8%nat) (Fa 7%nat 0%nat) (Fa 7%nat 1%nat) (Fa 7%nat 2%nat) (Fa 7%nat 3%nat) (Fa 7%nat 4%nat) (Fa 7%nat 5%nat) (Fa 7%nat 6%nat) (Fa 7%nat 7%nat) (Fa 7%nat 8%nat) (Fa 8%nat 0%nat) (Fa 8%nat 1%nat) (Fa 8%nat 2%nat) (Fa 8%nat 3%nat) (Fa 8%nat 4%nat) (Fa 8%nat 5%nat) (Fa 8%nat 6%nat) (Fa 8%nat 7%nat) (Fa 8%nat 8%nat) (Fb 0%nat 0%nat) (Fb 0%nat 1%nat) (Fb 0%nat 2%nat) (Fb 0%nat 3%nat) (Fb 0%nat 4%nat) (Fb 0%nat 5%nat) (Fb 0%nat 6%nat) (Fb 0%nat 7%nat) (Fb 0%nat 8%nat) (Fb 1%nat 0%nat) (Fb 1%nat 1%nat) (Fb 1%nat 2%nat) (Fb 1%nat 3%nat) (Fb 1%nat 4%nat) (Fb 1%nat 5%nat) (Fb 1%nat 6%nat) (Fb 1%nat 7%nat) (Fb 1%nat 8%nat) (Fb 2%nat 0%nat) (Fb 2%nat 1%nat) (Fb 2%nat 2%nat) (Fb 2%nat 3%nat) (Fb 2%nat 4%nat) (Fb 2%nat 5%nat) (Fb 2%nat 6%nat) (Fb 2%nat 7%nat) (Fb 2%nat 8%nat) (Fb 3%nat 0%nat) (Fb 3%nat 1%nat) (Fb 3%nat 2%nat) (Fb 3%nat 3%nat) (Fb 3%nat 4%nat) (Fb 3%nat 5%nat) (Fb 3%nat 6%nat) (Fb 3%nat 7%nat) (Fb 3%nat 8%nat) (Fb 4%nat 0%nat) (Fb 4%nat 1%nat) (Fb 4%nat 2%nat) (Fb 4%nat 3%nat) (Fb 4%nat 4%nat) (Fb 4%nat 5%nat) (Fb 4%nat 6%nat) (Fb 4%nat 7%nat) (Fb 4%nat 8%nat) (Fb 5%nat 0%nat) (Fb 5%nat 1%nat) (Fb 5%nat 2%nat) (Fb 5%nat 3%nat) (Fb 5%nat 4%nat) (Fb 5%nat 5%nat) (Fb 5%nat 6%nat) (Fb 5%nat 7%nat) (Fb 5%nat 8%nat) (Fb 6%nat 0%nat) (Fb 6%nat 1%nat) (Fb 6%nat 2%nat) (Fb 6%nat 3%nat) (Fb 6%nat 4%nat) (Fb 6%nat 5%nat) (Fb 6%nat 6%nat) (Fb 6%nat 7%nat) (Fb 6%nat 8%nat) (Fb 7%nat 0%nat) (Fb 7%nat 1%nat) (Fb 7%nat 2%nat) (Fb 7%nat 3%nat) (Fb 7%nat 4%nat) (Fb 7%nat 5%nat) (Fb 7%nat 6%nat) (Fb 7%nat 7%nat) (Fb 7%nat 8%nat) (Fb 8%nat 0%nat) (Fb 8%nat 1%nat) (Fb 8%nat 2%nat) (Fb 8%nat 3%nat) (Fb 8%nat 4%nat) (Fb 8%nat 5%nat) (Fb 8%nat 6%nat) (Fb 8%nat 7%nat) (Fb 8%nat 8%nat) (Fc 0%nat 0%nat) (Fc 0%nat 1%nat) (Fc 0%nat 2%nat) (Fc 0%nat 3%nat) (Fc 0%nat 4%nat) (Fc 0%nat 5%nat) (Fc 0%nat 6%nat) (Fc 0%nat 7%nat) (Fc 0%nat 8%nat) (Fc 1%nat 0%nat) (Fc 1%nat 1%nat) (Fc 1%nat 2%nat) (Fc 1%nat 3%nat) (Fc 1%nat 4%nat) (Fc 1%nat 5%nat) (Fc 1%nat 6%nat) (Fc 1%nat 7%nat) (Fc 1%nat 8%nat) (Fc 2%nat 0%nat) (Fc 2%nat 1%nat) (Fc 2%nat 2%nat) (Fc 2%nat 3%nat) (Fc 2%nat 4%nat) (Fc 2%nat 5%nat) (Fc 2%nat 6%nat) (Fc 2%nat 7%nat) (Fc 2%nat 8%nat) (Fc 3%nat 0%nat) (Fc 3%nat 1%nat) (Fc 3%nat 2%nat) (Fc 3%nat 3%nat) (Fc 3%nat 4%nat) (Fc 3%nat 5%nat) (Fc 3%nat 6%nat) (Fc 3%nat 7%nat) (Fc 3%nat 8%nat) (Fc 4%nat 0%nat) (Fc 4%nat 1%nat) (Fc 4%nat 2%nat) (Fc 4%nat 3%nat) (Fc 4%nat 4%nat) (Fc 4%nat 5%nat) (Fc 4%nat 6%nat) (Fc 4%nat 7%nat) (Fc 4%nat 8%nat) (Fc 5%nat 0%nat) (Fc 5%nat 1%nat) (Fc 5%nat 2%nat) (Fc 5%nat 3%nat) (Fc 5%nat 4%nat) (Fc 5%nat 5%nat) (Fc 5%nat 6%nat) (Fc 5%nat 7%nat) (Fc 5%nat 8%nat) (Fc 6%nat 0%nat) (Fc 6%nat 1%nat) (Fc 6%nat 2%nat) (Fc 6%nat 3%nat) (Fc 6%nat 4%nat) (Fc 6%nat 5%nat) (Fc 6%nat 6%nat) (Fc 6%nat 7%nat) (Fc 6%nat 8%nat) (Fc 7%nat 0%nat) (Fc 7%nat 1%nat) (Fc 7%nat 2%nat) (Fc 7%nat 3%nat) (Fc 7%nat 4%nat) (Fc 7%nat 5%nat) (Fc 7%nat 6%nat) (Fc 7%nat 7%nat) (Fc 7%nat 8%nat) (Fc 8%nat 0%nat) (Fc 8%nat 1%nat) (Fc 8%nat 2%nat) (Fc 8%nat 3%nat) (Fc 8%nat 4%nat) (Fc 8%nat 5%nat) (Fc 8%nat 6%nat) (Fc 8%nat 7%nat) (Fc 8%nat 8%nat) (Ga 0%nat 0%nat) (Ga 0%nat 1%nat) (Ga 0%nat 2%nat) (Ga 1%nat 0%nat) (Ga 1%nat 1%nat) (Ga 1%nat 2%nat) (Ga 2%nat 0%nat) (Ga 2%nat 1%nat) (Ga 2%nat 2%nat) (Ga 3%nat 0%nat) (Ga 3%nat 1%nat) (Ga 3%nat 2%nat) (Ga 4%nat 0%nat) (Ga 4%nat 1%nat) (Ga 4%nat 2%nat) (Ga 5%nat 0%nat) (Ga 5%nat 1%nat) (Ga 5%nat 2%nat) (Ga 6%nat 0%nat) (Ga 6%nat 1%nat) (Ga 6%nat 2%nat) (Ga 7%nat 0%nat) (Ga 7%nat 1%nat) (Ga 7%nat 2%nat) (Ga 8%nat 0%nat) (Ga 8%nat 1%nat) (Ga 8%nat 2%nat) (Gb 0%nat 0%nat) (Gb 0%nat 1%nat) (Gb 0%nat 2%nat) (Gb 1%nat 0%nat) (Gb 1%nat 1%nat) (Gb 1%nat 2%nat) (Gb 2%nat 0%nat) (Gb 2%nat 1%nat) (Gb 2%nat 2%nat) (Gb 3%nat 0%nat) (Gb 3%nat 1%nat) (Gb 3%nat 2%nat) (Gb 4%nat 0%nat) (Gb 4%nat 1%nat) (Gb 4%nat 2%nat) (Gb 5%nat 0%nat) (Gb 5%nat 1%nat) (Gb 5%nat 2%nat) (Gb 6%nat 0%nat) (Gb 6%nat 1%nat) (Gb 6%nat 2%nat) (Gb 7%nat 0%nat) (Gb 7%nat 1%nat) (Gb 7%nat 2%nat) (Gb 8%nat 0%nat) (Gb 8%nat 1%nat) (Gb 8%nat 2%nat) (Gc 0%nat 0%nat) (Gc 0%nat 1%nat) (Gc 0%nat 2%nat) (Gc 1%nat 0%nat) (Gc 1%nat 1%nat) (Gc 1%nat 2%nat) (Gc 2%nat 0%nat) (Gc 2%nat 1%nat) (Gc 2%nat 2%nat) (Gc 3%nat 0%nat) (Gc 3%nat 1%nat) (Gc 3%nat 2%nat) (Gc 4%nat 0%nat) (Gc 4%nat 1%nat) (Gc 4%nat 2%nat) (Gc 5%nat 0%nat) (Gc 5%nat 1%nat) (Gc 5%nat 2%nat) (Gc 6%nat 0%nat) (Gc 6%nat 1%nat) (Gc 6%nat 2%nat) (Gc 7%nat 0%nat) (Gc 7%nat 1%nat) (Gc 7%nat 2%nat) (Gc 8%nat 0%nat) (Gc 8%nat 1%nat) (Gc 8%nat 2%nat) (Aa 0%nat 0%nat) (Aa 0%nat 1%nat) (Aa 0%nat 2%nat) (Aa 1%nat 0%nat) (Aa 1%nat 1%nat) (Aa 1%nat 2%nat) (Aa 2%nat 0%nat) (Aa 2%nat 1%nat) (Aa 2%nat 2%nat) (Aa 3%nat 0%nat) (Aa 3%nat 1%nat) (Aa 3%nat 2%nat) (Aa 4%nat 0%nat) (Aa 4%nat 1%nat) (Aa 4%nat 2%nat) (Aa 5%nat 0%nat) (Aa 5%nat 1%nat) (Aa 5%nat 2%nat) (Aa 6%nat 0%nat) (Aa 6%nat 1%nat) (Aa 6%nat 2%nat) (Aa 7%nat 0%nat) (Aa 7%nat 1%nat) (Aa 7%nat 2%nat) (Aa 8%nat 0%nat) (Aa 8%nat 1%nat) (Aa 8%nat 2%nat) (Ab 0%nat 0%nat) (Ab 0%nat 1%nat) (Ab 0%nat 2%nat) (Ab 1%nat 0%nat) (Ab 1%nat 1%nat) (Ab 1%nat 2%nat) (Ab 2%nat 0%nat) (Ab 2%nat 1%nat) (Ab 2%nat 2%nat) (Ab 3%nat 0%nat) (Ab 3%nat 1%nat) (Ab 3%nat 2%nat) (Ab 4%nat 0%nat) (Ab 4%nat 1%nat) (Ab 4%nat 2%nat) (Ab 5%nat 0%nat) (Ab 5%nat 1%nat) (Ab 5%nat 2%nat) (Ab 6%nat 0%nat) (Ab 6%nat 1%nat) (Ab 6%nat 2%nat) (Ab 7%nat 0%nat) (Ab 7%nat 1%nat) (Ab 7%nat 2%nat) (Ab 8%nat 0%nat) (Ab 8%nat 1%nat) (Ab 8%nat 2%nat) (Ac 0%nat 0%nat) (Ac 0%nat 1%nat) (Ac 0%nat 2%nat) (Ac 1%nat 0%nat) (Ac 1%nat 1%nat) (Ac 1%nat 2%nat) (Ac 2%nat 0%nat) (Ac 2%nat 1%nat) (Ac 2%nat 2%nat) (Ac 3%nat 0%nat) (Ac 3%nat 1%nat) (Ac 3%nat 2%nat) (Ac 4%nat 0%nat) (Ac 4%nat 1%nat) (Ac 4%nat 2%nat) (Ac 5%nat 0%nat) (Ac 5%nat 1%nat) (Ac 5%nat 2%nat) (Ac 6%nat 0%nat) (Ac 6%nat 1%nat) (Ac 6%nat 2%nat) (Ac 7%nat 0%nat) (Ac 7%nat 1%nat) (Ac 7%nat 2%nat) (Ac 8%nat 0%nat) (Ac 8%nat 1%nat) (Ac 8%nat 2%nat) (x 0%nat) (x 1%nat) (x 2%nat) (x 3%nat) (x 4%nat) (x 5%nat) (x 6%nat) (x 7%nat) (x 8%nat) (eg 0%nat) (eg 1%nat) (eg 2%nat) (ea 0%nat) (ea 1%nat) (ea 2%nat)
  | 5 => prop3d3_x5 dt1 dt2 (Fa 0%nat 0%nat) (Fa 0%nat 1%nat) (Fa 0%nat 2%nat) (Fa 0%nat 3%nat) (Fa 0%nat 4%nat) (Fa 0%nat 5%nat) (Fa 0%nat 6%nat) (Fa 0%nat 7%nat) (Fa 0%nat 8%nat) (Fa 1%nat 0%nat) (Fa 1%nat 1%nat) (Fa 1%nat 2%nat) (Fa 1%nat 3%nat) (Fa 1%nat 4%nat) (Fa 1%nat 5%nat) (Fa 1%nat 6%nat) (Fa 1%nat 7%nat) (Fa 1%nat 8%nat) (Fa 2%nat 0%nat) (Fa 2%nat 1%nat) (Fa 2%nat 2%nat) (Fa 2%nat 3%nat) (Fa 2%nat 4%nat) (Fa 2%nat 5%nat) (Fa 2%nat 6%nat) (Fa 2%nat 7%nat) (Fa 2%nat 8%nat) (Fa 3%nat 0%nat) (Fa 3%nat 1%nat) (Fa 3%nat 2%nat) (Fa 3%nat 3%nat) (Fa 3%nat 4%nat) (Fa 3%nat 5%nat) (Fa 3%nat 6%nat) (Fa 3%nat 7%nat) (Fa 3%nat 8%nat) (Fa 4%nat 0%nat) (Fa 4%nat 1%nat) (Fa 4%nat 2%nat) (Fa 4%nat 3%nat) (Fa 4%nat 4%nat) (Fa 4%nat 5%nat) (Fa 4%nat 6%nat) (Fa 4%nat 7%nat) (Fa 4%nat 8%nat) (Fa 5%nat 0%nat) (Fa 5%nat 1%nat) (Fa 5%nat 2%nat) (Fa 5%nat 3%nat) (Fa 5%nat 4%nat) (Fa 5%nat 5%nat) (Fa 5%nat 6%nat) (Fa 5%nat 7%nat) (Fa 5%nat 8%nat) (Fa 6%nat 0%nat) (Fa 6%nat 1%nat) (Fa 6%nat 2%nat) (Fa 6%nat 3%nat) (Fa 6%nat 4%nat) (Fa 6%nat 5%nat) (Fa 6%nat 6%nat) (Fa 6%nat 7%nat) (Fa 6%nat 8%nat) (Fa 7%nat 0%nat) (Fa 7%nat 1%nat) (Fa 7%nat 2%nat) (Fa 7%nat 3%nat) (Fa 7%nat 4%nat) (Fa 7%nat 5%nat) (Fa 7%nat 6%nat) (Fa 7%nat 7%nat) (Fa 7%nat 8%nat) (Fa 8%nat 0%nat) (Fa 8%nat 1%nat) (Fa 8%nat 2%nat) (Fa 8%nat 3%nat) (Fa 8%nat 4%nat) (Fa 8%nat 5%nat) (Fa 8%nat 6%nat) (Fa 8%nat 7%nat) (Fa 8%nat 8%nat) (Fb 0%nat 0%nat) (Fb 0%nat 1%nat) (Fb 0%nat 2%nat) (Fb 0%nat 3%nat) (Fb 0%nat 4%nat) (Fb 0%nat 5%nat) (Fb 0%nat 6%nat) (Fb 0%nat 7%nat) (Fb 0%nat 8%nat) (Fb 1%nat 0%nat) (Fb 1%nat 1%nat) (Fb 1%nat 2%nat) (Fb 1%nat 3%nat) (Fb 1%nat 4%nat) (Fb 1%nat 5%nat) (Fb 1%nat 6%nat) (Fb 1%nat 7%nat) (Fb 1%nat 8%nat) (Fb 2%nat 0%nat) (Fb 2%nat 1%nat) (Fb 2%nat 2%nat) (Fb 2%nat 3%nat) (Fb 2%nat 4%nat) (Fb 2%nat 5%nat) (Fb 2%nat 6%nat) (Fb 2%nat 7%nat) (Fb 2%nat 8%nat) (Fb 3%nat 0%nat) (Fb 3%nat 1%nat) (Fb 3%nat 2%nat) (Fb 3%nat 3%nat) (Fb 3%nat 4%nat) (Fb 3%nat 5%nat) (Fb 3%nat 6%nat) (Fb 3%nat 7%nat) (Fb 3%nat 8%nat) (Fb 4%nat 0%nat) (Fb 4%nat 1%nat) (Fb 4%nat 2%nat) (Fb 4%nat 3%nat) (Fb 4%nat 4%nat) (Fb 4%nat 5%nat) (Fb 4%nat 6%nat) (Fb 4%nat 7%nat) (Fb 4%nat 8%nat) (Fb 5%nat 0%nat) (Fb 5%nat 1%nat) (Fb 5%nat 2%nat) (Fb 5%nat 3%nat) (Fb 5%nat 4%nat) (Fb 5%nat 5%nat) (Fb 5%nat 6%nat) (Fb 5%nat 7%nat) (Fb 5%nat 8%nat) (Fb 6%nat 0%nat) (Fb 6%nat 1%nat) (Fb 6%nat 2%nat) (Fb 6%nat 3%nat) (Fb 6%nat 4%nat) (Fb 6%nat 5%nat) (Fb 6%nat 6%nat) (Fb 6%nat 7%nat) (Fb 6%nat 8%nat) (Fb 7%nat 0%nat) (Fb 7%nat 1%nat) (Fb 7%nat 2%nat) (Fb 7%nat 3%nat) (Fb 7%nat 4%nat) (Fb 7%nat 5%nat) (Fb 7%nat 6%nat) (Fb 7%nat 7%nat) (Fb 7%nat 8%nat) (Fb 8%nat 0%nat) (Fb 8%nat 1%nat) (Fb 8%nat 2%nat) (Fb 8%nat 3%nat) (Fb 8%nat 4%nat) (Fb 8%nat 5%nat) (Fb 8%nat 6%nat) (Fb 8%nat 7%nat) (Fb 8%nat 8%nat) (Fc 0%nat 0%nat) (Fc 0%nat 1%nat) (Fc 0%nat 2%nat) (Fc 0%nat 3%nat) (Fc 0%nat 4%nat) (Fc 0%nat 5%nat) (Fc 0%nat 6%nat) (Fc 0%nat 7%nat) (Fc 0%nat 8%nat) (Fc 1%nat 0%nat) (Fc 1%nat 1%nat) (Fc 1%nat 2%nat) (Fc 1%nat 3%nat) (Fc 1%nat 4%nat) (Fc 1%nat 5%nat) (Fc 1%nat 6%nat) (Fc 1%nat 7%nat) (Fc 1%nat 8%nat) (Fc 2%nat 0%nat) (Fc 2%nat 1%nat) (Fc 2%nat 2%nat) (Fc 2%nat 3%nat) (Fc 2%nat 4%nat) (Fc 2%nat 5%nat) (Fc 2%nat 6%nat) (Fc 2%nat 7%nat) (Fc 2%nat 8%nat) (Fc 3%nat 0%nat) (Fc 3%nat 1%nat) (Fc 3%nat 2%nat) (Fc 3%nat 3%nat) (Fc 3%nat 4%nat) (Fc 3%nat 5%nat) (Fc 3%nat 6%nat) (Fc 3%nat 7%nat) (Fc 3%nat 8%nat) (Fc 4%nat 0%nat) (Fc 4%nat 1%nat) (Fc 4%nat 2%nat) (Fc 4%nat 3%nat) (Fc 4%nat 4%nat) (Fc 4%nat 5%nat) (Fc 4%nat 6%nat) (Fc 4%nat 7%nat) (Fc 4%nat 8%nat) (Fc 5%nat 0%nat) (Fc 5%nat 1%nat) (Fc 5%nat 2%nat) (Fc 5%nat 3%nat) (Fc 5%nat 4%nat) (Fc 5%nat 5%nat) (Fc 5%nat 6%nat) (Fc 5%nat 7%nat) (Fc 5%nat 8%nat) (Fc 6%nat 0%nat) (Fc 6%nat 1%nat) (Fc 6%nat 2%nat) (Fc 6%nat 3%nat) (Fc 6%nat 4%nat) (Fc 6%nat 5%nat) (Fc 6%nat 6%nat) (Fc 6%nat 7%nat) (Fc 6%nat 8%nat) (Fc 7%nat 0%nat) (Fc 7%nat 1%nat) (Fc 7%nat 2%nat) (Fc 7%nat 3%nat) (Fc 7%nat 4%nat) (Fc 7%nat 5%nat) (Fc 7%nat 6%nat) (Fc 7%nat 7%nat) (Fc 7%nat 8%nat) (Fc 8%nat 0%nat) (Fc 8%nat 1%nat) (Fc 8%nat 2%nat) (Fc 8%nat 3%nat) (Fc 8%nat 4%nat) (Fc 8%nat 5%nat) (Fc 8%nat 6%nat) (Fc 8%nat 7%nat) (Fc 8%nat 8%nat) (Ga 0%nat 0%nat) (Ga 0%nat 1%nat) (Ga 0%nat 2%nat) (Ga 1%nat 0%nat) (Ga 1%nat 1%nat) (Ga 1%nat 2%nat) (Ga 2%nat 0%nat) (Ga 2%nat 1%nat) (Ga 2%nat 2%nat) (Ga 3%nat 0%nat) (Ga 3%nat 1%nat) (Ga 3%nat 2%nat) (Ga 4%nat 0%nat) (Ga 4%nat 1%nat) (Ga 4%nat 2%nat) (Ga 5%nat 0%nat) (Ga 5%nat 1%nat) (Ga 5%nat 2%nat) (Ga 6%nat 0%nat) (Ga 6%nat 1%nat) (Ga 6%nat 2%nat) (Ga 7%nat 0%nat) (Ga 7%nat 1%nat) (Ga 7%nat 2%nat) (Ga 8%nat 0%nat) (Ga 8%nat 1%nat) (Ga 8%nat 2%nat) (Gb 0%nat 0%nat) (Gb 0%nat 1%nat) (Gb 0%nat 2%nat) (Gb 1%nat 0%nat) (Gb 1%nat 1%nat) (Gb 1%nat 2%nat) (Gb 2%nat 0%nat) (Gb 2%nat 1%nat) (Gb 2%nat 2%nat) (Gb 3%nat 0%nat) (Gb 3%nat 1%nat) (Gb 3%nat 2%nat) (Gb 4%nat 0%nat) (Gb 4%nat 1%nat) (Gb 4%nat 2%nat) (Gb 5%nat 0%nat) (Gb 5%nat 1%nat) (Gb 5%nat 2%nat) (Gb 6%nat 0%nat) (Gb 6%nat 1%nat) (Gb 6%nat 2%nat) (Gb 7%nat 0%nat) (Gb 7%nat 1%nat) (Gb 7%nat 2%nat) (Gb 8%nat 0%nat) (Gb 8%nat 1%nat) (Gb 8%nat 2%nat) (Gc 0%nat 0%nat) (Gc 0%nat 1%nat) (Gc 0%nat 2%nat) (Gc 1%nat 0%nat) (Gc 1%nat 1%nat) (Gc 1%nat 2%nat) (Gc 2%nat 0%nat) (Gc 2%nat 1%nat) (Gc 2%nat 2%nat) (Gc 3%nat 0%nat) (Gc 3%nat 1%nat) (Gc 3%nat 2%nat) (Gc 4%nat 0%nat) (Gc 4%nat 1%nat) (Gc 4%nat 2%nat) (Gc 5%nat 0%nat) (Gc 5%nat 1%nat) (Gc 5%nat 2%nat) (Gc 6%nat 0%nat) (Gc 6%nat 1%nat) (Gc 6%nat 2%nat) (Gc 7%nat 0%nat) (Gc 7%nat 1%nat) (Gc 7%nat 2%nat) (Gc 8%nat 0%nat) (Gc 8%nat 1%nat) (Gc 8%nat 2%nat) (Aa 0%nat 0%nat) (Aa 0%nat 1%nat) (Aa 0%nat 2%nat) (Aa 1%nat 0%nat) (Aa 1%nat 1%nat) (Aa 1%nat 2%nat) (Aa 2%nat 0%nat) (Aa 2%nat 1%nat) (Aa 2%nat 2%nat) (Aa 3%nat 0%nat) (Aa 3%nat 1%nat) (Aa 3%nat 2%nat) (Aa 4%nat 0%nat) (Aa 4%nat 1%nat) (Aa 4%nat 2%nat) (Aa 5%nat 0%nat) (Aa 5%nat 1%nat) (Aa 5%nat 2%nat) (Aa 6%nat 0%nat) (Aa 6%nat 1%nat) (Aa 6%nat 2%nat) (Aa 7%nat 0%nat) (Aa 7%nat 1%nat) (Aa 7%nat 2%nat) (Aa 8%nat 0%nat) (Aa 8%nat 1%nat) (Aa 8%nat 2%nat) (Ab 0%nat 0%nat) (Ab 0%nat 1%nat) (Ab 0%nat 2%nat) (Ab 1%nat 0%nat) (Ab 1%nat 1%nat) (Ab 1%nat 2%nat) (Ab 2%nat 0%nat) (Ab 2%nat 1%nat) (Ab 2%nat 2%nat) (Ab 3%nat 0%nat) (Ab 3%nat 1%nat) (Ab 3%nat 2%nat) (Ab 4%nat 0%nat) (Ab 4%nat 1%nat) (Ab 4%nat 2%nat) (Ab 5%nat 0%nat) (Ab 5%nat 1%nat) (Ab 5%nat 2%nat) (Ab 6%nat 0%nat) (Ab 6%nat 1%nat) (Ab 6%nat 2%nat) (Ab 7%nat 0%nat) (Ab 7%nat 1%nat) (Ab 7%nat 2%nat) (Ab 8%nat 0%nat) (Ab 8%nat 1%nat) (Ab 8%nat 2%nat) (Ac 0%nat 0%nat) (Ac 0%nat 1%nat) (Ac 0%nat 2%nat) (Ac 1%nat 0%nat) (Ac 1%nat 1%nat) (Ac 1%nat 2%nat) (Ac 2%nat 0%nat) (Ac 2%nat 1%nat) (Ac 2%nat 2%nat) (Ac 3%nat 0%nat) (Ac 3%nat 1%nat) (Ac 3%nat 2%nat) (Ac 4%nat 0%nat) (Ac 4%nat 1%nat) (Ac 4%nat 2%nat) (Ac 5%nat 0%nat) (Ac 5%nat 1%nat) (Ac 5%nat 2%nat) (Ac 6%nat 0%nat) (Ac 6%nat 1%nat) (Ac 6%nat 2%nat) (Ac 7%nat 0%nat) (Ac 7%nat 1%nat) (Ac 7%nat 2%nat) (Ac 8%nat 0%nat) (Ac 8%nat 1%nat) (Ac 8%nat 2%nat) (x 0%nat) (x 1%nat) (x 2%nat) (x 3%nat) (x 4%nat) (x 5%nat) (x 6%nat) (x 7%nat) (x 8%nat) (eg 0%nat) (eg 1%nat) (eg 2%nat) (ea 0%nat) (ea 1%nat) (ea 2%nat)
  | 6 => prop3d3_x6 dt1 dt2 (Fa 0%nat 0%nat) (Fa 0%nat 1%nat) (Fa 0%nat 2%nat) (Fa 0%nat 3%nat) (Fa 0%nat 4%nat) (Fa 0%nat 5%nat) (Fa 0%nat 6%nat) (Fa 0%nat 7%nat) (Fa 0%nat 8%nat) (Fa 1%nat 0%nat) (Fa 1%nat 1%nat) (Fa 1%nat 2%nat) (Fa 1%nat 3%nat) (Fa 1%nat 4%nat) (Fa 1%nat 5%nat) (Fa 1%nat 6%nat) (Fa 1%nat 7%nat) (Fa 1%nat 8%nat) (Fa 2%nat 0%nat) (Fa 2%nat 1%nat) (Fa 2%nat 2%nat) (Fa 2%nat 3%nat) (Fa 2%nat 4%nat) (Fa 2%nat 5%nat) (Fa 2%nat 6%nat) (Fa 2%nat 7%nat) (Fa 2%nat 8%nat) (Fa 3%nat 0%nat) (Fa 3%nat 1%nat) (Fa 3%nat 2%nat) (Fa 3%nat 3%nat) (Fa 3%nat 4%nat) (Fa 3%nat 5%nat) (Fa 3%nat 6%nat) (Fa 3%nat 7%nat) (Fa 3%nat 8%nat) (Fa 4%nat 0%nat) (Fa 4%nat 1%nat) (Fa 4%nat 2%nat) (Fa 4%nat 3%nat) (Fa 4%nat 4%nat) (Fa 4%nat 5%nat) (Fa 4%nat 6%nat) (Fa 4%nat 7%nat) (Fa 4%nat 8%nat) (Fa 5%nat 0%nat) (Fa 5%nat 1%nat) (Fa 5%nat 2%nat) (Fa 5%nat 3%nat) (Fa 5%nat 4%nat) (Fa 5%nat 5%nat) (Fa 5%nat 6%nat) (Fa 5%nat 7%nat) (Fa 5%nat 8%nat) (Fa 6%nat 0%nat) (Fa 6%nat 1%nat) (Fa 6%nat 2%nat) (Fa 6%nat 3%nat) (Fa 6%nat 4%nat) (Fa 6%nat 5%nat) (Fa 6%nat 6%nat) (Fa 6%nat 7%nat) (Fa 6%nat 8%nat) (Fa 7%nat 0%nat) (Fa 7%nat 1%nat) (Fa 7%nat 2%nat) (Fa 7%nat 3%nat) (Fa 7%nat 4%nat) (Fa 7%nat 5%nat) (Fa 7%nat 6%nat) (Fa 7%nat 7%nat) (Fa 7%nat 8%nat) (Fa 8%nat 0%nat) (Fa 8%nat 1%nat) (Fa 8%nat 2%nat) (Fa 8%nat 3%nat) (Fa 8%nat 4%nat) (Fa 8%nat 5%nat) (Fa 8%nat 6%nat) (Fa 8%nat 7%nat) (Fa 8%nat 8%nat) (Fb 0%nat 0%nat) (Fb 0%nat 1%nat) (Fb 0%nat 2%nat) (Fb 0%nat 3%nat) (Fb 0%nat 4%nat) (Fb 0%nat 5%nat) (Fb 0%nat 6%nat) (Fb 0%nat 7%nat) (Fb 0%nat 8%nat) (Fb 1%nat 0%nat) (Fb 1%nat 1%nat) (Fb 1%nat 2%nat) (Fb 1%nat 3%nat) (Fb 1%nat 4%nat) (Fb 1%nat 5%nat) (Fb 1%nat 6%nat) (Fb 1%nat 7%nat) (Fb 1%nat 8%nat) (Fb 2%nat 0%nat) (Fb 2%nat 1%nat) (Fb 2%nat 2%nat) (Fb 2%nat 3%nat) (Fb 2%nat 4%nat) (Fb 2%nat 5%nat) (Fb 2%nat 6%nat) (Fb 2%nat 7%nat) (Fb 2%nat 8%nat) (Fb 3%nat 0%nat) (Fb 3%nat 1%nat) (Fb 3%nat 2%nat) (Fb 3%nat 3%nat) (Fb 3%nat 4%nat) (Fb 3%nat 5%nat) (Fb 3%nat 6%nat) (Fb 3%nat 7%nat) (Fb 3%nat 8%nat) (Fb 4%nat 0%nat) (Fb 4%nat 1%nat) (Fb 4%nat 2%nat) (Fb 4%nat 3%nat) (Fb 4%nat 4%nat) (Fb 4%nat 5%nat) (Fb 4%nat 6%nat) (Fb 4%nat 7%nat) (Fb 4%nat 8%nat) (Fb 5%nat 0%nat) (Fb 5%nat 1%nat) (Fb 5%nat 2%nat) (Fb 5%nat 3%nat) (Fb 5%nat 4%nat) (Fb 5%nat 5%nat) (Fb 5%nat 6%nat) (Fb 5%nat 7%nat) (Fb 5%nat 8%nat) (Fb 6%nat 0%nat) (Fb 6%nat 1%nat) (Fb 6%nat 2%nat) (Fb 6%nat 3%nat) (Fb 6%nat 4%nat) (Fb 6%nat 5%nat) (Fb 6%nat 6%nat) (Fb 6%nat 7%nat) (Fb 6%nat 8%nat) (Fb 7%nat 0%nat) (Fb 7%nat 1%nat) (Fb 7%nat 2%nat) (Fb 7%nat 3%nat) (Fb 7%nat 4%nat) (Fb 7%nat 5%nat) (Fb 7%nat 6%nat) (Fb 7%nat 7%nat) (Fb 7%nat 8%nat) (Fb 8%nat 0%nat) (Fb 8%nat 1%nat) (Fb 8%nat 2%nat) (Fb 8%nat 3%nat) (Fb 8%nat 4%nat) (Fb 8%nat 5%nat) (Fb 8%nat 6%nat) (Fb 8%nat 7%nat) (Fb 8%nat 8%nat) (Fc 0%nat 0%nat) (Fc 0%nat 1%nat) (Fc 0%nat 2%nat) (Fc 0%nat 3%nat) (Fc 0%nat 4%nat) (Fc 0%nat 5%nat) (Fc 0%nat 6%nat) (Fc 0%nat 7%nat) (Fc 0%nat 8%nat) (Fc 1%nat 0%nat) (Fc 1%nat 1%nat) (Fc 1%nat 2%nat) (Fc 1%nat 3%nat) (Fc 1%nat 4%nat) (Fc 1%nat 5%nat) (Fc 1%nat 6%nat) (Fc 1%nat 7%nat) (Fc 1%nat 8%nat) (Fc 2%nat 0%nat) (Fc 2%nat 1%nat) (Fc 2%nat 2%nat) (Fc 2%nat 3%nat) (Fc 2%nat 4%nat) (Fc 2%nat 5%nat) (Fc 2%nat 6%nat) (Fc 2%nat 7%nat) (Fc 2%nat 8%nat) (Fc 3%nat 0%nat) (Fc 3%nat 1%nat) (Fc 3%nat 2%nat) (Fc 3%nat 3%nat) (Fc 3%nat 4%nat) (Fc 3%nat 5%nat) (Fc 3%nat 6%nat) (Fc 3%nat 7%nat) (Fc 3%nat 8%nat) (Fc 4%nat 0%nat) (Fc 4%nat 1%nat) (Fc 4%nat 2%nat) (Fc 4%nat 3%nat) (Fc 4%nat 4%nat) (Fc 4%nat 5%nat) (Fc 4%nat 6%nat) (Fc 4%nat 7%nat) (Fc 4%nat 8%nat) (Fc 5%nat 0%nat) (Fc 5%nat 1%nat) (Fc 5%nat 2%nat) (Fc 5%nat 3%nat) (Fc 5%nat 4%nat) (Fc 5%nat 5%nat) (Fc 5%nat 6%nat) (Fc 5%nat 7%nat) (Fc 5%nat 8%nat) (Fc 6%nat 0%nat) (Fc 6%nat 1%nat) (Fc 6%nat 2%nat) (Fc 6%nat 3%nat) (Fc 6%nat 4%nat) (Fc 6%nat 5%nat) (Fc 6%nat 6%nat) (Fc 6%nat 7%nat) (Fc 6%nat 8%nat) (Fc 7%nat 0%nat) (Fc 7%nat 1%nat) (Fc 7%nat 2%nat) (Fc 7%nat 3%nat) (Fc 7%nat 4%nat) (Fc 7%nat 5%nat) (Fc 7%nat 6%nat) (Fc 7%nat 7%nat) (Fc 7%nat 8%nat) (Fc 8%nat 0%nat) (Fc 8%nat 1%nat) (Fc 8%nat 2%nat) (Fc 8%nat 3%nat) (Fc 8%nat 4%nat) (Fc 8%nat 5%nat) (Fc 8%nat 6%nat) (Fc 8%nat 7%nat) (Fc 8%nat 8%nat) (Ga 0%nat 0%nat) (Ga 0%nat 1%nat) (Ga 0%nat 2%nat) (Ga 1%nat 0%nat) (Ga 1%nat 1%nat) (Ga 1%nat 2%nat) (Ga 2%nat 0%nat) (Ga 2%nat 1%nat) (Ga 2%nat 2%nat) (Ga 3%nat 0%nat) (Ga 3%nat 1%nat) (Ga 3%nat 2%nat) (Ga 4%nat 0%nat) (Ga 4%nat 1%nat) (Ga 4%nat 2%nat) (Ga 5%nat 0%nat) (Ga 5%nat 1%nat) (Ga 5%nat 2%nat) (Ga 6%nat 0%nat) (Ga 6%nat 1%nat) (Ga 6%nat 2%nat) (Ga 7%nat 0%nat) (Ga 7%nat 1%nat) (Ga 7%nat 2%nat) (Ga 8%nat 0%nat) (Ga 8%nat 1%nat) (Ga 8%nat 2%nat) (Gb 0%nat 0%nat) (Gb 0%nat 1%nat) (Gb 0%nat 2%nat) (Gb 1%nat 0%nat) (Gb 1%nat 1%nat) (Gb 1%nat 2%nat) (Gb 2%nat 0%nat) (Gb 2%nat 1%nat) (Gb 2%nat 2%nat) (Gb 3%nat 0%nat) (Gb 3%nat 1%nat) (Gb 3%nat 2%nat) (Gb 4%nat 0%nat) (Gb 4%nat 1%nat) (Gb 4%nat 2%nat) (Gb 5%nat 0%nat) (Gb 5%nat 1%nat) (Gb 5%nat 2%nat) (Gb 6%nat 0%nat) (Gb 6%nat 1%nat) (Gb 6%nat 2%nat) (Gb 7%nat 0%nat) (Gb 7%nat 1%nat) (Gb 7%nat 2%nat) (Gb 8%nat 0%nat) (Gb 8%nat 1%nat) (Gb 8%nat 2%nat) (Gc 0%nat 0%nat) (Gc 0%nat 1%nat) (Gc 0%nat 2%nat) (Gc 1%nat 0%nat) (Gc 1%nat 1%nat) (Gc 1%nat 2%nat) (Gc 2%nat 0%nat) (Gc 2%nat 1%nat) (Gc 2%nat 2%nat) (Gc 3%nat 0%nat) (Gc 3%nat 1%nat) (Gc 3%nat 2%nat) (Gc 4%nat 0%nat) (Gc 4%nat 1%nat) (Gc 4%nat 2%nat) (Gc 5%nat 0%nat) (Gc 5%nat 1%nat) (Gc 5%nat 2%nat) (Gc 6%nat 0%nat) (Gc 6%nat 1%nat) (Gc 6%nat 2%nat) (Gc 7%nat 0%nat) (Gc 7%nat 1%nat) (Gc 7%nat 2%nat) (Gc 8%nat 0%nat) (Gc 8%nat 1%nat) (Gc 8%nat 2%nat) (Aa 0%nat 0%nat) (Aa 0%nat 1%nat) (Aa 0%nat 2%nat) (Aa 1%nat 0%nat) (Aa 1%nat 1%nat) (Aa 1%nat 2%nat) (Aa 2%nat 0%nat) (Aa 2%nat 1%nat) (Aa 2%nat 2%nat) (Aa 3%nat 0%nat) (Aa 3%nat 1%nat) (Aa 3%nat 2%nat) (Aa 4%nat 0%nat) (Aa 4%nat 1%nat) (Aa 4%nat 2%nat) (Aa 5%nat 0%nat) (Aa 5%nat 1%nat) (Aa 5%nat 2%nat) (Aa 6%nat 0%nat) (Aa 6%nat 1%nat) (Aa 6%nat 2%nat) (Aa 7%nat 0%nat) (Aa 7%nat 1%nat) (Aa 7%nat 2%nat) (Aa 8%nat 0%nat) (Aa 8%nat 1%nat) (Aa 8%nat 2%nat) (Ab 0%nat 0%nat) (Ab 0%nat 1%nat) (Ab 0%nat 2%nat) (Ab 1%nat 0%nat) (Ab 1%nat 1%nat) (Ab 1%nat 2%nat) (Ab 2%nat 0%nat) (Ab 2%nat 1%nat) (Ab 2%nat 2%nat) (Ab 3%nat 0%nat) (Ab 3%nat 1%nat) (Ab 3%nat 2%nat) (Ab 4%nat 0%nat) (Ab 4%nat 1%nat) (Ab 4%nat 2%nat) (Ab 5%nat 0%nat) (Ab 5%nat 1%nat) (Ab 5%nat 2%nat) (Ab 6%nat 0%nat) (Ab 6%nat 1%nat) (Ab 6%nat 2%nat) (Ab 7%nat 0%nat) (Ab 7%nat 1%nat) (Ab 7%nat 2%nat) (Ab 8%nat 0%nat) (Ab 8%nat 1%nat) (Ab 8%nat 2%nat) (Ac 0%nat 0%nat) (Ac 0%nat 1%nat) (Ac 0%nat 2%nat) (Ac 1%nat 0%nat) (Ac 1%nat 1%nat) (Ac 1%nat 2%nat) (Ac 2%nat 0%nat) (Ac 2%nat 1%nat) (Ac 2%nat 2%nat) (Ac 3%nat 0%nat) (Ac 3%nat 1%nat) (Ac 3%nat 2%nat) (Ac 4%nat 0%nat) (Ac 4%nat 1%nat) (Ac 4%nat 2%nat) (Ac 5%nat 0%nat) (Ac 5%nat 1%nat) (Ac 5%nat 2%nat) (Ac 6%nat 0%nat) (Ac 6%nat 1%nat) (Ac 6%nat 2%nat) (Ac 7%nat 0%nat) (Ac 7%nat 1%nat) (Ac 7%nat 2%nat) (Ac 8%nat 0%nat) (Ac 8%nat 1%nat) (Ac 8%nat 2%nat) (x 0%nat) (x 1%nat) (x 2%nat) (x 3%nat) (x 4%nat) (x 5%nat) (x 6%nat) (x 7%nat) (x 8%nat) (eg 0%nat) (eg 1%nat) (eg 2%nat) (ea 0%nat) (ea 1%nat) (ea 2%nat)
  | 7 => prop3d3_x7 dt1 dt2 (Fa 0%nat 0%nat) (Fa 0%nat 1%nat) (Fa 0%nat 2%nat) (Fa 0%nat 3%nat) (Fa 0%nat 4%nat) (Fa 0%nat 5%nat) (Fa 0%nat 6%nat) (Fa 0%nat 7%nat) (Fa 0%nat 8%nat) (Fa 1%nat 0%nat) (Fa 1%nat 1%nat) (Fa 1%nat 2%nat) (Fa 1%nat 3%nat) (Fa 1%nat 4%nat) (Fa 1%nat 5%nat) (Fa 1%nat 6%nat) (Fa 1%nat 7%nat) (Fa 1%nat 8%nat) (Fa 2%nat 0%nat) (Fa 2%nat 1%nat) (Fa 2%nat 2%nat) (Fa 2%nat 3%nat) (Fa 2%nat 4%nat) (Fa 2%nat 5%nat) (Fa 2%nat 6%nat) (Fa 2%nat 7%nat) (Fa 2%nat 8%nat) (Fa 3%nat 0%nat) (Fa 3%nat 1%nat) (Fa 3%nat 2%nat) (Fa 3%nat 3%nat) (Fa 3%nat 4%nat) (Fa 3%nat 5%nat) (Fa 3%nat 6%nat) (Fa 3%nat 7%nat) (Fa 3%nat 8%nat) (Fa 4%nat 0%nat) (Fa 4%nat 1%nat) (Fa 4%nat 2%nat) (Fa 4%nat 3%nat) (Fa 4%nat 4%nat) (Fa 4%nat 5%nat) (Fa 4%nat 6%nat) (Fa 4%nat 7%nat) (Fa 4%nat 8%nat) (Fa 5%nat 0%nat) (Fa 5%nat 1%nat) (Fa 5%nat 2%nat) (Fa 5%nat 3%nat) (Fa 5%nat 4%nat) (Fa 5%nat 5%nat) (Fa 5%nat 6%nat) (Fa 5%nat 7%nat) (Fa 5%nat 8%nat) (Fa 6%nat 0%nat) (Fa 6%nat 1%nat) (Fa 6%nat 2%nat) (Fa 6%nat 3%nat) (Fa 6%nat 4%nat) (Fa 6%nat 5%nat) (Fa 6%nat 6%nat) (Fa 6%nat 7%nat) (Fa 6%nat 8%nat) (Fa 7%nat 0%nat) (Fa 7%nat 1%nat) (Fa 7%nat 2%nat) (Fa 7%nat 3%nat) (Fa 7%nat 4%nat) (Fa 7%nat 5%nat) (Fa 7%nat 6%nat) (Fa 7%nat 7%nat) (Fa 7%nat 8%nat) (Fa 8%nat 0%nat) (Fa 8%nat 1%nat) (Fa 8%nat 2%nat) (Fa 8%nat 3%nat) (Fa 8%nat 4%nat) (Fa 8%nat 5%nat) (Fa 8%nat 6%nat) (Fa 8%nat 7%nat) (Fa 8%nat 8%nat) (Fb 0%nat 0%nat) (Fb 0%nat 1%nat) (Fb 0%nat 2%nat) (Fb 0%nat 3%nat) (Fb 0%nat 4%nat) (Fb 0%nat 5%nat) (Fb 0%nat 6%nat) (Fb 0%nat 7%nat) (Fb 0%nat 8%nat) (Fb 1%nat 0%nat) (Fb 1%nat 1%nat) (Fb 1%nat 2%nat) (Fb 1%nat 3%nat) (Fb 1%nat 4%nat) (Fb 1%nat 5%nat) (Fb 1%nat 6%nat) (Fb 1%nat 7%nat) (Fb 1%nat 8%nat) (Fb 2%nat 0%nat) (Fb 2%nat 1%nat) (Fb 2%nat 2%nat) (Fb 2%nat 3%nat) (Fb 2%nat 4%nat) (Fb 2%nat 5%nat) (Fb 2%nat 6%nat) (Fb 2%nat 7%nat) (Fb 2%nat 8%nat) (Fb 3%nat 0%nat) (Fb 3%nat 1%nat) (Fb 3%nat 2%nat) (Fb 3%nat 3%nat) (Fb 3%nat 4%nat) (Fb 3%nat 5%nat) (Fb 3%nat 6%nat) (Fb 3%nat 7%nat) (Fb 3%nat 8%nat) (Fb 4%nat 0%nat) (Fb 4%nat 1%nat) (Fb 4%nat 2%nat) (Fb 4%nat 3%nat) (Fb 4%nat 4%nat) (Fb 4%nat 5%nat) (Fb 4%nat 6%nat) (Fb 4%nat 7%nat) (Fb 4%nat 8%nat) (Fb 5%nat 0%nat) (Fb 5%nat 1%nat) (Fb 5%nat 2%nat) (Fb 5%nat 3%nat) (Fb 5%nat 4%nat) (Fb 5%nat 5%nat) (Fb 5%nat 6%nat) (Fb 5%nat 7%nat) (Fb 5%nat 8%nat) (Fb 6%nat 0%nat) (Fb 6%nat 1%nat) (Fb 6%nat 2%nat) (Fb 6%nat 3%nat) (Fb 6%nat 4%nat) (Fb 6%nat 5%nat) (Fb 6%nat 6%nat) (Fb 6%nat 7%nat) (Fb 6%nat 8%nat) (Fb 7%nat 0%nat) (Fb 7%nat 1%nat) (Fb 7%nat 2%nat) (Fb 7%nat 3%nat) (Fb 7%nat 4%nat) (Fb 7%nat 5%nat) (Fb 7%nat 6%nat) (Fb 7%nat 7%nat) (Fb 7%nat 8%nat) (Fb 8%nat 0%nat) (Fb 8%nat 1%nat) (Fb 8%nat 2%nat) (Fb 8%nat 3%nat) (Fb 8%nat 4%nat) (Fb 8%nat 5%nat) (Fb 8%nat 6%nat) (Fb 8%nat 7%nat) (Fb 8%nat 8%nat) (Fc 0%nat 0%nat) (Fc 0%nat 1%nat) (Fc 0%nat 2%nat) (Fc 0%nat 3%nat) (Fc 0%nat 4%nat) (Fc 0%nat 5%nat) (Fc 0%nat 6%nat) (Fc 0%nat 7%nat) (Fc 0%nat 8%nat) (Fc 1%nat 0%nat) (Fc 1%nat 1%nat) (Fc 1%nat 2%nat) (Fc 1%nat 3%nat) (Fc 1%nat 4%nat) (Fc 1%nat 5%nat) (Fc 1%nat 6%nat) (Fc 1%nat 7%nat) (Fc 1%nat 8%nat) (Fc 2%nat 0%nat) (Fc 2%nat 1%nat) (Fc 2%nat 2%nat) (Fc 2%nat 3%nat) (Fc 2%nat 4%nat) (Fc 2%nat 5%nat) (Fc 2%nat 6%nat) (Fc 2%nat 7%nat) (Fc 2%nat 8%nat) (Fc 3%nat 0%nat) (Fc 3%nat 1%nat) (Fc 3%nat 2%nat) (Fc 3%nat 3%nat) (Fc 3%nat 4%nat) (Fc 3%nat 5%nat) (Fc 3%nat 6%nat) (Fc 3%nat 7%nat) (Fc 3%nat 8%nat) (Fc 4%nat 0%nat) (Fc 4%nat 1%nat) (Fc 4%nat 2%nat) (Fc 4%nat 3%nat) (Fc 4%nat 4%nat) (Fc 4%nat 5%nat) (Fc 4%nat 6%nat) (Fc 4%nat 7%nat) (Fc 4%nat 8%nat) (Fc 5%nat 0%nat) (Fc 5%nat 1%nat) (Fc 5%nat 2%nat) (Fc 5%nat 3%nat) (Fc 5%nat 4%nat) (Fc 5%nat 5%nat) (Fc 5%nat 6%nat) (Fc 5%nat 7%nat) (Fc 5%nat 8%nat) (Fc 6%nat 0%nat) (Fc 6%nat 1%nat) (Fc 6%nat 2%nat) (Fc 6%nat 3%nat) (Fc 6%nat 4%nat) (Fc 6%nat 5%nat) (Fc 6%nat 6%nat) (Fc 6%nat 7%nat) (Fc 6%nat 8%nat) (Fc 7%nat 0%nat) (Fc 7%nat 1%nat) (Fc 7%nat 2%nat) (Fc 7%nat 3%nat) (Fc 7%nat 4%nat) (Fc 7%nat 5%nat) (Fc 7%nat 6%nat) (Fc 7%nat 7%nat) (Fc 7%nat 8%nat) (Fc 8%nat 0%nat) (Fc 8%nat 1%nat) (Fc 8%nat 2%nat) (Fc 8%nat 3%nat) (Fc 8%nat 4%nat) (Fc 8%nat 5%nat) (Fc 8%nat 6%nat) (Fc 8%nat 7%nat) (Fc 8%nat 8%nat) (Ga 0%nat 0%nat) (Ga 0%nat 1%nat) (Ga 0%nat 2%nat) (Ga 1%nat 0%nat) (Ga 1%nat 1%nat) (Ga 1%nat 2%nat) (Ga 2%nat 0%nat) (Ga 2%nat 1%nat) (Ga 2%nat 2%nat) (Ga 3%nat 0%nat) (Ga 3%nat 1%nat) (Ga 3%nat 2%nat) (Ga 4%nat 0%nat) (Ga 4%nat 1%nat) (Ga 4%nat 2%nat) (Ga 5%nat 0%nat) (Ga 5%nat 1%nat) (Ga 5%nat 2%nat) (Ga 6%nat 0%nat) (Ga 6%nat 1%nat) (Ga 6%nat 2%nat) (Ga 7%nat 0%nat) (Ga 7%nat 1%nat) (Ga 7%nat 2%nat) (Ga 8%nat 0%nat) (Ga 8%nat 1%nat) (Ga 8%nat 2%nat) (Gb 0%nat 0%nat) (Gb 0%nat 1%nat) (Gb 0%nat 2%nat) (Gb 1%nat 0%nat) (Gb 1%nat 1%nat) (Gb 1%nat 2%nat) (Gb 2%nat 0%nat) (Gb 2%nat 1%nat) (Gb 2%nat 2%nat) (Gb 3%nat 0%nat) (Gb 3%nat 1%nat) (Gb 3%nat 2%nat) (Gb 4%nat 0%nat) (Gb 4%nat 1%nat) (Gb 4%nat 2%nat) (Gb 5%nat 0%nat) (Gb 5%nat 1%nat) (Gb 5%nat 2%nat) (Gb 6%nat 0%nat) (Gb 6%nat 1%nat) (Gb 6%nat 2%nat) (Gb 7%nat 0%nat) (Gb 7%nat 1%nat) (Gb 7%nat 2%nat) (Gb 8%nat 0%nat) (Gb 8%nat 1%nat) (Gb 8%nat 2%nat) (Gc 0%nat 0%nat) (Gc 0%nat 1%nat) (Gc 0%nat 2%nat) (Gc 1%nat 0%nat) (Gc 1%nat 1%nat) (Gc 1%nat 2%nat) (Gc 2%nat 0%nat) (Gc 2%nat 1%nat) (Gc 2%nat 2%nat) (Gc 3%nat 0%nat) (Gc 3%nat 1%nat) (Gc 3%nat 2%nat) (Gc 4%nat 0%nat) (Gc 4%nat 1%nat) (Gc 4%nat 2%nat) (Gc 5%nat 0%nat) (Gc 5%nat 1%nat) (Gc 5%nat 2%nat) (Gc 6%nat 0%nat) (Gc 6%nat 1%nat) (Gc 6%nat 2%nat) (Gc 7%nat 0%nat) (Gc 7%nat 1%nat) (Gc 7%nat 2%nat) (Gc 8%nat 0%nat) (Gc 8%nat 1%nat) (Gc 8%nat 2%nat) (Aa 0%nat 0%nat) (Aa 0%nat 1%nat) (Aa 0%nat 2%nat) (Aa 1%nat 0%nat) (Aa 1%nat 1%nat) (Aa 1%nat 2%nat) (Aa 2%nat 0%nat) (Aa 2%nat 1%nat) (Aa 2%nat 2%nat) (Aa 3%nat 0%nat) (Aa 3%nat 1%nat) (Aa 3%nat 2%nat) (Aa 4%nat 0%nat) (Aa 4%nat 1%nat) (Aa 4%nat 2%nat) (Aa 5%nat 0%nat) (Aa 5%nat 1%nat) (Aa 5%nat 2%nat) (Aa 6%nat 0%nat) (Aa 6%nat 1%nat) (Aa 6%nat 2%nat) (Aa 7%nat 0%nat) (Aa 7%nat 1%nat) (Aa 7%nat 2%nat) (Aa 8%nat 0%nat) (Aa 8%nat 1%nat) (Aa 8%nat 2%nat) (Ab 0%nat 0%nat) (Ab 0%nat 1%nat) (Ab 0%nat 2%nat) (Ab 1%nat 0%nat) (Ab 1%nat 1%nat) (Ab 1%nat 2%nat) (Ab 2%nat 0%nat) (Ab 2%nat 1%nat) (Ab 2%nat 2%nat) (Ab 3%nat 0%nat) (Ab 3%nat 1%nat) (Ab 3%nat 2%nat) (Ab 4%nat 0%nat) (Ab 4%nat 1%nat) (Ab 4%nat 2%nat) (Ab 5%nat 0%nat) (Ab 5%nat 1%nat) (Ab 5%nat 2%nat) (Ab 6%nat 0%nat) (Ab 6%nat 1%nat) (Ab 6%nat 2%nat) (Ab 7%nat 0%nat) (Ab 7%nat 1%nat) (Ab 7%nat 2%nat) (Ab 8%nat 0%nat) (Ab 8%nat 1%nat) (Ab 8%nat 2%nat) (Ac 0%nat 0%nat) (Ac 0%nat 1%nat) (Ac 0%nat 2%nat) (Ac 1%nat 0%nat) (Ac 1%nat 1%nat) (Ac 1%nat 2%nat) (Ac 2%nat 0%nat) (Ac 2%nat 1%nat) (Ac 2%nat 2%nat) (Ac 3%nat 0%nat) (Ac 3%nat 1%nat) (Ac 3%nat 2%nat) (Ac 4%nat 0%nat) (Ac 4%nat 1%nat) (Ac 4%nat 2%nat) (Ac 5%nat 0%nat) (Ac 5%nat 1%nat) (Ac 5%nat 2%nat) (Ac 6%nat 0%nat) (Ac 6%nat 1%nat) (Ac 6%nat 2%nat) (Ac 7%nat 0%nat) (Ac 7%nat 1%nat) (Ac 7%nat 2%nat) (Ac 8%nat 0%nat) (Ac 8%nat 1%nat) (Ac 8%nat 2%nat) (x 0%nat) (x 1%nat) (x 2%nat) (x 3%nat) (x 4%nat) (x 5%nat) (x 6%nat) (x 7%nat) (x 8%nat) (eg 0%nat) (eg 1%nat) (eg 2%nat) (ea 0%nat) (ea 1%nat) (ea 2%nat)
  | 8 => prop3d3_x8 dt1 dt2 (Fa 0%nat 0%nat) (Fa 0%nat 1%nat) (Fa 0%nat 2%nat) (Fa 0%nat 3%nat) (Fa 0%nat 4%nat) (Fa 0%nat 5%nat) (Fa 0%nat 6%nat) (Fa 0%nat 7%nat) (Fa 0%nat 8%nat) (Fa 1%nat 0%nat) (Fa 1%nat 1%nat) (Fa 1%nat 2%nat) (Fa 1%nat 3%nat) (Fa 1%nat 4%nat) (Fa 1%nat 5%nat) (Fa 1%nat 6%nat) (Fa 1%nat 7%nat) (Fa 1%nat 8%nat) (Fa 2%nat 0%nat) (Fa 2%nat 1%nat) (Fa 2%nat 2%nat) (Fa 2%nat 3%nat) (Fa 2%nat 4%nat) (Fa 2%nat 5%nat) (Fa 2%nat 6%nat) (Fa 2%nat 7%nat) (Fa 2%nat 8%nat) (Fa 3%nat 0%nat) (Fa 3%nat 1%nat) (Fa 3%nat 2%nat) (Fa 3%nat 3%nat) (Fa 3%nat 4%nat) (Fa 3%nat 5%nat) (Fa 3%nat 6%nat) (Fa 3%nat 7%nat) (Fa 3%nat 8%nat) (Fa 4%nat 0%nat) (Fa 4%nat 1%nat) (Fa 4%nat 2%nat) (Fa 4%nat 3%nat) (Fa 4%nat 4%nat) (Fa 4%nat 5%nat) (Fa 4%nat 6%nat) (Fa 4%nat 7%nat) (Fa 4%nat 8%nat) (Fa 5%nat 0%nat) (Fa 5%nat 1%nat) (Fa 5%nat 2%nat) (Fa 5%nat 3%nat) (Fa 5%nat 4%nat) (Fa 5%nat 5%nat) (Fa 5%nat 6%nat) (Fa 5%nat 7%nat) (Fa 5%nat 8%nat) (Fa 6%nat 0%nat) (Fa 6%nat 1%nat) (Fa 6%nat 2%nat) (Fa 6%nat 3%nat) (Fa 6%nat 4%nat) (Fa 6%nat 5%nat) (Fa 6%nat 6%nat) (Fa 6%nat 7%nat) (Fa 6%nat 8%nat) (Fa 7%nat 0%nat) (Fa 7%nat 1%nat) (Fa 7%nat 2%nat) (Fa 7%nat 3%nat) (Fa 7%nat 4%nat) (Fa 7%nat 5%nat) (Fa 7%nat 6%nat) (Fa 7%nat 7%nat) (Fa 7%nat 8%nat) (Fa 8%nat 0%nat) (Fa 8%nat 1%nat) (Fa 8%nat 2%nat) (Fa 8%nat 3%nat) (Fa 8%nat 4%nat) (Fa 8%nat 5%nat) (Fa 8%nat 6%nat) (Fa 8%nat 7%nat) (Fa 8%nat 8%nat) (Fb 0%nat 0%nat) (Fb 0%nat 1%nat) (Fb 0%nat 2%nat) (Fb 0%nat 3%nat) (Fb 0%nat 4%nat) (Fb 0%nat 5%nat) (Fb 0%nat 6%nat) (Fb 0%nat 7%nat) (Fb 0%nat 8%nat) (Fb 1%nat 0%nat) (Fb 1%nat 1%nat) (Fb 1%nat 2%nat) (Fb 1%nat 3%nat) (Fb 1%nat 4%nat) (Fb 1%nat 5%nat) (Fb 1%nat 6%nat) (Fb 1%nat 7%nat) (Fb 1%nat 8%nat) (Fb 2%nat 0%nat) (Fb 2%nat 1%nat) (Fb 2%nat 2%nat) (Fb 2%nat 3%nat) (Fb 2%nat 4%nat) (Fb 2%nat 5%nat) (Fb 2%nat 6%nat) (Fb 2%nat 7%nat) (Fb 2%nat 8%nat) (Fb 3%nat 0%nat) (Fb 3%nat 1%nat) (Fb 3%nat 2%nat) (Fb 3%nat 3%nat) (Fb 3%nat 4%nat) (Fb 3%nat 5%nat) (Fb 3%nat 6%nat) (Fb 3%nat 7%nat) (Fb 3%nat 8%nat) (Fb 4%nat 0%nat) (Fb 4%nat 1%nat) (Fb 4%nat 2%nat) (Fb 4%nat 3%nat) (Fb 4%nat 4%nat) (Fb 4%nat 5%nat) (Fb 4%nat 6%nat) (Fb 4%nat 7%nat) (Fb 4%nat 8%nat) (Fb 5%nat 0%nat) (Fb 5%nat 1%nat) (Fb 5%nat 2%nat) (Fb 5%nat 3%nat) (Fb 5%nat 4%nat) (Fb 5%nat 5%nat) (Fb 5%nat 6%nat) (Fb 5%nat 7%nat) (Fb 5%nat 8%nat) (Fb 6%nat 0%nat) (Fb 6%nat 1%nat) (Fb 6%nat 2%nat) (Fb 6%nat 3%nat) (Fb 6%nat 4%nat) (Fb 6%nat 5%nat) (Fb 6%nat 6%nat) (Fb 6%nat 7%nat) (Fb 6%nat 8%nat) (Fb 7%nat 0%nat) (Fb 7%nat 1%nat) (Fb 7%nat 2%nat) (Fb 7%nat 3%nat) (Fb 7%nat 4%nat) (Fb 7%nat 5%nat) (Fb 7%nat 6%nat) (Fb 7%nat 7%nat) (Fb 7%nat 8%nat) (Fb 8%nat 0%nat) (Fb 8%nat 1%nat) (Fb 8%nat 2%nat) (Fb 8%nat 3%nat) (Fb 8%nat 4%nat) (Fb 8%nat 5%nat) (Fb 8%nat 6%nat) (Fb 8%nat 7%nat) (Fb 8%nat 8%nat) (Fc 0%nat 0%nat) (Fc 0%nat 1%nat) (Fc 0%nat 2%nat) (Fc 0%nat 3%nat) (Fc 0%nat 4%nat) (Fc 0%nat 5%nat) (Fc 0%nat 6%nat) (Fc 0%nat 7%nat) (Fc 0%nat 8%nat) (Fc 1%nat 0%nat) (Fc 1%nat 1%nat) (Fc 1%nat 2%nat) (Fc 1%nat 3%nat) (Fc 1%nat 4%nat) (Fc 1%nat 5%nat) (Fc 1%nat 6%nat) (Fc 1%nat 7%nat) (Fc 1%nat 8%nat) (Fc 2%nat 0%nat) (Fc 2%nat 1%nat) (Fc 2%nat 2%nat) (Fc 2%nat 3%nat) (Fc 2%nat 4%nat) (Fc 2%nat 5%nat) (Fc 2%nat 6%nat) (Fc 2%nat 7%nat) (Fc 2%nat 8%nat) (Fc 3%nat 0%nat) (Fc 3%nat 1%nat) (Fc 3%nat 2%nat) (Fc 3%nat 3%nat) (Fc 3%nat 4%nat) (Fc 3%nat 5%nat) (Fc 3%nat 6%nat) (Fc 3%nat 7%nat) (Fc 3%nat 8%nat) (Fc 4%nat 0%nat) (Fc 4%nat 1%nat) (Fc 4%nat 2%nat) (Fc 4%nat 3%nat) (Fc 4%nat 4%nat) (Fc 4%nat 5%nat) (Fc 4%nat 6%nat) (Fc 4%nat 7%nat) (Fc 4%nat 8%nat) (Fc 5%nat 0%nat) (Fc 5%nat 1%nat) (Fc 5%nat 2%nat) (Fc 5%nat 3%nat) (Fc 5%nat 4%nat) (Fc 5%nat 5%nat) (Fc 5%nat 6%nat) (Fc 5%nat 7%nat) (Fc 5%nat 8%nat) (Fc 6%nat 0%nat) (Fc 6%nat 1%nat) (Fc 6%nat 2%nat) (Fc 6%nat 3%nat) (Fc 6%nat 4%nat) (Fc 6%nat 5%nat) (Fc 6%nat 6%nat) (Fc 6%nat 7%nat) (Fc 6%nat 8%nat) (Fc 7%nat 0%nat) (Fc 7%nat 1%nat) (Fc 7%nat 2%nat) (Fc 7%nat 3%nat) (Fc 7%nat 4%nat) (Fc 7%nat 5%nat) (Fc 7%nat 6%nat) (Fc 7%nat 7%nat) (Fc 7%nat 8%nat) (Fc 8%nat 0%nat) (Fc 8%nat 1%nat) (Fc 8%nat 2%nat) (Fc 8%nat 3%nat) (Fc 8%nat 4%nat) (Fc 8%nat 5%nat) (Fc 8%nat 6%nat) (Fc 8%nat 7%nat) (Fc 8%nat 8%nat) (Ga 0%nat 0%nat) (Ga 0%nat 1%nat) (Ga 0%nat 2%nat) (Ga 1%nat 0%nat) (Ga 1%nat 1%nat) (Ga 1%nat 2%nat) (Ga 2%nat 0%nat) (Ga 2%nat 1%nat) (Ga 2%nat 2%nat) (Ga 3%nat 0%nat) (Ga 3%nat 1%nat) (Ga 3%nat 2%nat) (Ga 4%nat 0%nat) (Ga 4%nat 1%nat) (Ga 4%nat 2%nat) (Ga 5%nat 0%nat) (Ga 5%nat 1%nat) (Ga 5%nat 2%nat) (Ga 6%nat 0%nat) (Ga 6%nat 1%nat) (Ga 6%nat 2%nat) (Ga 7%nat 0%nat) (Ga 7%nat 1%nat) (Ga 7%nat 2%nat) (Ga 8%nat 0%nat) (Ga 8%nat 1%nat) (Ga 8%nat 2%nat) (Gb 0%nat 0%nat) (Gb 0%nat 1%nat) (Gb 0%nat 2%nat) (Gb 1%nat 0%nat) (Gb 1%nat 1%nat) (Gb 1%nat 2%nat) (Gb 2%nat 0%nat) (Gb 2%nat 1%nat) (Gb 2%nat 2%nat) (Gb 3%nat 0%nat) (Gb 3%nat 1%nat) (Gb 3%nat 2%nat) (Gb 4%nat 0%nat) (Gb 4%nat 1%nat) (Gb 4%nat 2%nat) (Gb 5%nat 0%nat) (Gb 5%nat 1%nat) (Gb 5%nat 2%nat) (Gb 6%nat 0%nat) (Gb 6%nat 1%nat) (Gb 6%nat 2%nat) (Gb 7%nat 0%nat) (Gb 7%nat 1%nat) (Gb 7%nat 2%nat) (Gb 8%nat 0%nat) (Gb 8%nat 1%nat) (Gb 8%nat 2%nat) (Gc 0%nat 0%nat) (Gc 0%nat 1%nat) (Gc 0%nat 2%nat) (Gc 1%nat 0%nat) (Gc 1%nat 1%nat) (Gc 1%nat 2%nat) (Gc 2%nat 0%nat) (Gc 2%nat 1%nat) (Gc 2%nat 2%nat) (Gc 3%nat 0%nat) (Gc 3%nat 1%nat) (Gc 3%nat 2%nat) (Gc 4%nat 0%nat) (Gc 4%nat 1%nat) (Gc 4%nat 2%nat) (Gc 5%nat 0%nat) (Gc 5%nat 1%nat) (Gc 5%nat 2%nat) (Gc 6%nat 0%nat) (Gc 6%nat 1%nat) (Gc 6%nat 2%nat) (Gc 7%nat 0%nat) (Gc 7%nat 1%nat) (Gc 7%nat 2%nat) (Gc 8%nat 0%nat) (Gc 8%nat 1%nat) (Gc 8%nat 2%nat) (Aa 0%nat 0%nat) (Aa 0%nat 1%nat) (Aa 0%nat 2%nat) (Aa 1%nat 0%nat) (Aa 1%nat 1%nat) (Aa 1%nat 2%nat) (Aa 2%nat 0%nat) (Aa 2%nat 1%nat) (Aa 2%nat 2%nat) (Aa 3%nat 0%nat) (Aa 3%nat 1%nat) (Aa 3%nat 2%nat) (Aa 4%nat 0%nat) (Aa 4%nat 1%nat) (Aa 4%nat 2%nat) (Aa 5%nat 0%nat) (Aa 5%nat 1%nat) (Aa 5%nat 2%nat) (Aa 6%nat 0%nat) (Aa 6%nat 1%nat) (Aa 6%nat 2%nat) (Aa 7%nat 0%nat) (Aa 7%nat 1%nat) (Aa 7%nat 2%nat) (Aa 8%nat 0%nat) (Aa 8%nat 1%nat) (Aa 8%nat 2%nat) (Ab 0%nat 0%nat) (Ab 0%nat 1%nat) (Ab 0%nat 2%nat) (Ab 1%nat 0%nat) (Ab 1%nat 1%nat) (Ab 1%nat 2%nat) (Ab 2%nat 0%nat) (Ab 2%nat 1%nat) (Ab 2%nat 2%nat) (Ab 3%nat 0%nat) (Ab 3%nat 1%nat) (Ab 3%nat 2%nat) (Ab 4%nat 0%nat) (Ab 4%nat 1%nat) (Ab 4%nat 2%nat) (Ab 5%nat 0%nat) (Ab 5%nat 1%nat) (Ab 5%nat 2%nat) (Ab 6%nat 0%nat) (Ab 6%nat 1%nat) (Ab 6%nat 2%nat) (Ab 7%nat 0%nat) (Ab 7%nat 1%nat) (Ab 7%nat 2%nat) (Ab 8%nat 0%nat) (Ab 8%nat 1%nat) (Ab 8%nat 2%nat) (Ac 0%nat 0%nat) (Ac 0%nat 1%nat) (Ac 0%nat 2%nat) (Ac 1%nat 0%nat) (Ac 1%nat 1%nat) (Ac 1%nat 2%nat) (Ac 2%nat 0%nat) (Ac 2%nat 1%nat) (Ac 2%nat 2%nat) (Ac 3%nat 0%nat) (Ac 3%nat 1%nat) (Ac 3%nat 2%nat) (Ac 4%nat 0%nat) (Ac 4%nat 1%nat) (Ac 4%nat 2%nat) (Ac 5%nat 0%nat) (Ac 5%nat 1%nat) (Ac 5%nat 2%nat) (Ac 6%nat 0%nat) (Ac 6%nat 1%nat) (Ac 6%nat 2%nat) (Ac 7%nat 0%nat) (Ac 7%nat 1%nat) (Ac 7%nat 2%nat) (Ac 8%nat 0%nat) (Ac 8%nat 1%nat) (Ac 8%nat 2%nat) (x 0%nat) (x 1%nat) (x 2%nat) (x 3%nat) (x 4%nat) (x 5%nat) (x 6%nat) (x 7%nat) (x 8%nat) (eg 0%nat) (eg 1%nat) (eg 2%nat) (ea 0%nat) (ea 1%nat) (ea 2%nat)
  | _ => 0%R
  end%nat.
Definition propT3' (i : nat) (dt1 dt2 : R) (Fa Fb Fc Ga Gb Gc Aa Ab Ac : mat) (x eg ea : nat -> R) : R :=
  match i with
  | 0 => prop3d3_z0 dt1 dt2 (Fa 0%nat 0%nat) (Fa 0%nat 1%nat) (Fa 0%nat 2%nat) (Fa 0%nat 3%nat) (Fa 0%nat 4%nat) (Fa 0%nat 5%nat) (Fa 0%nat 6%nat) (Fa 0%nat 7%nat) (Fa 0%nat 8%nat) (Fa 1%nat 0%nat) (Fa 1%nat 1%nat) (Fa 1%nat 2%nat) (Fa 1%nat 3%nat) (Fa 1%nat 4%nat) (Fa 1%nat 5%nat) (Fa 1%nat 6%nat) (Fa 1%nat 7%nat) (Fa 1%nat 8%nat) (Fa 2%nat 0%nat) (Fa 2%nat 1%nat) (Fa 2%nat 2%nat) (Fa 2%nat 3%nat) (Fa 2%nat 4%nat) (Fa 2%nat 5%nat) (Fa 2%nat 6%nat) (Fa 2%nat 7%nat) (Fa 2%nat 8%nat) (Fa 3%nat 0%nat) (Fa 3%nat 1%nat) (Fa 3%nat 2%nat) (Fa 3%nat 3%nat) (Fa 3%nat 4%nat) (Fa 3%nat 5%nat) (Fa 3%nat 6%nat) (Fa 3%nat 7%nat) (Fa 3%nat 8%nat) (Fa 4%nat 0%nat) (Fa 4%nat 1%nat) (Fa 4%nat 2%nat) (Fa 4%nat 3%nat) (Fa 4%nat 4%nat) (Fa 4%nat 5%nat) (Fa 4%nat 6%nat) (Fa 4%nat 7%nat) (Fa 4%nat 8%nat) (Fa 5%nat 0%nat) (Fa 5%nat 1%nat) (Fa 5%nat 2%nat) (Fa 5%nat 3%nat) (Fa 5%nat 4%nat) (Fa 5%nat 5%nat) (Fa 5%nat 6%nat) (Fa 5%nat 7%nat) (Fa 5%nat 8%nat) (Fa 6%nat 0%nat) (Fa 6%nat 1%nat) (Fa 6%nat 2%nat) (Fa 6%nat 3%nat) (Fa 6%nat 4%nat) (Fa 6%nat 5%nat) (Fa 6%nat 6%nat) (Fa 6%nat 7%nat) (Fa 6%nat 8%nat) (Fa 7%nat 0%nat) (Fa 7%nat 1%nat) (Fa 7%nat 2%nat) (Fa 7%nat 3%nat) (Fa 7%nat 4%nat) (Fa 7%nat 5%nat) (Fa 7%nat 6%nat) (Fa 7%nat 7%nat) (Fa 7%nat 8%nat) (Fa 8%nat 0%nat) (Fa 8%nat 1%nat) (Fa 8%nat 2%nat) (Fa 8%nat 3%nat) (Fa 8%nat 4%nat) (Fa 8%nat 5%nat) (Fa 8%nat 6%nat) (Fa 8%nat 7%nat) (Fa 8%nat 8%nat) (Fb 0%nat 0%nat) (Fb 0%nat 1%nat) (Fb 0%nat 2%nat) (Fb 0%nat 3%nat) (Fb 0%nat 4%nat) (Fb 0%nat 5%nat) (Fb 0%nat 6%nat) (Fb 0%nat 7%nat) (Fb 0%nat 8%nat) (Fb 1%nat 0%nat) (Fb 1%nat 1%nat) (Fb 1%nat 2%nat) (Fb 1%nat 3%nat) (Fb 1%nat 4%nat) (Fb 1%nat 5%nat) (Fb 1%nat 6%nat) (Fb 1%nat 7%nat) (Fb 1%nat 8%nat) (Fb 2%nat 0%nat) (Fb 2%nat 1%nat) (Fb 2%nat 2%nat) (Fb 2%nat 3%nat) (Fb 2%nat 4%nat) (Fb 2%nat 5%nat) (Fb 2%nat 6%nat) (Fb 2%nat 7%nat) (Fb 2%nat 8%nat) (Fb 3%nat 0%nat) (Fb 3%nat 1%nat) (Fb 3%nat 2%nat) (Fb 3%nat 3%nat) (Fb 3%nat 4%nat) (Fb 3%nat 5%nat) (Fb 3%nat 6%nat) (Fb 3%nat 7%nat) (Fb 3%nat 8%nat) (Fb 4%nat 0%nat) (Fb 4%nat 1%nat) (Fb 4%nat 2%nat) (Fb 4%nat 3%nat) (Fb 4%nat 4%nat) (Fb 4%nat 5%nat) (Fb 4%nat 6%nat) (Fb 4%nat 7%nat) (Fb 4%nat 8%nat) (Fb 5%nat 0%nat) (Fb 5%nat 1%nat) (Fb 5%nat 2%nat) (Fb 5%nat 3%nat) (Fb 5%nat 4%nat) (Fb 5%nat 5%nat) (Fb 5%nat 6%nat) (Fb 5%nat 7%nat) (Fb 5%nat 8%nat) (Fb 6%nat 0%nat) (Fb 6%nat 1%nat) (Fb 6%nat 2%nat) (Fb 6%nat 3%nat) (Fb 6%nat 4%nat) (Fb 6%nat 5%nat) (Fb 6%nat 6%nat) (Fb 6%nat 7%nat) (Fb 6%nat 8%nat) (Fb 7%nat 0%nat) (Fb 7%nat 1%nat) (Fb 7%nat 2%nat) (Fb 7%nat 3%nat) (Fb 7%nat 4%nat) (Fb 7%nat 5%nat) (Fb 7%nat 6%nat) (Fb 7%nat 7%nat) (Fb 7%nat 8%nat) (Fb 8%nat 0%nat) (Fb 8%nat 1%nat) (Fb 8%nat 2%nat) (Fb 8%nat 3%nat) (Fb 8%nat 4%nat) (Fb 8%nat 5%nat) (Fb 8%nat 6%nat) (Fb 8%nat 7%nat) (Fb 8%nat 8%nat) (Fc 0%nat 0%nat) (Fc 0%nat 1%nat) (Fc 0%nat 2%nat) (Fc 0%nat 3%nat) (Fc 0%nat 4%nat) (Fc 0%nat 5%nat) (Fc 0%nat 6%nat) (Fc 0%nat 7%nat) (Fc 0%nat 8%nat) (Fc 1%nat 0%nat) (Fc 1%nat 1%nat) (Fc 1%nat 2%nat) (Fc 1%nat 3%nat) (Fc 1%nat 4%nat) (Fc 1%nat 5%nat) (Fc 1%nat 6%nat) (Fc 1%nat 7%nat) (Fc 1%nat 8%nat) (Fc 2%nat 0%nat) (Fc 2%nat 1%nat) (Fc 2%nat 2%nat) (Fc 2%nat 3%nat) (Fc 2%nat 4%nat) (Fc 2%nat 5%nat) (Fc 2%nat 6%nat) (Fc 2%nat 7%nat) (Fc 2%nat 8%nat) (Fc 3%nat 0%nat) (Fc 3%nat 1%nat) (Fc 3%nat 2%nat) (Fc 3%nat 3%nat) (Fc 3%nat 4%nat) (Fc 3%nat 5%nat) (Fc 3%nat 6%nat) (Fc 3%nat 7%nat) (Fc 3%nat 8%nat) (Fc 4%nat 0%nat) (Fc 4%nat 1%nat) (Fc 4%nat 2%nat) (Fc 4%nat 3%nat) (Fc 4%nat 4%nat) (Fc 4%nat 5%nat) (Fc 4%nat 6%nat) (Fc 4%nat 7%nat) (Fc 4%nat 8%nat) (Fc 5%nat 0%nat) (Fc 5%nat 1%nat) (Fc 5%nat 2%nat) (Fc 5%nat 3%nat) (Fc 5%nat 4%nat) (Fc 5%nat 5%nat) (Fc 5%nat 6%nat) (Fc 5%nat 7%nat) (Fc 5%nat 8%nat) (Fc 6%nat 0%nat) (Fc 6%nat 1%nat) (Fc 6%nat 2%nat) (Fc 6%nat 3%nat) (Fc 6%nat 4%nat) (Fc 6%nat 5%nat) (Fc 6%nat 6%nat) (Fc 6%nat 7%nat) (Fc 6%nat 8%nat) (Fc 7%nat 0%nat) (Fc 7%nat 1%nat) (Fc 7%nat 2%nat) (Fc 7%nat 3%nat) (Fc 7%nat 4%nat) (Fc 7%nat 5%nat) (Fc 7%nat 6%nat) (Fc 7%nat 7%nat) (Fc 7%nat 8%nat) (Fc 8%nat 0%nat) (Fc 8%nat 1%nat) (Fc 8%nat 2%nat) (Fc 8%nat 3%nat) (Fc 8%nat 4%nat) (Fc 8%nat 5%nat) (Fc 8%nat 6%nat) (Fc 8%nat 7%nat) (Fc 8%nat 8%nat) (Ga 0%nat 0%nat) (Ga 0%nat 1%nat) (Ga 0%nat 2%nat) (Ga 1%nat 0%nat) (Ga 1%nat 1%nat) (Ga 1%nat 2%nat) (Ga 2%nat 0%nat) (Ga 2%nat 1%nat) (Ga 2%nat 2%nat) (Ga 3%nat 0%nat) (Ga 3%nat 1%nat) (Ga 3%nat 2%nat) (Ga 4%nat 0%nat) (Ga 4%nat 1%nat) (Ga 4%nat 2%nat) (Ga 5%nat 0%nat) (Ga 5%nat 1%nat) (Ga 5%nat 2%nat) (Ga 6%nat 0%nat) (Ga 6%nat 1%nat) (Ga 6%nat 2%nat) (Ga 7%nat 0%nat) (Ga 7%nat 1%nat) (Ga 7%nat 2%nat) (Ga 8%nat 0%nat) (Ga 8%nat 1%nat) (Ga 8%nat 2%nat) (Gb 0%nat 0%nat) (Gb 0%nat 1%nat) (Gb 0%nat 2%nat) (Gb 1%nat 0%nat) (Gb 1%nat 1%nat) (Gb 1%nat 2%nat) (Gb 2%nat 0%nat) (Gb 2%nat 1%nat) (Gb 2%nat 2%nat) (Gb 3%nat 0%nat) (Gb 3%nat 1%nat) (Gb 3%nat 2%nat) (Gb 4%nat 0%nat) (Gb 4%nat 1%nat) (Gb 4%nat 2%nat) (Gb 5%nat 0%nat) (Gb 5%nat 1%nat) (Gb 5%nat 2%nat) (Gb 6%nat 0%nat) (Gb 6%nat 1%nat) (Gb 6%nat 2%nat) (Gb 7%nat 0%nat) (Gb 7%nat 1%nat) (Gb 7%nat 2%nat) (Gb 8%nat 0%nat) (Gb 8%nat 1%nat) (Gb 8%nat 2%nat) (Gc 0%nat 0%nat) (Gc 0%nat 1%nat) (Gc 0%nat 2%nat) (Gc 1%nat 0%nat) (Gc 1%nat 1%nat) (Gc 1%nat 2%nat) (Gc 2%nat 0%nat) (Gc 2%nat 1%nat) (Gc 2%nat 2%nat) (Gc 3%nat 0%nat) (Gc 3%nat 1%nat) (Gc 3%nat 2%nat) (Gc 4%nat 0%nat) (Gc 4%nat 1%nat) (Gc 4%nat 2%nat) (Gc 5%nat 0%nat) (Gc 5%nat 1%nat) (Gc 5%nat 2%nat) (Gc 6%nat 0%nat) (Gc 6%nat 1%nat) (Gc 6%nat 2%nat) (Gc 7%nat 0%nat) (Gc 7%nat 1%nat) (Gc 7%nat 2%nat) (Gc 8%nat 0%nat) (Gc 8%nat 1%nat) (Gc 8%nat 2%nat) (Aa 0%nat 0%nat) (Aa 0%nat 1%nat) (Aa 0%nat 2%nat) (Aa 1%nat 0%nat) (Aa 1%nat 1%nat) (Aa 1%nat 2%nat) (Aa 2%nat 0%nat) (Aa 2%nat 1%nat) (Aa 2%nat 2%nat) (Aa 3%nat 0%nat) (Aa 3%nat 1%nat) (Aa 3%nat 2%nat) (Aa 4%nat 0%nat) (Aa 4%nat 1%nat) (Aa 4%nat 2%nat) (Aa 5%nat 0%nat) (Aa 5%nat 1%nat) (Aa 5%nat 2%nat) (Aa 6%nat 0%nat) (Aa 6%nat 1%nat) (Aa 6%nat 2%nat) (Aa 7%nat 0%nat) (Aa 7%nat 1%nat) (Aa 7%nat 2%nat) (Aa 8%nat 0%nat) (Aa 8%nat 1%nat) (Aa 8%nat 2%nat) (Ab 0%nat 0%nat) (Ab 0%nat 1%nat) (Ab 0%nat 2%nat) (Ab 1%nat 0%nat) (Ab 1%nat 1%nat) (Ab 1%nat 2%nat) (Ab 2%nat 0%nat) (Ab 2%nat 1%nat) (Ab 2%nat 2%nat) (Ab 3%nat 0%nat) (Ab 3%nat 1%nat) (Ab 3%nat 2%nat) (Ab 4%nat 0%nat) (Ab 4%nat 1%nat) (Ab 4%nat 2%nat) (Ab 5%nat 0%nat) (Ab 5%nat 1%nat) (Ab 5%nat 2%nat) (Ab 6%nat 0%nat) (Ab 6%nat 1%nat) (Ab 6%nat 2%nat) (Ab 7%nat 0%nat) (Ab 7%nat 1%nat) (Ab 7%nat 2%nat) (Ab 8%nat 0%nat) (Ab 8%nat 1%nat) (Ab 8%nat 2%nat) (Ac 0%nat 0%nat) (Ac 0%nat 1%nat) (Ac 0%nat 2%nat) (Ac 1%nat 0%nat) (Ac 1%nat 1%nat) (Ac 1%nat 2%nat) (Ac 2%nat 0%nat) (Ac 2%nat 1%nat) (Ac 2%nat 2%nat) (Ac 3%nat 0%nat) (Ac 3%nat 1%nat) (Ac 3%nat 2%nat) (Ac 4%nat 0%nat) (Ac 4%nat 1%nat) (Ac 4%nat 2%nat) (Ac 5%nat 0%nat) (Ac 5%nat 1%nat) (Ac 5%nat 2%nat) (Ac 6%nat 0%nat) (Ac 6%nat 1%nat) (Ac 6%nat 2%nat) (Ac 7%nat 0%nat) (Ac 7%nat 1%nat) (Ac 7%nat 2%nat) (Ac 8%nat 0%nat) (Ac 8%nat 1%nat) (Ac 8%nat 2%nat) (x 0%nat) (x 1%nat) (x 2%nat) (x 3%nat) (x 4%nat) (x 5%nat) (x 6%nat) (x 7%nat) (x 8%nat) (eg 0%nat) (eg 1%nat) (eg 2%nat) (ea 0%nat) (ea 1%nat) (ea 2%nat)
  | 1 => prop3d3_z1 dt1 dt2 (Fa 0%nat 0%nat) (Fa 0%nat 1%nat) (Fa 0%nat 2%nat) (Fa 0%nat 3%nat) (Fa 0%nat 4%nat) (Fa 0%nat 5%nat) (Fa 0%nat 6%nat) (Fa 0%nat 7%nat) (Fa 0%nat 8%nat) (Fa 1%nat 0%nat) (Fa 1%nat 1%nat) (Fa 1%nat 2%nat) (Fa 1%nat 3%nat) (Fa 1%nat 4%nat) (Fa 1%nat 5%nat) (Fa 1%nat 6%nat) (Fa 1%nat 7%nat) (Fa 1%nat 8%nat) (Fa 2%nat 0%nat) (Fa 2%nat 1%nat) (Fa 2%nat 2%nat) (Fa 2%nat 3%nat) (Fa 2%nat 4%nat) (Fa 2%nat 5%nat) (Fa 2%nat 6%nat) (Fa 2%nat 7%nat) (Fa 2%nat 8%nat) (Fa 3%nat 0%nat) (Fa 3%nat 1%nat) (Fa 3%nat 2%nat) (Fa 3%nat 3%nat) (Fa 3%nat 4%nat) (Fa 3%nat 5%nat) (Fa 3%nat 6%nat) (Fa 3%nat 7%nat) (Fa 3%nat 8%nat) (Fa 4%nat 0%nat) (Fa 4%nat 1%nat) (Fa 4%nat 2%nat) (Fa 4%nat 3%nat) (Fa 4%nat 4%nat) (Fa 4%nat 5%nat) (Fa 4%nat 6%nat) (Fa 4%nat 7%nat) (Fa 4%nat 8%nat) (Fa 5%nat 0%nat) (Fa 5%nat 1%nat) (Fa 5%nat 2%nat) (Fa 5%nat 3%nat) (Fa 5%nat 4%nat) (Fa 5%nat 5%nat) (Fa 5%nat 6%nat) (Fa 5%nat 7%nat) (Fa 5%nat 8%nat) (Fa 6%nat 0%nat) (Fa 6%nat 1%nat) (Fa 6%nat 2%nat) (Fa 6%nat 3%nat) (Fa 6%nat 4%nat) (Fa 6%nat 5%nat) (Fa 6%nat 6%nat) (Fa 6%nat 7%nat) (Fa 6%nat 8%nat) (Fa 7%nat 0%nat) (Fa 7%nat 1%nat) (Fa 7%nat 2%nat) (Fa 7%nat 3%nat) (Fa 7%nat 4%nat) (Fa 7%nat 5%nat) (Fa 7%nat 6%nat) (Fa 7%nat 7%nat) (Fa 7%nat 8%nat) (Fa 8%nat 0%nat) (Fa 8%nat 1%nat) (Fa 8%nat 2%nat) (Fa 8%nat 3%nat) (Fa 8%nat 4%nat) (Fa 8%nat 5%nat) (Fa 8%nat 6%nat) (Fa 8%nat 7%nat) (Fa 8%nat 8%nat) (Fb 0%nat 0%nat) (Fb 0%nat 1%nat) (Fb 0%nat 2%nat) (Fb 0%nat 3%nat) (Fb 0%nat 4%nat) (Fb 0%nat 5%nat) (Fb 0%nat 6%nat) (Fb 0%nat 7%nat) (Fb 0%nat 8%nat) (Fb 1%nat 0%nat) (Fb 1%nat 1%nat) (Fb 1%nat 2%nat) (Fb 1%nat 3%nat) (Fb 1%nat 4%nat) (Fb 1%nat 5%nat) (Fb 1%nat 6%nat) (Fb 1%nat 7%nat) (Fb 1%nat 8%nat) (Fb 2%nat 0%nat) (Fb 2%nat 1%nat) (Fb 2%nat 2%nat) (Fb 2%nat 3%nat) (Fb 2%nat 4%nat) (Fb 2%nat 5%nat) (Fb 2%nat 6%nat) (Fb 2%nat 7%nat) (Fb 2%nat 8%nat) (Fb 3%nat 0%nat) (Fb 3%nat 1%nat) (Fb 3%nat 2%nat) (Fb 3%nat 3%nat) (Fb 3%nat 4%nat) (Fb 3%nat 5%nat) (Fb 3%nat 6%nat) (Fb 3%nat 7%nat) (Fb 3%nat 8%nat) (Fb 4%nat 0%nat) (Fb 4%nat 1%nat) (Fb 4%nat 2%nat) (Fb 4%nat 3%nat) (Fb 4%nat 4%nat) (Fb 4%nat 5%nat) (Fb 4%nat 6%nat) (Fb 4%nat 7%nat) (Fb 4%nat 8%nat) (Fb 5%nat 0%nat) (Fb 5%nat 1%nat) (Fb 5%nat 2%nat) (Fb 5%nat 3%nat) (Fb 5%nat 4%nat) (Fb 5%nat 5%nat) (Fb 5%nat 6%nat) (Fb 5%nat 7%nat) (Fb 5%nat 8%nat) (Fb 6%nat 0%nat) (Fb 6%nat 1%nat) (Fb 6%nat 2%nat) (Fb 6%nat 3%nat) (Fb 6%nat 4%nat) (Fb 6%nat 5%nat) (Fb 6%nat 6%nat) (Fb 6%nat 7%nat) (Fb 6%nat 8%nat) (Fb 7%nat 0%nat) (Fb 7%nat 1%nat) (Fb 7%nat 2%nat) (Fb 7%nat 3%nat) (Fb 7%nat 4%nat) (Fb 7%nat 5%nat) (Fb 7%nat 6%nat) (Fb 7%nat 7%nat) (Fb 7%nat 8%nat) (Fb 8%nat 0%nat) (Fb 8%nat 1%nat) (Fb 8%nat 2%nat) (Fb 8%nat 3%nat) (Fb 8%nat 4%nat) (Fb 8%nat 5%nat) (Fb 8%nat 6%nat) (Fb 8%nat 7%nat) (Fb 8%nat 8%nat) (Fc 0%nat 0%nat) (Fc 0%nat 1%nat) (Fc 0%nat 2%nat) (Fc 0%nat 3%nat) (Fc 0%nat 4%nat) (Fc 0%nat 5%nat) (Fc 0%nat 6%nat) (Fc 0%nat 7%nat) (Fc 0%nat 8%nat) (Fc 1%nat 0%nat) (Fc 1%nat 1%nat) (Fc 1%nat 2%nat) (Fc 1%nat 3%nat) (Fc 1%nat 4%nat) (Fc 1%nat 5%nat) (Fc 1%nat 6%nat) (Fc 1%nat 7%nat) (Fc 1%nat 8%nat) (Fc 2%nat 0%nat) (Fc 2%nat 1%nat) (Fc 2%nat 2%nat) (Fc 2%nat 3%nat) (Fc 2%nat 4%nat) (Fc 2%nat 5%nat) (Fc 2%nat 6%nat) (Fc 2%nat 7%nat) (Fc 2%nat 8%nat) (Fc 3%nat 0%nat) (Fc 3%nat 1%nat) (Fc 3%nat 2%nat) (Fc 3%nat 3%nat) (Fc 3%nat 4%nat) (Fc 3%nat 5%nat) (Fc 3%nat 6%nat) (Fc 3%nat 7%nat) (Fc 3%nat 8%nat) (Fc 4%nat 0%nat) (Fc 4%nat 1%nat) (Fc 4%nat 2%nat) (Fc 4%nat 3%nat) (Fc 4%nat 4%nat) (Fc 4%nat 5%nat) (Fc 4%nat 6%nat) (Fc 4%nat 7%nat) (Fc 4%nat 8%nat) (Fc 5%nat 0%nat) (Fc 5%nat 1%nat) (Fc 5%nat 2%nat) (Fc 5%nat 3%nat) (Fc 5%nat 4%nat) (Fc 5%nat 5%nat) (Fc 5%nat 6%nat) (Fc 5%nat 7%nat) (Fc 5%nat 8%nat) (Fc 6%nat 0%nat) (Fc 6%nat 1%nat) (Fc 6%nat 2%nat) (Fc 6%nat 3%nat) (Fc 6%nat 4%nat) (Fc 6%nat 5%nat) (Fc 6%nat 6%nat) (Fc 6%nat 7%nat) (Fc 6%nat 8%nat) (Fc 7%nat 0%nat) (Fc 7%nat 1%nat) (Fc 7%nat 2%nat) (Fc 7%nat 3%nat) (Fc 7%nat 4%nat) (Fc 7%nat 5%nat) (Fc 7%nat 6%nat) (Fc 7%nat 7%nat) (Fc 7%nat 8%nat) (Fc 8%nat 0%nat) (Fc 8%nat 1%nat) (Fc 8%nat 2%nat) (Fc 8%nat 3%nat) (Fc 8%nat 4%nat) (Fc 8%nat 5%nat) (Fc 8%nat 6%nat) (Fc 8%nat 7%nat) (Fc 8%nat 8%nat) (Ga 0%nat 0%nat) (Ga 0%nat 1%nat) (Ga 0%nat 2%nat) (Ga 1%nat 0%nat) (Ga 1%nat 1%nat) (Ga 1%nat 2%nat) (Ga 2%nat 0%nat) (Ga 2%nat 1%nat) (Ga 2%nat 2%nat) (Ga 3%nat 0%nat) (Ga 3%nat 1%nat) (Ga 3%nat 2%nat) (Ga 4%nat 0%nat) (Ga 4%nat 1%nat) (Ga 4%nat 2%nat) (Ga 5%nat 0%nat) (Ga 5%nat 1%nat) (Ga 5%nat 2%nat) (Ga 6%nat 0%nat) (Ga 6%nat 1%nat) (Ga 6%nat 2%nat) (Ga 7%nat 0%nat) (Ga 7%nat 1%nat) (Ga 7%nat 2%nat) (Ga 8%nat 0%nat) (Ga 8%nat 1%nat) (Ga 8%nat 2%nat) (Gb 0%nat 0%nat) (Gb 0%nat 1%nat) (Gb 0%nat 2%nat) (Gb 1%nat 0%nat) (Gb 1%nat 1%nat) (Gb 1%nat 2%nat) (Gb 2%nat 0%nat) (Gb 2%nat 1%nat) (Gb 2%nat 2%nat) (Gb 3%nat 0%nat) (Gb 3%nat 1%nat) (Gb 3%nat 2%nat) (Gb 4%nat 0%nat) (Gb 4%nat 1%nat) (Gb 4%nat 2%nat) (Gb 5%nat 0%nat) (Gb 5%nat 1%nat) (Gb 5%nat 2%nat) (Gb 6%nat 0%nat) (Gb 6%nat 1%nat) (Gb 6%nat 2%nat) (Gb 7%nat 0%nat) (Gb 7%nat 1%nat) (Gb 7%nat 2%nat) (Gb 8%nat 0%nat) (Gb 8%nat 1%nat) (Gb 8%nat 2%nat) (Gc 0%nat 0%nat) (Gc 0%nat 1%nat) (Gc 0%nat 2%nat) (Gc 1%nat 0%nat) (Gc 1%nat 1%nat) (Gc 1%nat 2%nat) (Gc 2%nat 0%nat) (Gc 2%nat 1%nat) (Gc 2%nat 2%nat) (Gc 3%nat 0%nat) (Gc 3%nat 1%nat) (Gc 3%nat 2%nat) (Gc 4%nat 0%nat) (Gc 4%nat 1%nat) (Gc 4%nat 2%nat) (Gc 5%nat 0%nat) (Gc 5%nat 1%nat) (Gc 5%nat 2%nat) (Gc 6%nat 0%nat) (Gc 6%nat 1%nat) (Gc 6%nat 2%nat) (Gc 7%nat 0%nat) (Gc 7%nat 1%nat) (Gc 7%nat 2%nat) (Gc 8%nat 0%nat) (Gc 8%nat 1%nat) (Gc 8%nat 2%nat) (Aa 0%nat 0%nat) (Aa 0%nat 1%nat) (Aa 0%nat 2%nat) (Aa 1%nat 0%nat) (Aa 1%nat 1%nat) (Aa 1%nat 2%nat) (Aa 2%nat 0%nat) (Aa 2%nat 1%nat) (Aa 2%nat 2%nat) (Aa 3%nat 0%nat) (Aa 3%nat 1%nat) (Aa 3%nat 2%nat) (Aa 4%nat 0%nat) (Aa 4%nat 1%nat) (Aa 4%nat 2%nat) (Aa 5%nat 0%nat) (Aa 5%nat 1%nat) (Aa 5%nat 2%nat) (Aa 6%nat 0%nat) (Aa 6%nat 1%nat) (Aa 6%nat 2%nat) (Aa 7%nat 0%nat) (Aa 7%nat 1%nat) (Aa 7%nat 2%nat) (Aa 8%nat 0%nat) (Aa 8%nat 1%nat) (Aa 8%nat 2%nat) (Ab 0%nat 0%nat) (Ab 0%nat 1%nat) (Ab 0%nat 2%nat) (Ab 1%nat 0%nat) (Ab 1%nat 1%nat) (Ab 1%nat 2%nat) (Ab 2%nat 0%nat) (Ab 2%nat 1%nat) (Ab 2%nat 2%nat) (Ab 3%nat 0%nat) (Ab 3%nat 1%nat) (Ab 3%nat 2%nat) (Ab 4%nat 0%nat) (Ab 4%nat 1%nat) (Ab 4%nat 2%nat) (Ab 5%nat 0%nat) (Ab 5%nat 1%nat) (Ab 5%nat 2%nat) (Ab 6%nat 0%nat) (Ab 6%nat 1%nat) (Ab 6%nat 2%nat) (Ab 7%nat 0%nat) (Ab 7%nat 1%nat) (Ab 7%nat 2%nat) (Ab 8%nat 0%nat) (Ab 8%nat 1%nat) (Ab 8%nat 2%nat) (Ac 0%nat 0%nat) (Ac 0%nat 1%nat) (Ac 0%nat 2%nat) (Ac 1%nat 0%nat) (Ac 1%nat 1%nat) (Ac 1%nat 2%nat) (Ac 2%nat 0%nat) (Ac 2%nat 1%nat) (Ac 2%nat 2%nat) (Ac 3%nat 0%nat) (Ac 3%nat 1%nat) (Ac 3%nat 2%nat) (Ac 4%nat 0%nat) (Ac 4%nat 1%nat) (Ac 4%nat 2%nat) (Ac 5%nat 0%nat) (Ac 5%nat 1%nat) (Ac 5%nat 2%nat) (Ac 6%nat 0%nat) (Ac 6%nat 1%nat) (Ac 6%nat 2%nat) (Ac 7%nat 0%nat) (Ac 7%nat 1%nat) (Ac 7%nat 2%nat) (Ac 8%nat 0%nat) (Ac 8%nat 1%nat) (Ac 8%nat 2%nat) (x 0%nat) (x 1%nat) (x 2%nat) (x 3%nat) (x 4%nat) (x 5%nat) (x 6%nat) (x 7%nat) (x 8%nat) (eg 0%nat) (eg 1%nat) (eg 2%nat) (ea 0%nat) (ea 1%nat) (ea 2%nat)
  | 2 => prop3d3_z2 dt1 dt2 (Fa 0%nat 0%nat) (Fa 0%nat 1%nat) (Fa 0%nat 2%nat) (Fa 0%nat 3%nat) (Fa 0%nat 4%nat) (Fa 0%nat 5%nat) (Fa 0%nat 6%nat) (Fa 0%nat 7%nat) (Fa 0%nat 8%nat) (Fa 1%nat 0%nat) (Fa 1%nat 1%nat) (Fa 1%nat 2%nat) (Fa 1%nat 3%nat) (Fa 1%nat 4%nat) (Fa 1%nat 5%nat) (Fa 1%nat 6%nat) (Fa 1%nat 7%nat) (Fa 1%nat 8%nat) (Fa 2%nat 0%nat) (Fa 2%nat 1%nat) (Fa 2%nat 2%nat) (Fa 2%nat 3%nat) (Fa 2%nat 4%nat) (Fa 2%nat 5%nat) (Fa 2%nat 6%nat) (Fa 2%nat 7%nat) (Fa 2%nat 8%nat) (Fa 3%nat 0%nat) (Fa 3%nat 1%nat) (Fa 3%nat 2%nat) (Fa 3%nat 3%nat) (Fa 3%nat 4%nat) (Fa 3%nat 5%nat) (Fa 3%nat 6%nat) (Fa 3%nat 7%nat) (Fa 3%nat 8%nat) (Fa 4%nat 0%nat) (Fa 4%nat 1%nat) (Fa 4%nat 2%nat) (Fa 4%nat 3%nat) (Fa 4%nat 4%nat) (Fa 4%nat 5%nat) (Fa 4%nat 6%nat) (Fa 4%nat 7%nat) (Fa 4%nat 8%nat) (Fa 5%nat 0%nat) (Fa 5%nat 1%nat) (Fa 5%nat 2%nat) (Fa 5%nat 3%nat) (Fa 5%nat 4%nat) (Fa 5%nat 5%nat) (Fa 5%nat 6%nat) (Fa 5%nat 7%nat) (Fa 5%nat 8%nat) (Fa 6%nat 0%nat) (Fa 6%nat 1%nat) (Fa 6%nat 2%nat) (Fa 6%nat 3%nat) (Fa 6%nat 4%nat) (Fa 6%nat 5%nat) (Fa 6%nat 6%nat) (Fa 6%nat 7%nat) (Fa 6%nat 8%nat) (Fa 7%nat 0%nat) (Fa 7%nat 1%nat) (Fa 7%nat 2%nat) (Fa 7%nat 3%nat) (Fa 7%nat 4%nat) (Fa 7%nat 5%nat) (Fa 7%nat 6%nat) (Fa 7%nat 7%nat) (Fa 7%nat 8%nat) (Fa 8%nat 0%nat) (Fa 8%nat 1%nat) (Fa 8%nat 2%nat) (Fa 8%nat 3%nat) (Fa 8%nat 4%nat) (Fa 8%nat 5%nat) (Fa 8%nat 6%nat) (Fa 8%nat 7%nat) (Fa 8%nat 8%nat) (Fb 0%nat 0%nat) (Fb 0%nat 1%nat) (Fb 0%nat 2%nat) (Fb 0%nat 3%nat) (Fb 0%nat 4%nat) (Fb 0%nat 5%nat) (Fb 0%nat 6%nat) (Fb 0%nat 7%nat) (Fb 0%nat 8%nat) (Fb 1%nat 0%nat) (Fb 1%nat 1%nat) (Fb 1%nat 2%nat) (Fb 1%nat 3%nat) (Fb 1%nat 4%nat) (Fb 1%nat 5%nat) (Fb 1%nat 6%nat) (Fb 1%nat 7%nat) (Fb 1%nat 8%nat) (Fb 2%nat 0%nat) (Fb 2%nat 1%nat) (Fb 2%nat 2%nat) (Fb 2%nat 3%nat) (Fb 2%nat 4%nat) (Fb 2%nat 5%nat) (Fb 2%nat 6%nat) (Fb 2%nat 7%nat) (Fb 2%nat 8%nat) (Fb 3%nat 0%nat) (Fb 3%nat 1%nat) (Fb 3%nat 2%nat) (Fb 3%nat 3%nat) (Fb 3%nat 4%nat) (Fb 3%nat 5%nat) (Fb 3%nat 6%nat) (Fb 3%nat 7%nat) (Fb 3%nat 8%nat) (Fb 4%nat 0%nat) (Fb 4%nat 1%nat) (Fb 4%nat 2%nat) (Fb 4%nat 3%nat) (Fb 4%nat 4%nat) (Fb 4%nat 5%nat) (Fb 4%nat 6%nat) (Fb 4%nat 7%nat) (Fb 4%nat 8%nat) (Fb 5%nat 0%nat) (Fb 5%nat 1%nat) (Fb 5%nat 2%nat) (Fb 5%nat 3%nat) (Fb 5%nat 4%nat) (Fb 5%nat 5%nat) (Fb 5%nat 6%nat) (Fb 5%nat 7%nat) (Fb 5%nat 8%nat) (Fb 6%nat 0%nat) (Fb 6%nat 1%nat) (Fb 6%nat 2%nat) (Fb 6%nat 3%nat) (Fb 6%nat 4%nat) (Fb 6%nat 5%nat) (Fb 6%nat 6%nat) (Fb 6%nat 7%nat) (Fb 6%nat 8%nat) (Fb 7%nat 0%nat) (Fb 7%nat 1%nat) (Fb 7%nat 2%nat) (Fb 7%nat 3%nat) (Fb 7%nat 4%nat) (Fb 7%nat 5%nat) (Fb 7%nat 6%nat) (Fb 7%nat 7%nat) (Fb 7%nat 8%nat) (Fb 8%nat 0%nat) (Fb 8%nat 1%nat) (Fb 8%nat 2%nat) (Fb 8%nat 3%nat) (Fb 8%nat 4%nat) (Fb 8%nat 5%nat) (Fb 8%nat 6%nat) (Fb 8%nat 7%nat) (Fb 8%nat 8%nat) (Fc 0%nat 0%nat) (Fc 0%nat 1%nat) (Fc 0%nat 2%nat) (Fc 0%nat 3%nat) (Fc 0%nat 4%nat) (Fc 0%nat 5%nat) (Fc 0%nat 6%nat) (Fc 0%nat 7%nat) (Fc 0%nat 8%nat) (Fc 1%nat 0%nat) (Fc 1%nat 1%nat) (Fc 1%nat 2%nat) (Fc 1%nat 3%nat) (Fc 1%nat 4%nat) (Fc 1%nat 5%nat) (Fc 1%nat 6%nat) (Fc 1%nat 7%nat) (Fc 1%nat 8%nat) (Fc 2%nat 0%nat) (Fc 2%nat 1%nat) (Fc 2%nat 2%nat) (Fc 2%nat 3%nat) (Fc 2%nat 4%nat) (Fc 2%nat 5%nat) (Fc 2%nat 6%nat) (Fc 2%nat 7%nat) (Fc 2%nat 8%nat) (Fc 3%nat 0%nat) (Fc 3%nat 1%nat) (Fc 3%nat 2%nat) (Fc 3%nat 3%nat) (Fc 3%nat 4%nat) (Fc 3%nat 5%nat) (Fc 3%nat 6%nat) (Fc 3%nat 7%nat) (Fc 3%nat 8%nat) (Fc 4%nat 0%nat) (Fc 4%nat 1%nat) (Fc 4%nat 2%nat) (Fc 4%nat 3%nat) (Fc 4%nat 4%nat) (Fc 4%nat 5%nat) (Fc 4%nat 6%nat) (Fc 4%nat 7%nat) (Fc 4%nat 8%nat) (Fc 5%nat 0%nat) (Fc 5%nat 1%nat) (Fc 5%nat 2%nat) (Fc 5%nat 3%nat) (Fc 5%nat 4%nat) (Fc 5%nat 5%nat) (Fc 5%nat 6%nat) (Fc 5%nat 7%nat) (Fc 5%nat 8%nat) (Fc 6%nat 0%nat) (Fc 6%nat 1%nat) (Fc 6%nat 2%nat) (Fc 6%nat 3%nat) (Fc 6%nat 4%nat) (Fc 6%nat 5%nat) (Fc 6%nat 6%nat) (Fc 6%nat 7%nat) (Fc 6%nat 8%nat) (Fc 7%nat 0%nat) (Fc 7%nat 1%nat) (Fc 7%nat 2%nat) (Fc 7%nat 3%nat) (Fc 7%nat 4%nat) (Fc 7%nat 5%nat) (Fc 7%nat 6%nat) (Fc 7%nat 7%nat) (Fc 7%nat 8%nat) (Fc 8%nat 0%nat) (Fc 8%nat 1%nat) (Fc 8%nat 2%nat) (Fc 8%nat 3%nat) (Fc 8%nat 4%nat) (Fc 8%nat 5%nat) (Fc 8%nat 6%nat) (Fc 8%nat 7%nat) (Fc 8%nat 8%nat) (Ga 0%nat 0%nat) (Ga 0%nat 1%nat) (Ga 0%nat 2%nat) (Ga 1%nat 0%nat) (Ga 1%nat 1%nat) (Ga 1%nat 2%nat) (Ga 2%nat 0%nat) (Ga 2%nat 1%nat) (Ga 2%nat 2%nat) (Ga 3%nat 0%nat) (Ga 3%nat 1%nat) (Ga 3%nat 2%nat) (Ga 4%nat 0%nat) (Ga 4%nat 1%nat) (Ga 4%nat 2%nat) (Ga 5%nat 0%nat) (Ga 5%nat 1%nat) (Ga 5%nat 2%nat) (Ga 6%nat 0%nat) (Ga 6%nat 1%nat) (Ga 6%nat 2%nat) (Ga 7%nat 0%nat) (Ga 7%nat 1%nat) (Ga 7%nat 2%nat) (Ga 8%nat 0%nat) (Ga 8%nat 1%nat) (Ga 8%nat 2%nat) (Gb 0%nat 0%nat) (Gb 0%nat 1%nat) (Gb 0%nat 2%nat) (Gb 1%nat 0%nat) (Gb 1%nat 1%nat) (Gb 1%nat 2%nat) (Gb 2%nat 0%nat) (Gb 2%nat 1%nat) (Gb 2%nat 2%nat) (Gb 3%nat 0%nat) (Gb 3%nat 1%nat) (Gb 3%nat 2%nat) (Gb 4%nat 0%nat) (Gb 4%nat 1%nat) (Gb 4%nat 2%nat) (Gb 5%nat 0%nat) (Gb 5%nat 1%nat) (Gb 5%nat 2%nat) (Gb 6%nat 0%nat) (Gb 6%nat 1%nat) (Gb 6%nat 2%nat) (Gb 7%nat 0%nat) (Gb 7%nat 1%nat) (Gb 7%nat 2%nat) (Gb 8%nat 0%nat) (Gb 8%nat 1%nat) (Gb 8%nat 2%nat) (Gc 0%nat 0%nat) (Gc 0%nat 1%nat) (Gc 0%nat 2%nat) (Gc 1%nat 0%nat) (Gc 1%nat 1%nat) (Gc 1%nat 2%nat) (Gc 2%nat 0%nat) (Gc 2%nat 1%nat) (Gc 2%nat 2%nat) (Gc 3%nat 0%nat) (Gc 3%nat 1%nat) (Gc 3%nat 2%nat) (Gc 4%nat 0%nat) (Gc 4%nat 1%nat) (Gc 4%nat 2%nat) (Gc 5%nat 0%nat) (Gc 5%nat 1%nat) (Gc 5%nat 2%nat) (Gc 6%nat 0%nat) (Gc 6%nat 1%nat) (Gc 6%nat 2%nat) (Gc 7%nat 0%nat) (Gc 7%nat 1%nat) (Gc 7%nat 2%nat) (Gc 8%nat 0%nat) (Gc 8%nat 1%nat) (Gc 8%nat 2%nat) (Aa 0%nat 0%nat) (Aa 0%nat 1%nat) (Aa 0%nat 2%nat) (Aa 1%nat 0%nat) (Aa 1%nat 1%nat) (Aa 1%nat 2%nat) (Aa 2%nat 0%nat) (Aa 2%nat 1%nat) (Aa 2%nat 2%nat) (Aa 3%nat 0%nat) (Aa 3%nat 1%nat) (Aa 3%nat 2%nat) (Aa 4%nat 0%nat) (Aa 4%nat 1%nat) (Aa 4%nat 2%nat) (Aa 5%nat 0%nat) (Aa 5%nat 1%nat) (Aa 5%nat 2%nat) (Aa 6%nat 0%nat) (Aa 6%nat 1%nat) (Aa 6%nat 2%nat) (Aa 7%nat 0%nat) (Aa 7%nat 1%nat) (Aa 7%nat 2%nat) (Aa 8%nat 0%nat) (Aa 8%nat 1%nat) (Aa 8%nat 2%nat) (Ab 0%nat 0%nat) (Ab 0%nat 1%nat) (Ab 0%nat 2%nat) (Ab 1%nat 0%nat) (Ab 1%nat 1%nat) (Ab 1%nat 2%nat) (Ab 2%nat 0%nat) (Ab 2%nat 1%nat) (Ab 2%nat 2%nat) (Ab 3%nat 0%nat) (Ab 3%nat 1%nat) (Ab 3%nat 2%nat) (Ab 4%nat 0%nat) (Ab 4%nat 1%nat) (Ab 4%nat 2%nat) (Ab 5%nat 0%nat) (Ab 5%nat 1%nat) (Ab 5%nat 2%nat) (Ab 6%nat 0%nat) (Ab 6%nat 1%nat) (Ab 6%nat 2%nat) (Ab 7%nat 0%nat) (Ab 7%nat 1%nat) (Ab 7%nat 2%nat) (Ab 8%nat 0%nat) (Ab 8%nat 1%nat) (Ab 8%nat 2%nat) (Ac 0%nat 0%nat) (Ac 0%nat 1%nat) (Ac 0%nat 2%nat) (Ac 1%nat 0%nat) (Ac 1%nat 1%nat) (Ac 1%nat 2%nat) (Ac 2%nat 0%nat) (Ac 2%nat 1%nat) (Ac 2%nat 2%nat) (Ac 3%nat 0%nat) (Ac 3%nat 1%nat) (Ac 3%nat 2%nat) (Ac 4%nat 0%nat) (Ac 4%nat 1%nat) (Ac 4%nat 2%nat) (Ac 5%nat 0%nat) (Ac 5%nat 1%nat) (Ac 5%nat 2%nat) (Ac 6%nat 0%nat) (Ac 6%nat 1%nat) (Ac 6%nat 2%nat) (Ac 7%nat 0%nat) (Ac 7%nat 1%nat) (Ac 7%nat 2%nat) (Ac 8%nat 0%nat) (Ac 8%nat 1%nat) (Ac 8%nat 2%nat) (x 0%nat) (x 1%nat) (x 2%nat) (x 3%nat) (x 4%nat) (x 5%nat) (x 6%nat) (x 7%nat) (x 8%nat) (eg 0%nat) (eg 1%nat) (eg 2%nat) (ea 0%nat) (ea 1%nat) (ea 2%nat)
  | 3 => prop3d3_z3 dt1 dt2 (Fa 0%nat 0%nat) (Fa 0%nat 1%nat) (Fa 0%nat 2%nat) (Fa 0%nat 3%nat) (Fa 0%nat 4%nat) (Fa 0%nat 5%nat) (Fa 0%nat 6%nat) (Fa 0%nat 7%nat) (Fa 0%nat 8%nat) (Fa 1%nat 0%nat) (Fa 1%nat 1%nat) (Fa 1%nat 2%nat) (Fa 1%nat 3%nat) (Fa 1%nat 4%nat) (Fa 1%nat 5%nat) (Fa 1%nat 6%nat) (Fa 1%nat 7%nat) (Fa 1%nat 8%nat) (Fa 2%nat 0%nat) (Fa 2%nat 1%nat) (Fa 2%nat 2%nat) (Fa 2%nat 3%nat) (Fa 2%nat 4%nat) (Fa 2%nat 5%nat) (Fa 2%nat 6%nat) (Fa 2%nat 7%nat) (Fa 2%nat 8%nat) (Fa 3%nat 0%nat) (Fa 3%nat 1%nat) (Fa 3%nat 2%nat) (Fa 3%nat 3%nat) (Fa 3%nat 4%nat) (Fa 3%nat 5%nat) (Fa 3%nat 6%nat) (Fa 3%nat 7%nat) (Fa 3%nat 8%nat) (Fa 4%nat 0%nat) (Fa 4%nat 1%nat) (Fa 4%nat 2%nat) (Fa 4%nat 3%nat) (Fa 4%nat 4%nat) (Fa 4%nat 5%nat) (Fa 4%nat 6%nat) (Fa 4%nat 7%nat) (Fa 4%nat 8%nat) (Fa 5%nat 0%nat) (Fa 5%nat 1%nat) (Fa 5%nat 2%nat) (Fa 5%nat 3%nat) (Fa 5%nat 4%nat) (Fa 5%nat 5%nat) (Fa 5%nat 6%nat) (Fa 5%nat 7%nat) (Fa 5%nat 8%nat) (Fa 6%nat 0%nat) (Fa 6%nat 1%nat) (Fa 6%nat 2%nat) (Fa 6%nat 3%nat) (Fa 6%nat 4%nat) (Fa 6%nat 5%nat) (Fa 6%nat 6%nat) (Fa 6%nat 7%nat) (Fa 6%nat 8%nat) (Fa 7%nat 0%nat) (Fa 7%nat 1%nat) (Fa 7%nat 2%nat) (Fa 7%nat 3%nat) (Fa 7%nat 4%nat) (Fa 7%nat 5%nat) (Fa 7%nat 6%nat) (Fa 7%nat 7%nat) (Fa 7%nat 8%nat) (Fa 8%nat 0%nat) (Fa 8%nat 1%nat) (Fa 8%nat 2%nat) (Fa 8%nat 3%nat) (Fa 8%nat 4%nat) (Fa 8%nat 5%nat) (Fa 8%nat 6%nat) (Fa 8%nat 7%nat) (Fa 8%nat 8%nat) (Fb 0%nat 0%nat) (Fb 0%nat 1%nat) (Fb 0%nat 2%nat) (Fb 0%nat 3%nat) (Fb 0%nat 4%nat) (Fb 0%nat 5%nat) (Fb 0%nat 6%nat) (Fb 0%nat 7%nat) (Fb 0%nat 8%nat) (Fb 1%nat 0%nat) (Fb 1%nat 1%nat) (Fb 1%nat 2%nat) (Fb 1%nat 3%nat) (Fb 1%nat 4%nat) (Fb 1%nat 5%nat) (Fb 1%nat 6%nat) (Fb 1%nat 7%nat) (Fb 1%nat 8%nat) (Fb 2%nat 0%nat) (Fb 2%nat 1%nat) (Fb 2%nat 2%nat) (Fb 2%nat 3%nat) (Fb 2%nat 4%nat) (Fb 2%nat 5%nat) (Fb 2%nat 6%nat) (Fb 2%nat 7%nat) (Fb 2%nat 8%nat) (Fb 3%nat 0%nat) (Fb 3%nat 1%nat) (Fb 3%nat 2%nat) (Fb 3%nat 3%nat) (Fb 3%nat 4%nat) (Fb 3%nat 5%nat) (Fb 3%nat 6%nat) (Fb 3%nat 7%nat) (Fb 3%nat 8%nat) (Fb 4%nat 0%nat) (Fb 4%nat 1%nat) (Fb 4%nat 2%nat) (Fb 4%nat 3%nat) (Fb 4%nat 4%nat) (Fb 4%nat 5%nat) (Fb 4%nat 6%nat) (Fb 4%nat 7%nat) (Fb 4%nat 8%nat) (Fb 5%nat 0%nat) (Fb 5%nat 1%nat) (Fb 5%nat 2%nat) (Fb 5%nat 3%nat) (Fb 5%nat 4%nat) (Fb 5%nat 5%nat) (Fb 5%nat 6%nat) (Fb 5%nat 7%nat) (Fb 5%nat 8%nat) (Fb 6%nat 0%nat) (Fb 6%nat 1%nat) (Fb 6%nat 2%nat) (Fb 6%nat 3%nat) (Fb 6%nat 4%nat) (Fb 6%nat 5%nat) (Fb 6%nat 6%nat) (Fb 6%nat 7%nat) (Fb 6%nat 8%nat) (Fb 7%nat 0%nat) (Fb 7%nat 1%nat) (Fb 7%nat 2%nat) (Fb 7%nat 3%nat) (Fb 7%nat 4%nat) (Fb 7%nat 5%nat) (Fb 7%nat 6%nat) (Fb 7%nat 7%nat) (Fb 7%nat 8%nat) (Fb 8%nat 0%nat) (Fb 8%nat 1%nat) (Fb 8%nat 2%nat) (Fb 8%nat 3%nat) (Fb 8%nat 4%nat) (Fb 8%nat 5%nat) (Fb 8%nat 6%nat) (Fb 8%nat 7%nat) (Fb 8%nat 8%nat) (Fc 0%nat 0%nat) (Fc 0%nat 1%nat) (Fc 0%nat 2%nat) (Fc 0%nat 3%nat) (Fc 0%nat 4%nat) (Fc 0%nat 5%nat) (Fc 0%nat 6%nat) (Fc 0%nat 7%nat) (Fc 0%nat 8%nat) (Fc 1%nat 0%nat) (Fc 1%nat 1%nat) (Fc 1%nat 2%nat) (Fc 1%nat 3%nat) (Fc 1%nat 4%nat) (Fc 1%nat 5%nat) (Fc 1%nat 6%nat) (Fc 1%nat 7%nat) (Fc 1%nat 8%nat) (Fc 2%nat 0%nat) (Fc 2%nat 1%nat) (Fc 2%nat 2%nat) (Fc 2%nat 3%nat) (Fc 2%nat 4%nat) (Fc 2%nat 5%nat) (Fc 2%nat 6%nat) (Fc 2%nat 7%nat) (Fc 2%nat 8%nat) (Fc 3%nat 0%nat) (Fc 3%nat 1%nat) (Fc 3%nat 2%nat) (Fc 3%nat 3%nat) (Fc 3%nat 4%nat) (Fc 3%nat 5%nat) (Fc 3%nat 6%nat) (Fc 3%nat 7%nat) (Fc 3%nat 8%nat) (Fc 4%nat 0%nat) (Fc 4%nat 1%nat) (Fc 4%nat 2%nat) (Fc 4%nat 3%nat) (Fc 4%nat 4%nat) (Fc 4%nat 5%nat) (Fc 4%nat 6%nat) (Fc 4%nat 7%nat) (Fc 4%nat 8%nat) (Fc 5%nat 0%nat) (Fc 5%nat 1%nat) (Fc 5%nat 2%nat) (Fc 5%nat 3%nat) (Fc 5%nat 4%nat) (Fc 5%nat 5%nat) (Fc 5%nat 6%nat) (Fc 5%nat 7%nat) (Fc 5%nat 8%nat) (Fc 6%nat 0%nat) (Fc 6%nat 1%nat) (Fc 6%nat 2%nat) (Fc 6%nat 3%nat) (Fc 6%nat 4%nat) (Fc 6%nat 5%nat) (Fc 6%nat 6%nat) (Fc 6%nat 7%nat) (Fc 6%nat 8%nat) (Fc 7%nat 0%nat) (Fc 7%nat 1%nat) (Fc 7%nat 2%nat) (Fc 7%nat 3%nat) (Fc 7%nat 4%nat) (Fc 7%nat 5%nat) (Fc 7%nat 6%nat) (Fc 7%nat 7%nat) (Fc 7%nat 8%nat) (Fc 8%nat 0%nat) (Fc 8%nat 1%nat) (Fc 8%nat 2%nat) (Fc 8%nat 3%nat) (Fc 8%nat 4%nat) (Fc 8%nat 5%nat) (Fc 8%nat 6%nat) (Fc 8%nat 7%nat) (Fc 8%nat 8%nat) (Ga 0%nat 0%nat) (Ga 0%nat 1%nat) (Ga 0%nat 2%nat) (Ga 1%nat 0%nat) (Ga 1%nat 1%nat) (Ga 1%nat 2%nat) (Ga 2%nat 0%nat) (Ga 2%nat 1%nat) (Ga 2%nat 2%nat) (Ga 3%nat 0%nat) (Ga 3%nat 1%nat) (Ga 3%nat 2%nat) (Ga 4%nat 0%nat) (Ga 4%nat 1%nat) (Ga 4%nat 2%nat) (Ga 5%nat 0%nat) (Ga 5%nat 1%nat) (Ga 5%nat 2%nat) (Ga 6%nat 0%nat) (Ga 6%nat 1%nat) (Ga 6%nat 2%nat) (Ga 7%nat 0%nat) (Ga 7%nat 1%nat) (Ga 7%nat 2%nat) (Ga 8%nat 0%nat) (Ga 8%nat 1%nat) (Ga 8%nat 2%nat) (Gb 0%nat 0%nat) (Gb 0%nat 1%nat) (Gb 0%nat 2%nat) (Gb 1%nat 0%nat) (Gb 1%nat 1%nat) (Gb 1%nat 2%nat) (Gb 2%nat 0%nat) (Gb 2%nat 1%nat) (Gb 2%nat 2%nat) (Gb 3%nat 0%nat) (Gb 3%nat 1%nat) (Gb 3%nat 2%nat) (Gb 4%nat 0%nat) (Gb 4%nat 1%nat) (Gb 4%nat 2%nat) (Gb 5%nat 0%nat) (Gb 5%nat 1%nat) (Gb 5%nat 2%nat) (Gb 6%nat 0%nat) (Gb 6%nat 1%nat) (Gb 6%nat 2%nat) (Gb 7%nat 0%nat) (Gb 7%nat 1%nat) (Gb 7%nat 2%nat) (Gb 8%nat 0%nat) (Gb 8%nat 1%nat) (Gb 8%nat 2%nat) (Gc 0%nat 0%nat) (Gc 0%nat 1%nat) (Gc 0%nat 2%nat) (Gc 1%nat 0%nat) (Gc 1%nat 1%nat) (Gc 1%nat 2%nat) (Gc 2%nat 0%nat) (Gc 2%nat 1%nat) (Gc 2%nat 2%nat) (Gc 3%nat 0%nat) (Gc 3%nat 1%nat) (Gc 3%nat 2%nat) (Gc 4%nat 0%nat) (Gc 4%nat 1%nat) (Gc 4%nat 2%nat) (Gc 5%nat 0%nat) (Gc 5%nat 1%nat) (Gc 5%nat 2%nat) (Gc 6%nat 0%nat) (Gc 6%nat 1%nat) (Gc 6%nat 2%nat) (Gc 7%nat 0%nat) (Gc 7%nat 1%nat) (Gc 7%nat 2%nat) (Gc 8%nat 0%nat) (Gc 8%nat 1%nat) (Gc 8%nat 2%nat) (Aa 0%nat 0%nat) (Aa 0%nat 1%nat) (Aa 0%nat 2%nat) (Aa 1%nat 0%nat) (Aa 1%nat 1%nat) (Aa 1%nat 2%nat) (Aa 2%nat 0%nat) (Aa 2%nat 1%nat) (Aa 2%nat 2%nat) (Aa 3%nat 0%nat) (Aa 3%nat 1%nat) (Aa 3%nat 2%nat) (Aa 4%nat 0%nat) (Aa 4%nat 1%nat) (Aa 4%nat 2%nat) (Aa 5%nat 0%nat) (Aa 5%nat 1%nat) (Aa 5%nat 2%nat) (Aa 6%nat 0%nat) (Aa 6%nat 1%nat) (Aa 6%nat 2%nat) (Aa 7%nat 0%nat) (Aa 7%nat 1%nat) (Aa 7%nat 2%nat) (Aa 8%nat 0%nat) (Aa 8%nat 1%nat) (Aa 8%nat 2%nat) (Ab 0%nat 0%nat) (Ab 0%nat 1%nat) (Ab 0%nat 2%nat) (Ab 1%nat 0%nat) (Ab 1%nat 1%nat) (Ab 1%nat 2%nat) (Ab 2%nat 0%nat) (Ab 2%nat 1%nat) (Ab 2%nat 2%nat) (Ab 3%nat 0%nat) (Ab 3%nat 1%nat) (Ab 3%nat 2%nat) (Ab 4%nat 0%nat) (Ab 4%nat 1%nat) (Ab 4%nat 2%nat) (Ab 5%nat 0%nat) (Ab 5%nat 1%nat) (Ab 5%nat 2%nat) (Ab 6%nat 0%nat) (Ab 6%nat 1%nat) (Ab 6%nat 2%nat) (Ab 7%nat 0%nat) (Ab 7%nat 1%nat) (Ab 7%nat 2%nat) (Ab 8%nat 0%nat) (Ab 8%nat 1%nat) (Ab 8%nat 2%nat) (Ac 0%nat 0%nat) (Ac 0%nat 1%nat) (Ac 0%nat 2%nat) (Ac 1%nat 0%nat) (Ac 1%nat 1%nat) (Ac 1%nat 2%nat) (Ac 2%nat 0%nat) (Ac 2%nat 1%nat) (Ac 2%nat 2%nat) (Ac 3%nat 0%nat) (Ac 3%nat 1%nat) (Ac 3%nat 2%nat) (Ac 4%nat 0%nat) (Ac 4%nat 1%nat) (Ac 4%nat 2%nat) (Ac 5%nat 0%nat) (Ac 5%nat 1%nat) (Ac 5%nat 2%nat) (Ac 6%nat 0%nat) (Ac 6%nat 1%nat) (Ac 6%nat 2%nat) (Ac 7%nat 0%nat) (Ac 7%nat 1%nat) (Ac 7%nat 2%nat) (Ac 8%nat 0%nat) (Ac 8%nat 1%nat) (Ac 8%nat 2%nat) (x 0%nat) (x 1%nat) (x 2%nat) (x 3%nat) (x 4%nat) (x 5%nat) (x 6%nat) (x 7%nat) (x 8%nat) (eg 0%nat) (eg 1%nat) (eg 2%nat) (ea 0%nat) (ea 1%nat) (ea 2%nat)
  | 4 => prop3d3_z4 dt1 dt2 (Fa 0%nat 0%nat) (Fa 0%nat 1%nat) (Fa 0%nat 2%nat) (Fa 0%nat 3%nat) (Fa 0%nat 4%nat) (Fa 0%nat 5%nat) (Fa 0%nat 6%nat) (Fa 0%nat 7%nat) (Fa 0%nat 8%nat) (Fa 1%nat 0%nat) (Fa 1%nat 1%nat) (Fa 1%nat 2%nat) (Fa 1%nat 3%nat) (Fa 1%nat 4%nat) (Fa 1%nat 5%nat) (Fa 1%nat 6%nat) (Fa 1%nat 7%nat) (Fa 1%nat 8%nat) (Fa 2%nat 0%nat) (Fa 2%nat 1%nat) (Fa 2%nat 2%nat) (Fa 2%nat 3%nat) (Fa 2%nat 4%nat) (Fa 2%nat 5%nat) (Fa 2%nat 6%nat) (Fa 2%nat 7%nat) (Fa 2%nat 8%nat) (Fa 3%nat 0%nat) (Fa 3%nat 1%nat) (Fa 3%nat 2%nat) (Fa 3%nat 3%nat) (Fa 3%nat 4%nat) (Fa 3%nat 5%nat) (Fa 3%nat 6%nat) (Fa 3%nat 7%nat) (Fa 3%nat 8%nat) (Fa 4%nat 0%nat) (Fa 4%nat 1%nat) (Fa 4%nat 2%nat) (Fa 4%nat 3%nat) (Fa 4%nat 4%nat) (Fa 4%nat 5%nat) (Fa 4%nat 6%nat) (Fa 4%nat 7%nat) (Fa 4%nat 8%nat) (Fa 5%nat 0%nat) (Fa 5%nat 1%nat) (Fa 5%nat 2%nat) (Fa 5%nat 3%nat) (Fa 5%nat 4%nat) (Fa 5%nat 5%nat) (Fa 5%nat 6%nat) (Fa 5%nat 7%nat) (Fa 5%nat 8%nat) (Fa 6%nat 0%nat) (Fa 6%nat 1%nat) (Fa 6%nat 2%nat) (Fa 6%nat 3%nat) (Fa 6%nat 4%nat) (Fa 6%nat 5%nat) (Fa 6%nat 6%nat) (Fa 6%nat 7%nat) (Fa 6%nat 8%nat) (Fa 7%nat 0%nat) (Fa 7%nat 1%nat) (Fa 7%nat 2%nat) (Fa 7%nat 3%nat) (Fa 7%nat 4%nat) (Fa 7%nat 5%nat) (Fa 7%nat 6%nat) (Fa 7%nat 7%nat) (Fa 7%nat 8%nat) (Fa 8%nat 0%nat) (Fa 8%nat 1%nat) (Fa 8%nat 2%nat) (Fa 8%nat 3%nat) (Fa 8%nat 4%nat) (Fa 8%nat 5%nat) (Fa 8%nat 6%nat) (Fa 8%nat 7%nat) (Fa 8%nat 8%nat) (Fb 0%nat 0%nat) (Fb 0%nat 1%nat) (Fb 0%nat 2%nat) (Fb 0%nat 3%nat) (Fb 0%nat 4%nat) (Fb 0%nat 5%nat) (Fb 0%nat 6%nat) (Fb 0%nat 7%nat) (Fb 0%nat 8%nat) (Fb 1%nat 0%nat) (Fb 1%nat 1%nat) (Fb 1%nat 2%nat) (Fb 1%nat 3%nat) (Fb 1%nat 4%nat) (Fb 1%nat 5%nat) (Fb 1%nat 6%nat) (Fb 1%nat 7%nat) (Fb 1%nat 8%nat) (Fb 2%nat 0%nat) (Fb 2%nat 1%nat) (Fb 2%nat 2%nat) (Fb 2%nat 3%nat) (Fb 2%nat 4%nat) (Fb 2%nat 5%nat) (Fb 2%nat 6%nat) (Fb 2%nat 7%nat) (Fb 2%nat 8%nat) (Fb 3%nat 0%nat) (Fb 3%nat 1%nat) (Fb 3%nat 2%nat) (Fb 3%nat 3%nat) (Fb 3%nat 4%nat) (Fb 3%nat 5%nat) (Fb 3%nat 6%nat) (Fb 3%nat 7%nat) (Fb 3%nat 8%nat) (Fb 4%nat 0%nat) (Fb 4%nat 1%nat) (Fb 4%nat 2%nat) (Fb 4%nat 3%nat) (Fb 4%nat 4%nat) (Fb 4%nat 5%nat) (Fb 4%nat 6%nat) (Fb 4%nat 7%nat) (Fb 4%nat 8%nat) (Fb 5%nat 0%nat) (Fb 5%nat 1%nat) (Fb 5%nat 2%nat) (Fb 5%nat 3%nat) (Fb 5%nat 4%nat) (Fb 5%nat 5%nat) (Fb 5%nat 6%nat) (Fb 5%nat 7%nat) (Fb 5%nat 8%nat) (Fb 6%nat 0%nat) (Fb 6%nat 1%nat) (Fb 6%nat 2%nat) (Fb 6%nat 3%nat) (Fb 6%nat 4%nat) (Fb 6%nat 5%nat) (Fb 6%nat 6%nat) (Fb 6%nat 7%nat) (Fb 6%nat 8%nat) (Fb 7%nat 0%nat) (Fb 7%nat 1%nat) (Fb 7%nat 2%nat) (Fb 7%nat 3%nat) (Fb 7%nat 4%nat) (Fb 7%nat 5%nat) (Fb 7%nat 6%nat) (Fb 7%nat 7%nat) (Fb 7%nat 8%nat) (Fb 8%nat 0%nat) (Fb 8%nat 1%nat) (Fb 8%nat 2%nat) (Fb 8%nat 3%nat) (Fb 8%nat 4%nat) (Fb 8%nat 5%nat) (Fb 8%nat 6%nat) (Fb 8%nat 7%nat) (Fb 8%nat 8%nat) (Fc 0%nat 0%nat) (Fc 0%nat 1%nat) (Fc 0%nat 2%nat) (Fc 0%nat 3%nat) (Fc 0%nat 4%nat) (Fc 0%nat 5%nat) (Fc 0%nat 6%nat) (Fc 0%nat 7%nat) (Fc 0%nat 8%nat) (Fc 1%nat 0%nat) (Fc 1%nat 1%nat) (Fc 1%nat 2%nat) (Fc 1%nat 3%nat) (Fc 1%nat 4%nat) (Fc 1%nat 5%nat) (Fc 1%nat 6%nat) (Fc 1%nat 7%nat) (Fc 1%nat 8%nat) (Fc 2%nat 0%nat) (Fc 2%nat 1%nat) (Fc 2%nat 2%nat) (Fc 2%nat 3%nat) (Fc 2%nat 4%nat) (Fc 2%nat 5%nat) (Fc 2%nat 6%nat) (Fc 2%nat 7%nat) (Fc 2%nat 8%nat) (Fc 3%nat 0%nat) (Fc 3%nat 1%nat) (Fc 3%nat 2%nat) (Fc 3%nat 3%nat) (Fc 3%nat 4%nat) (Fc 3%nat 5%nat) (Fc 3%nat 6%nat) (Fc 3%nat 7%nat) (Fc 3%nat 8%nat) (Fc 4%nat 0%nat) (Fc 4%nat 1%nat) (Fc 4%nat 2%nat) (Fc 4%nat 3%nat) (Fc 4%nat 4%nat) (Fc 4%nat 5%nat) (Fc 4%nat 6%nat) (Fc 4%nat 7%nat) (Fc 4%nat 8%nat) (Fc 5%nat 0%nat) (Fc 5%nat 1%nat) (Fc 5%nat 2%nat) (Fc 5%nat 3%nat) (Fc 5%nat 4%nat) (Fc 5%nat 5%nat) (Fc 5%nat 6%nat) (Fc 5%nat 7%nat) (Fc 5%nat 8%nat) (Fc 6%nat 0%nat) (Fc 6%nat 1%nat) (Fc 6%nat 2%nat) (Fc 6%nat 3%nat) (Fc 6%nat 4%nat) (Fc 6%nat 5%nat) (Fc 6%nat 6%nat) (Fc 6%nat 7%nat) (Fc 6%nat 8%nat) (Fc 7%nat 0%nat) (Fc 7%nat 1%nat) (Fc 7%nat 2%nat) (Fc 7%nat 3%nat) (Fc 7%nat 4%nat) (Fc 7%nat 5%nat) (Fc 7%nat 6%nat) (Fc 7%nat 7%nat) (Fc 7%nat 8%nat) (Fc 8%nat 0%nat) (Fc 8%nat 1%nat) (Fc 8%nat 2%nat) (Fc 8%nat 3%nat) (Fc 8%nat 4%nat) (Fc 8%nat 5%nat) (Fc 8%nat 6%nat) (Fc 8%nat 7%nat) (Fc 8%nat 8%nat) (Ga 0%nat 0%nat) (Ga 0%nat 1%nat) (Ga 0%nat 2%nat) (Ga 1%nat 0%nat) (Ga 1%nat 1%nat) (Ga 1%nat 2%nat) (Ga 2%nat 0%nat) (Ga 2%nat 1%nat) (Ga 2%nat 2%nat) (Ga 3%nat 0%nat) (Ga 3%nat 1%nat) (Ga 3%nat 2%nat) (Ga 4%nat 0%nat) (Ga 4%nat 1%nat) (Ga 4%nat 2%nat) (Ga 5%nat 0%nat) (Ga 5%nat 1%nat) (Ga 5%nat 2%nat) (Ga 6%nat 0%nat) (Ga 6%nat 1%nat) (Ga 6%nat 2%nat) (Ga 7%nat 0%nat) (Ga 7%nat 1%nat) (Ga 7%nat 2%nat) (Ga 8%nat 0%nat) (Ga 8%nat 1%nat) (Ga 8%nat 2%nat) (Gb 0%nat 0%nat) (Gb 0%nat 1%nat) (Gb 0%nat 2%nat) (Gb 1%nat 0%nat) (Gb 1%nat 1%nat) (Gb 1%nat 2%nat) (Gb 2%nat 0%nat) (Gb 2%nat 1%nat) (Gb 2%nat 2%nat) (Gb 3%nat 0%nat) (Gb 3%nat 1%nat) (Gb 3%nat 2%nat) (Gb 4%nat 0%nat) (Gb 4%nat 1%nat) (Gb 4%nat 2%nat) (Gb 5%nat 0%nat) (Gb 5%nat 1%nat) (Gb 5%nat 2%nat) (Gb 6%nat 0%nat) (Gb 6%nat 1%nat) (Gb 6%nat 2%nat) (Gb 7%nat 0%nat) (Gb 7%nat 1%nat) (Gb 7%nat 2%nat) (Gb 8%nat 0%nat) (Gb 8%nat 1%nat) (Gb 8%nat 2%nat) (Gc 0%nat 0%nat) (Gc 0%nat 1%nat) (Gc 0%nat 2%nat) (Gc 1%nat 0%nat) (Gc 1%nat 1%nat) (Gc 1%nat 2%nat) (Gc 2%nat 0%nat) (Gc 2%nat 1%nat) (Gc 2%nat 2%nat) (Gc 3%nat 0%nat) (Gc 3%nat 1%nat) (Gc 3%nat 2%nat) (Gc 4%nat 0%nat) (Gc 4%nat 1%nat) (Gc 4%nat 2%nat) (Gc 5%nat 0%nat) (Gc 5%nat 1%nat) (Gc 5%nat 2%nat) (Gc 6%nat 0%nat) (Gc 6%nat 1%nat) (Gc 6%nat 2%nat) (Gc 7%nat 0%nat) (Gc 7%nat 1%nat) (Gc 7%nat 2%nat) (Gc 8%nat 0%nat) (Gc 8%nat 1%nat) (Gc 8%nat 2%nat) (Aa 0%nat 0%nat) (Aa 0%nat 1%nat) (Aa 0%nat 2%nat) (Aa 1%nat 0%nat) (Aa 1%nat 1%nat) (Aa 1%nat 2%nat) (Aa 2%nat 0%nat) (Aa 2%nat 1%nat) (Aa 2%nat 2%nat) (Aa 3%nat 0%nat) (Aa 3%nat 1%nat) (Aa 3%nat 2%nat) (Aa 4%nat 0%nat) (Aa 4%nat 1%nat) (Aa 4%nat 2%nat) (Aa 5%nat 0%nat) (Aa 5%nat 1%nat) (Aa 5%nat 2%nat) (Aa 6%nat 0%nat) (Aa 6%nat 1%nat) (Aa 6%nat 2%nat) (Aa 7%nat 0%nat) (Aa 7%nat 1%nat) (Aa 7%nat 2%nat) (Aa 8%nat 0%nat) (Aa 8%nat 1%nat) (Aa 8%nat 2%nat) (Ab 0%nat 0%nat) (Ab 0%nat 1%nat) (Ab 0%nat 2%nat) (Ab 1%nat 0%nat) (Ab 1%nat 1%nat) (Ab 1%nat 2%nat) (Ab 2%nat 0%nat) (Ab 2%nat 1%nat) (Ab 2%nat 2%nat) (Ab 3%nat 0%nat) (Ab 3%nat 1%nat) (Ab 3%nat 2%nat) (Ab 4%nat 0%nat) (Ab 4%nat 1%nat) (Ab 4%nat 2%nat) (Ab 5%nat 0%nat) (Ab 5%nat 1%nat) (Ab 5%nat 2%nat) (Ab 6%nat 0%nat) (Ab 6%nat 1%nat) (Ab 6%nat 2%nat) (Ab 7%nat 0%nat) (Ab 7%nat 1%nat) (Ab 7%nat 2%nat) (Ab 8%nat 0%nat) (Ab 8%nat 1%nat) (Ab 8%nat 2%nat) (Ac 0%nat 0%nat) (Ac 0%nat 1%nat) (Ac 0%nat 2%nat) (Ac 1%nat 0%nat) (Ac 1%nat 1%nat) (Ac 1%nat 2%nat) (Ac 2%nat 0%nat) (Ac 2%nat 1%nat) (Ac 2%nat 2%nat) (Ac 3%nat 0%nat) (Ac 3%nat 1%nat) (Ac 3%nat 2%nat) (Ac 4%nat 0%nat) (Ac 4%nat 1%nat) (Ac 4%nat 2%nat) (Ac 5%nat 0%nat) (Ac 5%nat 1%nat) (Ac 5%nat 2%nat) (Ac 6%nat 0%nat) (Ac 6%nat 1%nat) (Ac 6%nat 2%nat) (Ac 7%nat 0%nat) (Ac 7%nat 1%nat) (Ac 7%nat 2%nat) (Ac 8%nat 0%nat) (Ac 8%nat 1%nat) (Ac 8%nat 2%nat) (x 0%nat) (x 1%nat) (x 2%nat) (x 3%nat) (x 4%nat) (x 5%nat) (x 6%nat) (x 7%nat) (x 8%nat) (eg 0%nat) (eg 1%nat) (eg 2%nat) (ea 0%nat) (ea 1%nat) (ea 2%nat)
  | 5 => prop3d3_z5 dt1 dt2 (Fa 0%nat 0%nat) (Fa 0%nat 1%nat) (Fa 0%nat 2%nat) (Fa 0%nat 3%nat) (Fa 0%nat 4%nat) (Fa 0%nat 5%nat) (Fa 0%nat 6%nat) (Fa 0%nat 7%nat) (Fa 0%nat 8%nat) (Fa 1%nat 0%nat) (Fa 1%nat 1%nat) (Fa 1%nat 2%nat) (Fa 1%nat 3%nat) (Fa 1%nat 4%nat) (Fa 1%nat 5%nat) (Fa 1%nat 6%nat) (Fa 1%nat 7%nat) (Fa 1%nat 8%nat) (Fa 2%nat 0%nat) (Fa 2%nat 1%nat) (Fa 2%nat 2%nat) (Fa 2%nat 3%nat) (Fa 2%nat 4%nat) (Fa 2%nat 5%nat) (Fa 2%nat 6%nat) (Fa 2%nat 7%nat) (Fa 2%nat 8%nat) (Fa 3%nat 0%nat) (Fa 3%nat 1%nat) (Fa 3%nat 2%nat) (Fa 3%nat 3%nat) (Fa 3%nat 4%nat) (Fa 3%nat 5%nat) (Fa 3%nat 6%nat) (Fa 3%nat 7%nat) (Fa 3%nat 8%nat) (Fa 4%nat 0%nat) (Fa 4%nat 1%nat) (Fa 4%nat 2%nat) (Fa 4%nat 3%nat) (Fa 4%nat 4%nat) (Fa 4%nat 5%nat) (Fa 4%nat 6%nat) (Fa 4%nat 7%nat) (Fa 4%nat 8%nat) (Fa 5%nat 0%nat) (Fa 5%nat 1%nat) (Fa 5%nat 2%nat) (Fa 5%nat 3%nat) (Fa 5%nat 4%nat) (Fa 5%nat 5%nat) (Fa 5%nat 6%nat) (Fa 5%nat 7%nat) (Fa 5%nat 8%nat) (Fa 6%nat 0%nat) (Fa 6%nat 1%nat) (Fa 6%nat 2%nat) (Fa 6%nat 3%nat) (Fa 6%nat 4%nat) (Fa 6%nat 5%nat) (Fa 6%nat 6%nat) (Fa 6%nat 7%nat) (Fa 6%nat 8%nat) (Fa 7%nat 0%nat) (Fa 7%nat 1%nat) (Fa 7%nat 2%nat) (Fa 7%nat 3%nat) (Fa 7%nat 4%nat) (Fa 7%nat 5%nat) (Fa 7%nat 6%nat) (Fa 7%nat 7%nat) (Fa 7%nat 8%nat) (Fa 8%nat 0%nat) (Fa 8%nat 1%nat) (Fa 8%nat 2%nat) (Fa 8%nat 3%nat) (Fa 8%nat 4%nat) (Fa 8%nat 5%nat) (Fa 8%nat 6%nat) (Fa 8%nat 7%nat) (Fa 8%nat 8%nat) (Fb 0%nat 0%nat) (Fb 0%nat 1%nat) (Fb 0%nat 2%nat) (Fb 0%nat 3%nat) (Fb 0%nat 4%nat) (Fb 0%nat 5%nat) (Fb 0%nat 6%nat) (Fb 0%nat 7%nat) (Fb 0%nat 8%nat) (Fb 1%nat 0%nat) (Fb 1%nat 1%nat) (Fb 1%nat 2%nat) (Fb 1%nat 3%nat) (Fb 1%nat 4%nat) (Fb 1%nat 5%nat) (Fb 1%nat 6%nat) (Fb 1%nat 7%nat) (Fb 1%nat 8%nat) (Fb 2%nat 0%nat) (Fb 2%nat 1%nat) (Fb 2%nat 2%nat) (Fb 2%nat 3%nat) (Fb 2%nat 4%nat) (Fb 2%nat 5%nat) (Fb 2%nat 6%nat) (Fb 2%nat 7%nat) (Fb 2%nat 8%nat) (Fb 3%nat 0%nat) (Fb 3%nat 1%nat) (Fb 3%nat 2%nat) (Fb 3%nat 3%nat) (Fb 3%nat 4%nat) (Fb 3%nat 5%nat) (Fb 3%nat 6%nat) (Fb 3%nat 7%nat) (Fb 3%nat 8%nat) (Fb 4%nat 0%nat) (Fb 4%nat 1%nat) (Fb 4%nat 2%nat) (Fb 4%nat 3%nat) (Fb 4%nat 4%nat) (Fb 4%nat 5%nat) (Fb 4%nat 6%nat) (Fb 4%nat 7%nat) (Fb 4%nat 8%nat) (Fb 5%nat 0%nat) (Fb 5%nat 1%nat) (Fb 5%nat 2%nat) (Fb 5%nat 3%nat) (Fb 5%nat 4%nat) (Fb 5%nat 5%nat) (Fb 5%nat 6%nat) (Fb 5%nat 7%nat) (Fb 5%nat 8%nat) (Fb 6%nat 0%nat) (Fb 6%nat 1%nat) (Fb 6%nat 2%nat) (Fb 6%nat 3%nat) (Fb 6%nat 4%nat) (Fb 6%nat 5%nat) (Fb 6%nat 6%nat) (Fb 6%nat 7%nat) (Fb 6%nat 8%nat) (Fb 7%nat 0%nat) (Fb 7%nat 1%nat) (Fb 7%nat 2%nat) (Fb 7%nat 3%nat) (Fb 7%nat 4%nat) (Fb 7%nat 5%nat) (Fb 7%nat 6%nat) (Fb 7%nat 7%nat) (Fb 7%nat 8%nat) (Fb 8%nat 0%nat) (Fb 8%nat 1%nat) (Fb 8%nat 2%nat) (Fb 8%nat 3%nat) (Fb 8%nat 4%nat) (Fb 8%nat 5%nat) (Fb 8%nat 6%nat) (Fb 8%nat 7%nat) (Fb 8%nat 8%nat) (Fc 0%nat 0%nat) (Fc 0%nat 1%nat) (Fc 0%nat 2%nat) (Fc 0%nat 3%nat) (Fc 0%nat 4%nat) (Fc 0%nat 5%nat) (Fc 0%nat 6%nat) (Fc 0%nat 7%nat) (Fc 0%nat 8%nat) (Fc 1%nat 0%nat) (Fc 1%nat 1%nat) (Fc 1%nat 2%nat) (Fc 1%nat 3%nat) (Fc 1%nat 4%nat) (Fc 1%nat 5%nat) (Fc 1%nat 6%nat) (Fc 1%nat 7%nat) (Fc 1%nat 8%nat) (Fc 2%nat 0%nat) (Fc 2%nat 1%nat) (Fc 2%nat 2%nat) (Fc 2%nat 3%nat) (Fc 2%nat 4%nat) (Fc 2%nat 5%nat) (Fc 2%nat 6%nat) (Fc 2%nat 7%nat) (Fc 2%nat 8%nat) (Fc 3%nat 0%nat) (Fc 3%nat 1%nat) (Fc 3%nat 2%nat) (Fc 3%nat 3%nat) (Fc 3%nat 4%nat) (Fc 3%nat 5%nat) (Fc 3%nat 6%nat) (Fc 3%nat 7%nat) (Fc 3%nat 8%nat) (Fc 4%nat 0%nat) (Fc 4%nat 1%nat) (Fc 4%nat 2%nat) (Fc 4%nat 3%nat) (Fc 4%nat 4%nat) (Fc 4%nat 5%nat) (Fc 4%nat 6%nat) (Fc 4%nat 7%nat) (Fc 4%nat 8%nat) (Fc 5%nat 0%nat) (Fc 5%nat 1%nat) (Fc 5%nat 2%nat) (Fc 5%nat 3%nat) (Fc 5%nat 4%nat) (Fc 5%nat 5%nat) (Fc 5%nat 6%nat) (Fc 5%nat 7%nat) (Fc 5%nat 8%nat) (Fc 6%nat 0%nat) (Fc 6%nat 1%nat) (Fc 6%nat 2%nat) (Fc 6%nat 3%nat) (Fc 6%nat 4%nat) (Fc 6%nat 5%nat) (Fc 6%nat 6%nat) (Fc 6%nat 7%nat) (Fc 6%nat 8%nat) (Fc 7%nat 0%nat) (Fc 7%nat 1%nat) (Fc 7%nat 2%nat) (Fc 7%nat 3%nat) (Fc 7%nat 4%nat) (Fc 7%nat 5%nat) (Fc 7%nat 6%nat) (Fc 7%nat 7%nat) (Fc 7%nat 8%nat) (Fc 8%nat 0%nat) (Fc 8%nat 1%nat) (Fc 8%nat 2%nat) (Fc 8%nat 3%nat) (Fc 8%nat 4%nat) (Fc 8%nat 5%nat) (Fc 8%nat 6%nat) (Fc 8%nat 7%nat) (Fc 8%nat 8%nat) (Ga 0%nat 0%nat) (Ga 0%nat 1%nat) (Ga 0%nat 2%nat) (Ga 1%nat 0%nat) (Ga 1%nat 1%nat) (Ga 1%nat 2%nat) (Ga 2%nat 0%nat) (Ga 2%nat 1%nat) (Ga 2%nat 2%nat) (Ga 3%nat 0%nat) (Ga 3%nat 1%nat) (Ga 3%nat 2%nat) (Ga 4%nat 0%nat) (Ga 4%nat 1%nat) (Ga 4%nat 2%nat) (Ga 5%nat 0%nat) (Ga 5%nat 1%nat) (Ga 5%nat 2%nat) (Ga 6%nat 0%nat) (Ga 6%nat 1%nat) (Ga 6%nat 2%nat) (Ga 7%nat 0%nat) (Ga 7%nat 1%nat) (Ga 7%nat 2%nat) (Ga 8%nat 0%nat) (Ga 8%nat 1%nat) (Ga 8%nat 2%nat) (Gb 0%nat 0%nat) (Gb 0%nat 1%nat) (Gb 0%nat 2%nat) (Gb 1%nat 0%nat) (Gb 1%nat 1%nat) (Gb 1%nat 2%nat) (Gb 2%nat 0%nat) (Gb 2%nat 1%nat) (Gb 2%nat 2%nat) (Gb 3%nat 0%nat) (Gb 3%nat 1%nat) (Gb 3%nat 2%nat) (Gb 4%nat 0%nat) (Gb 4%nat 1%nat) (Gb 4%nat 2%nat) (Gb 5%nat 0%nat) (Gb 5%nat 1%nat) (Gb 5%nat 2%nat) (Gb 6%nat 0%nat) (Gb 6%nat 1%nat) (Gb 6%nat 2%nat) (Gb 7%nat 0%nat) (Gb 7%nat 1%nat) (Gb 7%nat 2%nat) (Gb 8%nat 0%nat) (Gb 8%nat 1%nat) (Gb 8%nat 2%nat) (Gc 0%nat 0%nat) (Gc 0%nat 1%nat) (Gc 0%nat 2%nat) (Gc 1%nat 0%nat) (Gc 1%nat 1%nat) (Gc 1%nat 2%nat) (Gc 2%nat 0%nat) (Gc 2%nat 1%nat) (Gc 2%nat 2%nat) (Gc 3%nat 0%nat) (Gc 3%nat 1%nat) (Gc 3%nat 2%nat) (Gc 4%nat 0%nat) (Gc 4%nat 1%nat) (Gc 4%nat 2%nat) (Gc 5%nat 0%nat) (Gc 5%nat 1%nat) (Gc 5%nat 2%nat) (Gc 6%nat 0%nat) (Gc 6%nat 1%nat) (Gc 6%nat 2%nat) (Gc 7%nat 0%nat) (Gc 7%nat 1%nat) (Gc 7%nat 2%nat) (Gc 8%nat 0%nat) (Gc 8%nat 1%nat) (Gc 8%nat 2%nat) (Aa 0%nat 0%nat) (Aa 0%nat 1%nat) (Aa 0%nat 2%nat) (Aa 1%nat 0%nat) (Aa 1%nat 1%nat) (Aa 1%nat 2%nat) (Aa 2%nat 0%nat) (Aa 2%nat 1%nat) (Aa 2%nat 2%nat) (Aa 3%nat 0%nat) (Aa 3%nat 1%nat) (Aa 3%nat 2%nat) (Aa 4%nat 0%nat) (Aa 4%nat 1%nat) (Aa 4%nat 2%nat) (Aa 5%nat 0%nat) (Aa 5%nat 1%nat) (Aa 5%nat 2%nat) (Aa 6%nat 0%nat) (Aa 6%nat 1%nat) (Aa 6%nat 2%nat) (Aa 7%nat 0%nat) (Aa 7%nat 1%nat) (Aa 7%nat 2%nat) (Aa 8%nat 0%nat) (Aa 8%nat 1%nat) (Aa 8%nat 2%nat) (Ab 0%nat 0%nat) (Ab 0%nat 1%nat) (Ab 0%nat 2%nat) (Ab 1%nat 0%nat) (Ab 1%nat 1%nat) (Ab 1%nat 2%nat) (Ab 2%nat 0%nat) (Ab 2%nat 1%nat) (Ab 2%nat 2%nat) (Ab 3%nat 0%nat) (Ab 3%nat 1%nat) (Ab 3%nat 2%nat) (Ab 4%nat 0%nat) (Ab 4%nat 1%nat) (Ab 4%nat 2%nat) (Ab 5%nat 0%nat) (Ab 5%nat 1%nat) (Ab 5%nat 2%nat) (Ab 6%nat 0%nat) (Ab 6%nat 1%nat) (Ab 6%nat 2%nat) (Ab 7%nat 0%nat) (Ab 7%nat 1%nat) (Ab 7%nat 2%nat) (Ab 8%nat 0%nat) (Ab 8%nat 1%nat) (Ab 8%nat 2%nat) (Ac 0%nat 0%nat) (Ac 0%nat 1%nat) (Ac 0%nat 2%nat) (Ac 1%nat 0%nat) (Ac 1%nat 1%nat) (Ac 1%nat 2%nat) (Ac 2%nat 0%nat) (Ac 2%nat 1%nat) (Ac 2%nat 2%nat) (Ac 3%nat 0%nat) (Ac 3%nat 1%nat) (Ac 3%nat 2%nat) (Ac 4%nat 0%nat) (Ac 4%nat 1%nat) (Ac 4%nat 2%nat) (Ac 5%nat 0%nat) (Ac 5%nat 1%nat) (Ac 5%nat 2%nat) (Ac 6%nat 0%nat) (Ac 6%nat 1%nat) (Ac 6%nat 2%nat) (Ac 7%nat 0%nat) (Ac 7%nat 1%nat) (Ac 7%nat 2%nat) (Ac 8%nat 0%nat) (Ac 8%nat 1%nat) (Ac 8%nat 2%nat) (x 0%nat) (x 1%nat) (x 2%nat) (x 3%nat) (x 4%nat) (x 5%nat) (x 6%nat) (x 7%nat) (x 8%nat) (eg 0%nat) (eg 1%nat) (eg 2%nat) (ea 0%nat) (ea 1%nat) (ea 2%nat)
  | 6 => prop3d3_z6 dt1 dt2 (Fa 0%nat 0%nat) (Fa 0%nat 1%nat) (Fa 0%nat 2%nat) (Fa 0%nat 3%nat) (Fa 0%nat 4%nat) (Fa 0%nat 5%nat) (Fa 0%nat 6%nat) (Fa 0%nat 7%nat) (Fa 0%nat 8%nat) (Fa 1%nat 0%nat) (Fa 1%nat 1%nat) (Fa 1%nat 2%nat) (Fa 1%nat 3%nat) (Fa 1%nat 4%nat) (Fa 1%nat 5%nat) (Fa 1%nat 6%nat) (Fa 1%nat 7%nat) (Fa 1%nat 8%nat) (Fa 2%nat 0%nat) (Fa 2%nat 1%nat) (Fa 2%nat 2%nat) (Fa 2%nat 3%nat) (Fa 2%nat 4%nat) (Fa 2%nat 5%nat) (Fa 2%nat 6%nat) (Fa 2%nat 7%nat) (Fa 2%nat 8%nat) (Fa 3%nat 0%nat) (Fa 3%nat 1%nat) (Fa 3%nat 2%nat) (Fa 3%nat 3%nat) (Fa 3%nat 4%nat) (Fa 3%nat 5%nat) (Fa 3%nat 6%nat) (Fa 3%nat 7%nat) (Fa 3%nat 8%nat) (Fa 4%nat 0%nat) (Fa 4%nat 1%nat) (Fa 4%nat 2%nat) (Fa 4%nat 3%nat) (Fa 4%nat 4%nat) (Fa 4%nat 5%nat) (Fa 4%nat 6%nat) (Fa 4%nat 7%nat) (Fa 4%nat 8%nat) (Fa 5%nat 0%nat) (Fa 5%nat 1%nat) (Fa 5%nat 2%nat) (Fa 5%nat 3%nat) (Fa 5%nat 4%nat) (Fa 5%nat 5%nat) (Fa 5%nat 6%nat) (Fa 5%nat 7%nat) (Fa 5%nat 8%nat) (Fa 6%nat 0%nat) (Fa 6%nat 1%nat) (Fa 6%nat 2%nat) (Fa 6%nat 3%nat) (Fa 6%nat 4%nat) (Fa 6%nat 5%nat) (Fa 6%nat 6%nat) (Fa 6%nat 7%nat) (Fa 6%nat 8%nat) (Fa 7%nat 0%nat) (Fa 7%nat 1%nat) (Fa 7%nat 2%nat) (Fa 7%nat 3%nat) (Fa 7%nat 4%nat) (Fa 7%nat 5%nat) (Fa 7%nat 6%nat) (Fa 7%nat 7%nat) (Fa 7%nat 8%nat) (Fa 8%nat 0%nat) (Fa 8%nat 1%nat) (Fa 8%nat 2%nat) (Fa 8%nat 3%nat) (Fa 8%nat 4%nat) (Fa 8%nat 5%nat) (Fa 8%nat 6%nat) (Fa 8%nat 7%nat) (Fa 8%nat 8%nat) (Fb 0%nat 0%nat) (Fb 0%nat 1%nat) (Fb 0%nat 2%nat) (Fb 0%nat 3%nat) (Fb 0%nat 4%nat) (Fb 0%nat 5%nat) (Fb 0%nat 6%nat) (Fb 0%nat 7%nat) (Fb 0%nat 8%nat) (Fb 1%nat 0%nat) (Fb 1%nat 1%nat) (Fb 1%nat 2%nat) (Fb 1%nat 3%nat) (Fb 1%nat 4%nat) (Fb 1%nat 5%nat) (Fb 1%nat 6%nat) (Fb 1%nat 7%nat) (Fb 1%nat 8%nat) (Fb 2%nat 0%nat) (Fb 2%nat 1%nat) (Fb 2%nat 2%nat) (Fb 2%nat 3%nat) (Fb 2%nat 4%nat) (Fb 2%nat 5%nat) (Fb 2%nat 6%nat) (Fb 2%nat 7%nat) (Fb 2%nat 8%nat) (Fb 3%nat 0%nat) (Fb 3%nat 1%nat) (Fb 3%nat 2%nat) (Fb 3%nat 3%nat) (Fb 3%nat 4%nat) (Fb 3%nat 5%nat) (Fb 3%nat 6%nat) (Fb 3%nat 7%nat) (Fb 3%nat 8%nat) (Fb 4%nat 0%nat) (Fb 4%nat 1%nat) (Fb 4%nat 2%nat) (Fb 4%nat 3%nat) (Fb 4%nat 4%nat) (Fb 4%nat 5%nat) (Fb 4%nat 6%nat) (Fb 4%nat 7%nat) (Fb 4%nat 8%nat) (Fb 5%nat 0%nat) (Fb 5%nat 1%nat) (Fb 5%nat 2%nat) (Fb 5%nat 3%nat) (Fb 5%nat 4%nat) (Fb 5%nat 5%nat) (Fb 5%nat 6%nat) (Fb 5%nat 7%nat) (Fb 5%nat 8%nat) (Fb 6%nat 0%nat) (Fb 6%nat 1%nat) (Fb 6%nat 2%nat) (Fb 6%nat 3%nat) (Fb 6%nat 4%nat) (Fb 6%nat 5%nat) (Fb 6%nat 6%nat) (Fb 6%nat 7%nat) (Fb 6%nat 8%nat) (Fb 7%nat 0%nat) (Fb 7%nat 1%nat) (Fb 7%nat 2%nat) (Fb 7%nat 3%nat) (Fb 7%nat 4%nat) (Fb 7%nat 5%nat) (Fb 7%nat 6%nat) (Fb 7%nat 7%nat) (Fb 7%nat 8%nat) (Fb 8%nat 0%nat) (Fb 8%nat 1%nat) (Fb 8%nat 2%nat) (Fb 8%nat 3%nat) (Fb 8%nat 4%nat) (Fb 8%nat 5%nat) (Fb 8%nat 6%nat) (Fb 8%nat 7%nat) (Fb 8%nat 8%nat) (Fc 0%nat 0%nat) (Fc 0%nat 1%nat) (Fc 0%nat 2%nat) (Fc 0%nat 3%nat) (Fc 0%nat 4%nat) (Fc 0%nat 5%nat) (Fc 0%nat 6%nat) (Fc 0%nat 7%nat) (Fc 0%nat 8%nat) (Fc 1%nat 0%nat) (Fc 1%nat 1%nat) (Fc 1%nat 2%nat) (Fc 1%nat 3%nat) (Fc 1%nat 4%nat) (Fc 1%nat 5%nat) (Fc 1%nat 6%nat) (Fc 1%nat 7%nat) (Fc 1%nat 8%nat) (Fc 2%nat 0%nat) (Fc 2%nat 1%nat) (Fc 2%nat 2%nat) (Fc 2%nat 3%nat) (Fc 2%nat 4%nat) (Fc 2%nat 5%nat) (Fc 2%nat 6%nat) (Fc 2%nat 7%nat) (Fc 2%nat 8%nat) (Fc 3%nat 0%nat) (Fc 3%nat 1%nat) (Fc 3%nat 2%nat) (Fc 3%nat 3%nat) (Fc 3%nat 4%nat) (Fc 3%nat 5%nat) (Fc 3%nat 6%nat) (Fc 3%nat 7%nat) (Fc 3%nat 8%nat) (Fc 4%nat 0%nat) (Fc 4%nat 1%nat) (Fc 4%nat 2%nat) (Fc 4%nat 3%nat) (Fc 4%nat 4%nat) (Fc 4%nat 5%nat) (Fc 4%nat 6%nat) (Fc 4%nat 7%nat) (Fc 4%nat 8%nat) (Fc 5%nat 0%nat) (Fc 5%nat 1%nat) (Fc 5%nat 2%nat) (Fc 5%nat 3%nat) (Fc 5%nat 4%nat) (Fc 5%nat 5%nat) (Fc 5%nat 6%nat) (Fc 5%nat 7%nat) (Fc 5%nat 8%nat) (Fc 6%nat 0%nat) (Fc 6%nat 1%nat) (Fc 6%nat 2%nat) (Fc 6%nat 3%nat) (Fc 6%nat 4%nat) (Fc 6%nat 5%nat) (Fc 6%nat 6%nat) (Fc 6%nat 7%nat) (Fc 6%nat 8%nat) (Fc 7%nat 0%nat) (Fc 7%nat 1%nat) (Fc 7%nat 2%nat) (Fc 7%nat 3%nat) (Fc 7%nat 4%nat) (Fc 7%nat 5%nat) (Fc 7%nat 6%nat) (Fc 7%nat 7%nat) (Fc 7%nat 8%nat) (Fc 8%nat 0%nat) (Fc 8%nat 1%nat) (Fc 8%nat 2%nat) (Fc 8%nat 3%nat) (Fc 8%nat 4%nat) (Fc 8%nat 5%nat) (Fc 8%nat 6%nat) (Fc 8%nat 7%nat) (Fc 8%nat 8%nat) (Ga 0%nat 0%nat) (Ga 0%nat 1%nat) (Ga 0%nat 2%nat) (Ga 1%nat 0%nat) (Ga 1%nat 1%nat) (Ga 1%nat 2%nat) (Ga 2%nat 0%nat) (Ga 2%nat 1%nat) (Ga 2%nat 2%nat) (Ga 3%nat 0%nat) (Ga 3%nat 1%nat) (Ga 3%nat 2%nat) (Ga 4%nat 0%nat) (Ga 4%nat 1%nat) (Ga 4%nat 2%nat) (Ga 5%nat 0%nat) (Ga 5%nat 1%nat) (Ga 5%nat 2%nat) (Ga 6%nat 0%nat) (Ga 6%nat 1%nat) (Ga 6%nat 2%nat) (Ga 7%nat 0%nat) (Ga 7%nat 1%nat) (Ga 7%nat 2%nat) (Ga 8%nat 0%nat) (Ga 8%nat 1%nat) (Ga 8%nat 2%nat) (Gb 0%nat 0%nat) (Gb 0%nat 1%nat) (Gb 0%nat 2%nat) (Gb 1%nat 0%nat) (Gb 1%nat 1%nat) (Gb 1%nat 2%nat) (Gb 2%nat 0%nat) (Gb 2%nat 1%nat) (Gb 2%nat 2%nat) (Gb 3%nat 0%nat) (Gb 3%nat 1%nat) (Gb 3%nat 2%nat) (Gb 4%nat 0%nat) (Gb 4%nat 1%nat) (Gb 4%nat 2%nat) (Gb 5%nat 0%nat) (Gb 5%nat 1%nat) (Gb 5%nat 2%nat) (Gb 6%nat 0%nat) (Gb 6%nat 1%nat) (Gb 6%nat 2%nat) (Gb 7%nat 0%nat) (Gb 7%nat 1%nat) (Gb 7%nat 2%nat) (Gb 8%nat 0%nat) (Gb 8%nat 1%nat) (Gb 8%nat 2%nat) (Gc 0%nat 0%nat) (Gc 0%nat 1%nat) (Gc 0%nat 2%nat) (Gc 1%nat 0%nat) (Gc 1%nat 1%nat) (Gc 1%nat 2%nat) (Gc 2%nat 0%nat) (Gc 2%nat 1%nat) (Gc 2%nat 2%nat) (Gc 3%nat 0%nat) (Gc 3%nat 1%nat) (Gc 3%nat 2%nat) (Gc 4%nat 0%nat) (Gc 4%nat 1%nat) (Gc 4%nat 2%nat) (Gc 5%nat 0%nat) (Gc 5%nat 1%nat) (Gc 5%nat 2%nat) (Gc 6%nat 0%nat) (Gc 6%nat 1%nat) (Gc 6%nat 2%nat) (Gc 7%nat 0%nat) (Gc 7%nat 1%nat) (Gc 7%nat 2%nat) (Gc 8%nat 0%nat) (Gc 8%nat 1%nat) (Gc 8%nat 2%nat) (Aa 0%nat 0%nat) (Aa 0%nat 1%nat) (Aa 0%nat 2%nat) (Aa 1%nat 0%nat) (Aa 1%nat 1%nat) (Aa 1%nat 2%nat) (Aa 2%nat 0%nat) (Aa 2%nat 1%nat) (Aa 2%nat 2%nat) (Aa 3%nat 0%nat) (Aa 3%nat 1%nat) (Aa 3%nat 2%nat) (Aa 4%nat 0%nat) (Aa 4%nat 1%nat) (Aa 4%nat 2%nat) (Aa 5%nat 0%nat) (Aa 5%nat 1%nat) (Aa 5%nat 2%nat) (Aa 6%nat 0%nat) (Aa 6%nat 1%nat) (Aa 6%nat 2%nat) (Aa 7%nat 0%nat) (Aa 7%nat 1%nat) (Aa 7%nat 2%nat) (Aa 8%nat 0%nat) (Aa 8%nat 1%nat) (Aa 8%nat 2%nat) (Ab 0%nat 0%nat) (Ab 0%nat 1%nat) (Ab 0%nat 2%nat) (Ab 1%nat 0%nat) (Ab 1%nat 1%nat) (Ab 1%nat 2%nat) (Ab 2%nat 0%nat) (Ab 2%nat 1%nat) (Ab 2%nat 2%nat) (Ab 3%nat 0%nat) (Ab 3%nat 1%nat) (Ab 3%nat 2%nat) (Ab 4%nat 0%nat) (Ab 4%nat 1%nat) (Ab 4%nat 2%nat) (Ab 5%nat 0%nat) (Ab 5%nat 1%nat) (Ab 5%nat 2%nat) (Ab 6%nat 0%nat) (Ab 6%nat 1%nat) (Ab 6%nat 2%nat) (Ab 7%nat 0%nat) (Ab 7%nat 1%nat) (Ab 7%nat 2%nat) (Ab 8%nat 0%nat) (Ab 8%nat 1%nat) (Ab 8%nat 2%nat) (Ac 0%nat 0%nat) (Ac 0%nat 1%nat) (Ac 0%nat 2%nat) (Ac 1%nat 0%nat) (Ac 1%nat 1%nat) (Ac 1%nat 2%nat) (Ac 2%nat 0%nat) (Ac 2%nat 1%nat) (Ac 2%nat 2%nat) (Ac 3%nat 0%nat) (Ac 3%nat 1%nat) (Ac 3%nat 2%nat) (Ac 4%nat 0%nat) (Ac 4%nat 1%nat) (Ac 4%nat 2%nat) (Ac 5%nat 0%nat) (Ac 5%nat 1%nat) (Ac 5%nat 2%nat) (Ac 6%nat 0%nat) (Ac 6%nat 1%nat) (Ac 6%nat 2%nat) (Ac 7%nat 0%nat) (Ac 7%nat 1%nat) (Ac 7%nat 2%nat) (Ac 8%nat 0%nat) (Ac 8%nat 1%nat) (Ac 8%nat 2%nat) (x 0%nat) (x 1%nat) (x 2%nat) (x 3%nat) (x 4%nat) (x 5%nat) (x 6%nat) (x 7%nat) (x 8%nat) (eg 0%nat) (eg 1%nat) (eg 2%nat) (ea 0%nat) (ea 1%nat) (ea 2%nat)
  | 7 => prop3d3_z7 dt1 dt2 (Fa 0%nat 0%nat) (Fa 0%nat 1%nat) (Fa 0%nat 2%nat) (Fa 0%nat 3%nat) (Fa 0%nat 4%nat) (Fa 0%nat 5%nat) (Fa 0%nat 6%nat) (Fa 0%nat 7%nat) (Fa 0%nat 8%nat) (Fa 1%nat 0%nat) (Fa 1%nat 1%nat) (Fa 1%nat 2%nat) (Fa 1%nat 3%nat) (Fa 1%nat 4%nat) (Fa 1%nat 5%nat) (Fa 1%nat 6%nat) (Fa 1%nat 7%nat) (Fa 1%nat 8%nat) (Fa 2%nat 0%nat) (Fa 2%nat 1%nat) (Fa 2%nat 2%nat) (Fa 2%nat 3%nat) (Fa 2%nat 4%nat) (Fa 2%nat 5%nat) (Fa 2%nat 6%nat) (Fa 2%nat 7%nat) (Fa 2%nat 8%nat) (Fa 3%nat 0%nat) (Fa 3%nat 1%nat) (Fa 3%nat 2%nat) (Fa 3%nat 3%nat) (Fa 3%nat 4%nat) (Fa 3%nat 5%nat) (Fa 3%nat 6%nat) (Fa 3%nat 7%nat) (Fa 3%nat 8%nat) (Fa 4%nat 0%nat) (Fa 4%nat 1%nat) (Fa 4%nat 2%nat) (Fa 4%nat 3%nat) (Fa 4%nat 4%nat) (Fa 4%nat 5%nat) (Fa 4%nat 6%nat) (Fa 4%nat 7%nat) (Fa 4%nat 8%nat) (Fa 5%nat 0%nat) (Fa 5%nat 1%nat) (Fa 5%nat 2%nat) (Fa 5%nat 3%nat) (Fa 5%nat 4%nat) (Fa 5%nat 5%nat) (Fa 5%nat 6%nat) (Fa 5%nat 7%nat) (Fa 5%nat 8%nat) (Fa 6%nat 0%nat) (Fa 6%nat 1%nat) (Fa 6%nat 2%nat) (Fa 6%nat 3%nat) (Fa 6%nat 4%nat) (Fa 6%nat 5%nat) (Fa 6%nat 6%nat) (Fa 6%nat 7%nat) (Fa 6%nat 8%nat) (Fa 7%nat 0%nat) (Fa 7%nat 1%nat) (Fa 7%nat 2%nat) (Fa 7%nat 3%nat) (Fa 7%nat 4%nat) (Fa 7%nat 5%nat) (Fa 7%nat 6%nat) (Fa 7%nat 7%nat) (Fa 7%nat 8%nat) (Fa 8%nat 0%nat) (Fa 8%nat 1%nat) (Fa 8%nat 2%nat) (Fa 8%nat 3%nat) (Fa 8%nat 4%nat) (Fa 8%nat 5%nat) (Fa 8%nat 6%nat) (Fa 8%nat 7%nat) (Fa 8%nat 8%nat) (Fb 0%nat 0%nat) (Fb 0%nat 1%nat) (Fb 0%nat 2%nat) (Fb 0%nat 3%nat) (Fb 0%nat 4%nat) (Fb 0%nat 5%nat) (Fb 0%nat 6%nat) (Fb 0%nat 7%nat) (Fb 0%nat 8%nat) (Fb 1%nat 0%nat) (Fb 1%nat 1%nat) (Fb 1%nat 2%nat) (Fb 1%nat 3%nat) (Fb 1%nat 4%nat) (Fb 1%nat 5%nat) (Fb 1%nat 6%nat) (Fb 1%nat 7%nat) (Fb 1%nat 8%nat) (Fb 2%nat 0%nat) (Fb 2%nat 1%nat) (Fb 2%nat 2%nat) (Fb 2%nat 3%nat) (Fb 2%nat 4%nat) (Fb 2%nat 5%nat) (Fb 2%nat 6%nat) (Fb 2%nat 7%nat) (Fb 2%nat 8%nat) (Fb 3%nat 0%nat) (Fb 3%nat 1%nat) (Fb 3%nat 2%nat) (Fb 3%nat 3%nat) (Fb 3%nat 4%nat) (Fb 3%nat 5%nat) (Fb 3%nat 6%nat) (Fb 3%nat 7%nat) (Fb 3%nat 8%nat) (Fb 4%nat 0%nat) (Fb 4%nat 1%nat) (Fb 4%nat 2%nat) (Fb 4%nat 3%nat) (Fb 4%nat 4%nat) (Fb 4%nat 5%nat) (Fb 4%nat 6%nat) (Fb 4%nat 7%nat) (Fb 4%nat 8%nat) (Fb 5%nat 0%nat) (Fb 5%nat 1%nat) (Fb 5%nat 2%nat) (Fb 5%nat 3%nat) (Fb 5%nat 4%nat) (Fb 5%nat 5%nat) (Fb 5%nat 6%nat) (Fb 5%nat 7%nat) (Fb 5%nat 8%nat) (Fb 6%nat 0%nat) (Fb 6%nat 1%nat) (Fb 6%nat 2%nat) (Fb 6%nat 3%nat) (Fb 6%nat 4%nat) (Fb 6%nat 5%nat) (Fb 6%nat 6%nat) (Fb 6%nat 7%nat) (Fb 6%nat 8%nat) (Fb 7%nat 0%nat) (Fb 7%nat 1%nat) (Fb 7%nat 2%nat) (Fb 7%nat 3%nat) (Fb 7%nat 4%nat) (Fb 7%nat 5%nat) (Fb 7%nat 6%nat) (Fb 7%nat 7%nat) (Fb 7%nat 8%nat) (Fb 8%nat 0%nat) (Fb 8%nat 1%nat) (Fb 8%nat 2%nat) (Fb 8%nat 3%nat) (Fb 8%nat 4%nat) (Fb 8%nat 5%nat) (Fb 8%nat 6%nat) (Fb 8%nat 7%nat) (Fb 8%nat 8%nat) (Fc 0%nat 0%nat) (Fc 0%nat 1%nat) (Fc 0%nat 2%nat) (Fc 0%nat 3%nat) (Fc 0%nat 4%nat) (Fc 0%nat 5%nat) (Fc 0%nat 6%nat) (Fc 0%nat 7%nat) (Fc 0%nat 8%nat) (Fc 1%nat 0%nat) (Fc 1%nat 1%nat) (Fc 1%nat 2%nat) (Fc 1%nat 3%nat) (Fc 1%nat 4%nat) (Fc 1%nat 5%nat) (Fc 1%nat 6%nat) (Fc 1%nat 7%nat) (Fc 1%nat 8%nat) (Fc 2%nat 0%nat) (Fc 2%nat 1%nat) (Fc 2%nat 2%nat) (Fc 2%nat 3%nat) (Fc 2%nat 4%nat) (Fc 2%nat 5%nat) (Fc 2%nat 6%nat) (Fc 2%nat 7%nat) (Fc 2%nat 8%nat) (Fc 3%nat 0%nat) (Fc 3%nat 1%nat) (Fc 3%nat 2%nat) (Fc 3%nat 3%nat) (Fc 3%nat 4%nat) (Fc 3%nat 5%nat) (Fc 3%nat 6%nat) (Fc 3%nat 7%nat) (Fc 3%nat 8%nat) (Fc 4%nat 0%nat) (Fc 4%nat 1%nat) (Fc 4%nat 2%nat) (Fc 4%nat 3%nat) (Fc 4%nat 4%nat) (Fc 4%nat 5%nat) (Fc 4%nat 6%nat) (Fc 4%nat 7%nat) (Fc 4%nat 8%nat) (Fc 5%nat 0%nat) (Fc 5%nat 1%nat) (Fc 5%nat 2%nat) (Fc 5%nat 3%nat) (Fc 5%nat 4%nat) (Fc 5%nat 5%nat) (Fc 5%nat 6%nat) (Fc 5%nat 7%nat) (Fc 5%nat 8%nat) (Fc 6%nat 0%nat) (Fc 6%nat 1%nat) (Fc 6%nat 2%nat) (Fc 6%nat 3%nat) (Fc 6%nat 4%nat) (Fc 6%nat 5%nat) (Fc 6%nat 6%nat) (Fc 6%nat 7%nat) (Fc 6%nat 8%nat) (Fc 7%nat 0%nat) (Fc 7%nat 1%nat) (Fc 7%nat 2%nat) (Fc 7%nat 3%nat) (Fc 7%nat 4%nat) (Fc 7%nat 5%nat) (Fc 7%nat 6%nat) (Fc 7%nat 7%nat) (Fc 7%nat 8%nat) (Fc 8%nat 0%nat) (Fc 8%nat 1%nat) (Fc 8%nat 2%nat) (Fc 8%nat 3%nat) (Fc 8%nat 4%nat) (Fc 8%nat 5%nat) (Fc 8%nat 6%nat) (Fc 8%nat 7%nat) (Fc 8%nat 8%nat) (Ga 0%nat 0%nat) (Ga 0%nat 1%nat) (Ga 0%nat 2%nat) (Ga 1%nat 0%nat) (Ga 1%nat 1%nat) (Ga 1%nat 2%nat) (Ga 2%nat 0%nat) (Ga 2%nat 1%nat) (Ga 2%nat 2%nat) (Ga 3%nat 0%nat) (Ga 3%nat 1%nat) (Ga 3%nat 2%nat) (Ga 4%nat 0%nat) (Ga 4%nat 1%nat) (Ga 4%nat 2%nat) (Ga 5%nat 0%nat) (Ga 5%nat 1%nat) (Ga 5%nat 2%nat) (Ga 6%nat 0%nat) (Ga 6%nat 1%nat) (Ga 6%nat 2%nat) (Ga 7%nat 0%nat) (Ga 7%nat 1%nat) (Ga 7%nat 2%nat) (Ga 8%nat 0%nat) (Ga 8%nat 1%nat) (Ga 8%nat 2%nat) (Gb 0%nat 0%nat) (Gb 0%nat 1%nat) (Gb 0%nat 2%nat) (Gb 1%nat 0%nat) (Gb 1%nat 1%nat) (Gb 1%nat 2%nat) (Gb 2%nat 0%nat) (Gb 2%nat 1%nat) (Gb 2%nat 2%nat) (Gb 3%nat 0%nat) (Gb 3%nat 1%nat) (Gb 3%nat 2%nat) (Gb 4%nat 0%nat) (Gb 4%nat 1%nat) (Gb 4%nat 2%nat) (Gb 5%nat 0%nat) (Gb 5%nat 1%nat) (Gb 5%nat 2%nat) (Gb 6%nat 0%nat) (Gb 6%nat 1%nat) (Gb 6%nat 2%nat) (Gb 7%nat 0%nat) (Gb 7%nat 1%nat) (Gb 7%nat 2%nat) (Gb 8%nat 0%nat) (Gb 8%nat 1%nat) (Gb 8%nat 2%nat) (Gc 0%nat 0%nat) (Gc 0%nat 1%nat) (Gc 0%nat 2%nat) (Gc 1%nat 0%nat) (Gc 1%nat 1%nat) (Gc 1%nat 2%nat) (Gc 2%nat 0%nat) (Gc 2%nat 1%nat) (Gc 2%nat 2%nat) (Gc 3%nat 0%nat) (Gc 3%nat 1%nat) (Gc 3%nat 2%nat) (Gc 4%nat 0%nat) (Gc 4%nat 1%nat) (Gc 4%nat 2%nat) (Gc 5%nat 0%nat) (Gc 5%nat 1%nat) (Gc 5%nat 2%nat) (Gc 6%nat 0%nat) (Gc 6%nat 1%nat) (Gc 6%nat 2%nat) (Gc 7%nat 0%nat) (Gc 7%nat 1%nat) (Gc 7%nat 2%nat) (Gc 8%nat 0%nat) (Gc 8%nat 1%nat) (Gc 8%nat 2%nat) (Aa 0%nat 0%nat) (Aa 0%nat 1%nat) (Aa 0%nat 2%nat) (Aa 1%nat 0%nat) (Aa 1%nat 1%nat) (Aa 1%nat 2%nat) (Aa 2%nat 0%nat) (Aa 2%nat 1%nat) (Aa 2%nat 2%nat) (Aa 3%nat 0%nat) (Aa 3%nat 1%nat) (Aa 3%nat 2%nat) (Aa 4%nat 0%nat) (Aa 4%nat 1%nat) (Aa 4%nat 2%nat) (Aa 5%nat 0%nat) (Aa 5%nat 1%nat) (Aa 5%nat 2%nat) (Aa 6%nat 0%nat) (Aa 6%nat 1%nat) (Aa 6%nat 2%nat) (Aa 7%nat 0%nat) (Aa 7%nat 1%nat) (Aa 7%nat 2%nat) (Aa 8%nat 0%nat) (Aa 8%nat 1%nat) (Aa 8%nat 2%nat) (Ab 0%nat 0%nat) (Ab 0%nat 1%nat) (Ab 0%nat 2%nat) (Ab 1%nat 0%nat) (Ab 1%nat 1%nat) (Ab 1%nat 2%nat) (Ab 2%nat 0%nat) (Ab 2%nat 1%nat) (Ab 2%nat 2%nat) (Ab 3%nat 0%nat) (Ab 3%nat 1%nat) (Ab 3%nat 2%nat) (Ab 4%nat 0%nat) (Ab 4%nat 1%nat) (Ab 4%nat 2%nat) (Ab 5%nat 0%nat) (Ab 5%nat 1%nat) (Ab 5%nat 2%nat) (Ab 6%nat 0%nat) (Ab 6%nat 1%nat) (Ab 6%nat 2%nat) (Ab 7%nat 0%nat) (Ab 7%nat 1%nat) (Ab 7%nat 2%nat) (Ab 8%nat 0%nat) (Ab 8%nat 1%nat) (Ab 8%nat 2%nat) (Ac 0%nat 0%nat) (Ac 0%nat 1%nat) (Ac 0%nat 2%nat) (Ac 1%nat 0%nat) (Ac 1%nat 1%nat) (Ac 1%nat 2%nat) (Ac 2%nat 0%nat) (Ac 2%nat 1%nat) (Ac 2%nat 2%nat) (Ac 3%nat 0%nat) (Ac 3%nat 1%nat) (Ac 3%nat 2%nat) (Ac 4%nat 0%nat) (Ac 4%nat 1%nat) (Ac 4%nat 2%nat) (Ac 5%nat 0%nat) (Ac 5%nat 1%nat) (Ac 5%nat 2%nat) (Ac 6%nat 0%nat) (Ac 6%nat 1%nat) (Ac 6%nat 2%nat) (Ac 7%nat 0%nat) (Ac 7%nat 1%nat) (Ac 7%nat 2%nat) (Ac 8%nat 0%nat) (Ac 8%nat 1%nat) (Ac 8%nat 2%nat) (x 0%nat) (x 1%nat) (x 2%nat) (x 3%nat) (x 4%nat) (x 5%nat) (x 6%nat) (x 7%nat) (x 8%nat) (eg 0%nat) (eg 1%nat) (eg 2%nat) (ea 0%nat) (ea 1%nat) (ea 2%nat)
  | 8 => prop3d3_z8 dt1 dt2 (Fa 0%nat 0%nat) (Fa 0%nat 1%nat) (Fa 0%nat 2%nat) (Fa 0%nat 3%nat) (Fa 0%nat 4%nat) (Fa 0%nat 5%nat) (Fa 0%nat 6%nat) (Fa 0%nat 7%nat) (Fa 0%nat 8%nat) (Fa 1%nat 0%nat) (Fa 1%nat 1%nat) (Fa 1%nat 2%nat) (Fa 1%nat 3%nat) (Fa 1%nat 4%nat) (Fa 1%nat 5%nat) (Fa 1%nat 6%nat) (Fa 1%nat 7%nat) (Fa 1%nat 8%nat) (Fa 2%nat 0%nat) (Fa 2%nat 1%nat) (Fa 2%nat 2%nat) (Fa 2%nat 3%nat) (Fa 2%nat 4%nat) (Fa 2%nat 5%nat) (Fa 2%nat 6%nat) (Fa 2%nat 7%nat) (Fa 2%nat 8%nat) (Fa 3%nat 0%nat) (Fa 3%nat 1%nat) (Fa 3%nat 2%nat) (Fa 3%nat 3%nat) (Fa 3%nat 4%nat) (Fa 3%nat 5%nat) (Fa 3%nat 6%nat) (Fa 3%nat 7%nat) (Fa 3%nat 8%nat) (Fa 4%nat 0%nat) (Fa 4%nat 1%nat) (Fa 4%nat 2%nat) (Fa 4%nat 3%nat) (Fa 4%nat 4%nat) (Fa 4%nat 5%nat) (Fa 4%nat 6%nat) (Fa 4%nat 7%nat) (Fa 4%nat 8%nat) (Fa 5%nat 0%nat) (Fa 5%nat 1%nat) (Fa 5%nat 2%nat) (Fa 5%nat 3%nat) (Fa 5%nat 4%nat) (Fa 5%nat 5%nat) (Fa 5%nat 6%nat) (Fa 5%nat 7%nat) (Fa 5%nat 8%nat) (Fa 6%nat 0%nat) (Fa 6%nat 1%nat) (Fa 6%nat 2%nat) (Fa 6%nat 3%nat) (Fa 6%nat 4%nat) (Fa 6%nat 5%nat) (Fa 6%nat 6%nat) (Fa 6%nat 7%nat) (Fa 6%nat 8%nat) (Fa 7%nat 0%nat) (Fa 7%nat 1%nat) (Fa 7%nat 2%nat) (Fa 7%nat 3%nat) (Fa 7%nat 4%nat) (Fa 7%nat 5%nat) (Fa 7%nat 6%nat) (Fa 7%nat 7%nat) (Fa 7%nat 8%nat) (Fa 8%nat 0%nat) (Fa 8%nat 1%nat) (Fa 8%nat 2%nat) (Fa 8%nat 3%nat) (Fa 8%nat 4%nat) (Fa 8%nat 5%nat) (Fa 8%nat 6%nat) (Fa 8%nat 7%nat) (Fa 8%nat 8%nat) (Fb 0%nat 0%nat) (Fb 0%nat 1%nat) (Fb 0%nat 2%nat) (Fb 0%nat 3%nat) (Fb 0%nat 4%nat) (Fb 0%nat 5%nat) (Fb 0%nat 6%nat) (Fb 0%nat 7%nat) (Fb 0%nat 8%nat) (Fb 1%nat 0%nat) (Fb 1%nat 1%nat) (Fb 1%nat 2%nat) (Fb 1%nat 3%nat) (Fb 1%nat 4%nat) (Fb 1%nat 5%nat) (Fb 1%nat 6%nat) (Fb 1%nat 7%nat) (Fb 1%nat 8%nat) (Fb 2%nat 0%nat) (Fb 2%nat 1%nat) (Fb 2%nat 2%nat) (Fb 2%nat 3%nat) (Fb 2%nat 4%nat) (Fb 2%nat 5%nat) (Fb 2%nat 6%nat) (Fb 2%nat 7%nat) (Fb 2%nat 8%nat) (Fb 3%nat 0%nat) (Fb 3%nat 1%nat) (Fb 3%nat 2%nat) (Fb 3%nat 3%nat) (Fb 3%nat 4%nat) (Fb 3%nat 5%nat) (Fb 3%nat 6%nat) (Fb 3%nat 7%nat) (Fb 3%nat 8%nat) (Fb 4%nat 0%nat) (Fb 4%nat 1%nat) (Fb 4%nat 2%nat) (Fb 4%nat 3%nat) (Fb 4%nat 4%nat) (Fb 4%nat 5%nat) (Fb 4%nat 6%nat) (Fb 4%nat 7%nat) (Fb 4%nat 8%nat) (Fb 5%nat 0%nat) (Fb 5%nat 1%nat) (Fb 5%nat 2%nat) (Fb 5%nat 3%nat) (Fb 5%nat 4%nat) (Fb 5%nat 5%nat) (Fb 5%nat 6%nat) (Fb 5%nat 7%nat) (Fb 5%nat 8%nat) (Fb 6%nat 0%nat) (Fb 6%nat 1%nat) (Fb 6%nat 2%nat) (Fb 6%nat 3%nat) (Fb 6%nat 4%nat) (Fb 6%nat 5%nat) (Fb 6%nat 6%nat) (Fb 6%nat 7%nat) (Fb 6%nat 8%nat) (Fb 7%nat 0%nat) (Fb 7%nat 1%nat) (Fb 7%nat 2%nat) (Fb 7%nat 3%nat) (Fb 7%nat 4%nat) (Fb 7%nat 5%nat) (Fb 7%nat 6%nat) (Fb 7%nat 7%nat) (Fb 7%nat 8%nat) (Fb 8%nat 0%nat) (Fb 8%nat 1%nat) (Fb 8%nat 2%nat) (Fb 8%nat 3%nat) (Fb 8%nat 4%nat) (Fb 8%nat 5%nat) (Fb 8%nat 6%nat) (Fb 8%nat 7%nat) (Fb 8%nat 8%nat) (Fc 0%nat 0%nat) (Fc 0%nat 1%nat) (Fc 0%nat 2%nat) (Fc 0%nat 3%nat) (Fc 0%nat 4%nat) (Fc 0%nat 5%nat) (Fc 0%nat 6%nat) (Fc 0%nat 7%nat) (Fc 0%nat 8%nat) (Fc 1%nat 0%nat) (Fc 1%nat 1%nat) (Fc 1%nat 2%nat) (Fc 1%nat 3%nat) (Fc 1%nat 4%nat) (Fc 1%nat 5%nat) (Fc 1%nat 6%nat) (Fc 1%nat 7%nat) (Fc 1%nat 8%nat) (Fc 2%nat 0%nat) (Fc 2%nat 1%nat) (Fc 2%nat 2%nat) (Fc 2%nat 3%nat) (Fc 2%nat 4%nat) (Fc 2%nat 5%nat) (Fc 2%nat 6%nat) (Fc 2%nat 7%nat) (Fc 2%nat 8%nat) (Fc 3%nat 0%nat) (Fc 3%nat 1%nat) (Fc 3%nat 2%nat) (Fc 3%nat 3%nat) (Fc 3%nat 4%nat) (Fc 3%nat 5%nat) (Fc 3%nat 6%nat) (Fc 3%nat 7%nat) (Fc 3%nat 8%nat) (Fc 4%nat 0%nat) (Fc 4%nat 1%nat) (Fc 4%nat 2%nat) (Fc 4%nat 3%nat) (Fc 4%nat 4%nat) (Fc 4%nat 5%nat) (Fc 4%nat 6%nat) (Fc 4%nat 7%nat) (Fc 4%nat 8%nat) (Fc 5%nat 0%nat) (Fc 5%nat 1%nat) (Fc 5%nat 2%nat) (Fc 5%nat 3%nat) (Fc 5%nat 4%nat) (Fc 5%nat 5%nat) (Fc 5%nat 6%nat) (Fc 5%nat 7%nat) (Fc 5%nat 8%nat) (Fc 6%nat 0%nat) (Fc 6%nat 1%nat) (Fc 6%nat 2%nat) (Fc 6%nat 3%nat) (Fc 6%nat 4%nat) (Fc 6%nat 5%nat) (Fc 6%nat 6%nat) (Fc 6%nat 7%nat) (Fc 6%nat 8%nat) (Fc 7%nat 0%nat) (Fc 7%nat 1%nat) (Fc 7%nat 2%nat) (Fc 7%nat 3%nat) (Fc 7%nat 4%nat) (Fc 7%nat 5%nat) (Fc 7%nat 6%nat) (Fc 7%nat 7%nat) (Fc 7%nat 8%nat) (Fc 8%nat 0%nat) (Fc 8%nat 1%nat) (Fc 8%nat 2%nat) (Fc 8%nat 3%nat) (Fc 8%nat 4%nat) (Fc 8%nat 5%nat) (Fc 8%nat 6%nat) (Fc 8%nat 7%nat) (Fc 8%nat 8%nat) (Ga 0%nat 0%nat) (Ga 0%nat 1%nat) (Ga 0%nat 2%nat) (Ga 1%nat 0%nat) (Ga 1%nat 1%nat) (Ga 1%nat 2%nat) (Ga 2%nat 0%nat) (Ga 2%nat 1%nat) (Ga 2%nat 2%nat) (Ga 3%nat 0%nat) (Ga 3%nat 1%nat) (Ga 3%nat 2%nat) (Ga 4%nat 0%nat) (Ga 4%nat 1%nat) (Ga 4%nat 2%nat) (Ga 5%nat 0%nat) (Ga 5%nat 1%nat) (Ga 5%nat 2%nat) (Ga 6%nat 0%nat) (Ga 6%nat 1%nat) (Ga 6%nat 2%nat) (Ga 7%nat 0%nat) (Ga 7%nat 1%nat) (Ga 7%nat 2%nat) (Ga 8%nat 0%nat) (Ga 8%nat 1%nat) (Ga 8%nat 2%nat) (Gb 0%nat 0%nat) (Gb 0%nat 1%nat) (Gb 0%nat 2%nat) (Gb 1%nat 0%nat) (Gb 1%nat 1%nat) (Gb 1%nat 2%nat) (Gb 2%nat 0%nat) (Gb 2%nat 1%nat) (Gb 2%nat 2%nat) (Gb 3%nat 0%nat) (Gb 3%nat 1%nat) (Gb 3%nat 2%nat) (Gb 4%nat 0%nat) (Gb 4%nat 1%nat) (Gb 4%nat 2%nat) (Gb 5%nat 0%nat) (Gb 5%nat 1%nat) (Gb 5%nat 2%nat) (Gb 6%nat 0%nat) (Gb 6%nat 1%nat) (Gb 6%nat 2%nat) (Gb 7%nat 0%nat) (Gb 7%nat 1%nat) (Gb 7%nat 2%nat) (Gb 8%nat 0%nat) (Gb 8%nat 1%nat) (Gb 8%nat 2%nat) (Gc 0%nat 0%nat) (Gc 0%nat 1%nat) (Gc 0%nat 2%nat) (Gc 1%nat 0%nat) (Gc 1%nat 1%nat) (Gc 1%nat 2%nat) (Gc 2%nat 0%nat) (Gc 2%nat 1%nat) (Gc 2%nat 2%nat) (Gc 3%nat 0%nat) (Gc 3%nat 1%nat) (Gc 3%nat 2%nat) (Gc 4%nat 0%nat) (Gc 4%nat 1%nat) (Gc 4%nat 2%nat) (Gc 5%nat 0%nat) (Gc 5%nat 1%nat) (Gc 5%nat 2%nat) (Gc 6%nat 0%nat) (Gc 6%nat 1%nat) (Gc 6%nat 2%nat) (Gc 7%nat 0%nat) (Gc 7%nat 1%nat) (Gc 7%nat 2%nat) (Gc 8%nat 0%nat) (Gc 8%nat 1%nat) (Gc 8%nat 2%nat) (Aa 0%nat 0%nat) (Aa 0%nat 1%nat) (Aa 0%nat 2%nat) (Aa 1%nat 0%nat) (Aa 1%nat 1%nat) (Aa 1%nat 2%nat) (Aa 2%nat 0%nat) (Aa 2%nat 1%nat) (Aa 2%nat 2%nat) (Aa 3%nat 0%nat) (Aa 3%nat 1%nat) (Aa 3%nat 2%nat) (Aa 4%nat 0%nat) (Aa 4%nat 1%nat) (Aa 4%nat 2%nat) (Aa 5%nat 0%nat) (Aa 5%nat 1%nat) (Aa 5%nat 2%nat) (Aa 6%nat 0%nat) (Aa 6%nat 1%nat) (Aa 6%nat 2%nat) (Aa 7%nat 0%nat) (Aa 7%nat 1%nat) (Aa 7%nat 2%nat) (Aa 8%nat 0%nat) (Aa 8%nat 1%nat) (Aa 8%nat 2%nat) (Ab 0%nat 0%nat) (Ab 0%nat 1%nat) (Ab 0%nat 2%nat) (Ab 1%nat 0%nat) (Ab 1%nat 1%nat) (Ab 1%nat 2%nat) (Ab 2%nat 0%nat) (Ab 2%nat 1%nat) (Ab 2%nat 2%nat) (Ab 3%nat 0%nat) (Ab 3%nat 1%nat) (Ab 3%nat 2%nat) (Ab 4%nat 0%nat) (Ab 4%nat 1%nat) (Ab 4%nat 2%nat) (Ab 5%nat 0%nat) (Ab 5%nat 1%nat) (Ab 5%nat 2%nat) (Ab 6%nat 0%nat) (Ab 6%nat 1%nat) (Ab 6%nat 2%nat) (Ab 7%nat 0%nat) (Ab 7%nat 1%nat) (Ab 7%nat 2%nat) (Ab 8%nat 0%nat) (Ab 8%nat 1%nat) (Ab 8%nat 2%nat) (Ac 0%nat 0%nat) (Ac 0%nat 1%nat) (Ac 0%nat 2%nat) (Ac 1%nat 0%nat) (Ac 1%nat 1%nat) (Ac 1%nat 2%nat) (Ac 2%nat 0%nat) (Ac 2%nat 1%nat) (Ac 2%nat 2%nat) (Ac 3%nat 0%nat) (Ac 3%nat 1%nat) (Ac 3%nat 2%nat) (Ac 4%nat 0%nat) (Ac 4%nat 1%nat) (Ac 4%nat 2%nat) (Ac 5%nat 0%nat) (Ac 5%nat 1%nat) (Ac 5%nat 2%nat) (Ac 6%nat 0%nat) (Ac 6%nat 1%nat) (Ac 6%nat 2%nat) (Ac 7%nat 0%nat) (Ac 7%nat 1%nat) (Ac 7%nat 2%nat) (Ac 8%nat 0%nat) (Ac 8%nat 1%nat) (Ac 8%nat 2%nat) (x 0%nat) (x 1%nat) (x 2%nat) (x 3%nat) (x 4%nat) (x 5%nat) (x 6%nat) (x 7%nat) (x 8%nat) (eg 0%nat) (eg 1%nat) (eg 2%nat) (ea 0%nat) (ea 1%nat) (ea 2%nat)
  | _ => 0%R
  end%nat.

(** The trace of the second row names the values of the first row; they are folded back to [propT3 j ...], so that
    the row is compared with the affine form of [prop3] over nine atoms X_j.  Should the trace not share them,
    nothing is folded and the first row is expanded instead. *)
Ltac fold_rows T j :=
  match goal with |- context [T _ ?dt1 ?dt2 ?Fa ?Fb ?Fc ?Ga ?Gb ?Gc ?Aa ?Ab ?Ac ?x ?eg ?ea] =>
    let t := eval cbv beta iota delta [T prop3d3_x0 prop3d3_x1 prop3d3_x2 prop3d3_x3 prop3d3_x4 prop3d3_x5 prop3d3_x6 prop3d3_x7 prop3d3_x8 prop2d3_x0 prop2d3_x1 prop2d3_x2 prop2d3_x3 prop2d3_x4 prop2d3_x5 prop2d3_x6]
               in (T j dt1 dt2 Fa Fb Fc Ga Gb Gc Aa Ab Ac x eg ea) in
    change t with (T j dt1 dt2 Fa Fb Fc Ga Gb Gc Aa Ab Ac x eg ea) end.

Lemma propagate_rows_uniform_3d : forall (Fa Fb Fc Ga Gb Gc Aa Ab Ac : mat) (x eg ea : nat -> R) (dt1 dt2 : R) (i : nat),
  (i < 9)%nat ->
  propT3 i dt1 dt2 Fa Fb Fc Ga Gb Gc Aa Ab Ac x eg ea = prop3 i dt1 Fa Fb Ga Gb Aa Ab x eg ea /\
  propT3' i dt1 dt2 Fa Fb Fc Ga Gb Gc Aa Ab Ac x eg ea =
    prop3 i dt2 Fb Fc Gb Gc Ab Ac (fun j => propT3 j dt1 dt2 Fa Fb Fc Ga Gb Gc Aa Ab Ac x eg ea) eg ea.
Proof.
  intros Fa Fb Fc Ga Gb Gc Aa Ab Ac x eg ea dt1 dt2 i Hi. rewrite !prop3_affine by exact Hi. split.
  - cases_lt lt9_cases i Hi; unfold propT3, rate3; unfold prop3d3_x0, prop3d3_x1, prop3d3_x2, prop3d3_x3, prop3d3_x4, prop3d3_x5, prop3d3_x6, prop3d3_x7, prop3d3_x8;
      repeat autounfold with prop3d3_db; lra.
  - cases_lt lt9_cases i Hi; unfold propT3', rate3; unfold prop3d3_z0, prop3d3_z1, prop3d3_z2, prop3d3_z3, prop3d3_z4, prop3d3_z5, prop3d3_z6, prop3d3_z7, prop3d3_z8;
      fold_rows propT3 0%nat; fold_rows propT3 1%nat; fold_rows propT3 2%nat; fold_rows propT3 3%nat;
      fold_rows propT3 4%nat; fold_rows propT3 5%nat; fold_rows propT3 6%nat; fold_rows propT3 7%nat;
      fold_rows propT3 8%nat; repeat autounfold with prop3d3_db; 
      first [lra | unfold propT3, prop3d3_x0, prop3d3_x1, prop3d3_x2, prop3d3_x3, prop3d3_x4, prop3d3_x5, prop3d3_x6, prop3d3_x7, prop3d3_x8; repeat autounfold with prop3d3_db; lra].
Qed.

Definition propT2 (i : nat) (dt1 dt2 : R) (Fa Fb Fc Ga Gb Gc Aa Ab Ac : mat) (x eg ea : nat -> R) : R :=
  match i with
  | 0 => prop2d3_x0 dt1 dt2 (Fa 0%nat 0%nat) (Fa 0%nat 1%nat) (Fa 0%nat 2%nat) (Fa 0%nat 3%nat) (Fa 0%nat 4%nat) (Fa 0%nat 5%nat) (Fa 0%nat 6%nat) (Fa 1%nat 0%nat) (Fa 1%nat 1%nat) (Fa 1%nat 2%nat) (Fa 1%nat 3%nat) (Fa 1%nat 4%nat) (Fa 1%nat 5%nat) (Fa 1%nat 6%nat) (Fa 2%nat 0%nat) (Fa 2%nat 1%nat) (Fa 2%nat 2%nat) (Fa 2%nat 3%nat) (Fa 2%nat 4%nat) (Fa 2%nat 5%nat) (Fa 2%nat 6%nat) (Fa 3%nat 0%nat) (Fa 3%nat 1%nat) (Fa 3%nat 2%nat) (Fa 3%nat 3%nat) (Fa 3%nat 4%nat) (Fa 3%nat 5%nat) (Fa 3%nat 6%nat) (Fa 4%nat 0%nat) (Fa 4%nat 1%nat) (Fa 4%nat 2%nat) (Fa 4%nat 3%nat) (Fa 4%nat 4%nat) (Fa 4%nat 5%nat) (Fa 4%nat 6%nat) (Fa 5%nat 0%nat) (Fa 5%nat 1%nat) (Fa 5%nat 2%nat) (Fa 5%nat 3%nat) (Fa 5%nat 4%nat) (Fa 5%nat 5%nat) (Fa 5%nat 6%nat) (Fa 6%nat 0%nat) (Fa 6%nat 1%nat) (Fa 6%nat 2%nat) (Fa 6%nat 3%nat) (Fa 6%nat 4%nat) (Fa 6%nat 5%nat) (Fa 6%nat 6%nat) (Fb 0%nat 0%nat) (Fb 0%nat 1%nat) (Fb 0%nat 2%nat) (Fb 0%nat 3%nat) (Fb 0%nat 4%nat) (Fb 0%nat 5%nat) (Fb 0%nat 6%nat) (Fb 1%nat 0%nat) (Fb 1%nat 1%nat) (Fb 1%nat 2%nat) (Fb 1%nat 3%nat) (Fb 1%nat 4%nat) (Fb 1%nat 5%nat) (Fb 1%nat 6%nat) (Fb 2%nat 0%nat) (Fb 2%nat 1%nat) (Fb 2%nat 2%nat) (Fb 2%nat 3%nat) (Fb 2%nat 4%nat) (Fb 2%nat 5%nat) (Fb 2%nat 6%nat) (Fb 3%nat 0%nat) (Fb 3%nat 1%nat) (Fb 3%nat 2%nat) (Fb 3%nat 3%nat) (Fb 3%nat 4%nat) (Fb 3%nat 5%nat) (Fb 3%nat 6%nat) (Fb 4%nat 0%nat) (Fb 4%nat 1%nat) (Fb 4%nat 2%nat) (Fb 4%nat 3%nat) (Fb 4%nat 4%nat) (Fb 4%nat 5%nat) (Fb 4%nat 6%nat) (Fb 5%nat 0%nat) (Fb 5%nat 1%nat) (Fb 5%nat 2%nat) (Fb 5%nat 3%nat) (Fb 5%nat 4%nat) (Fb 5%nat 5%nat) (Fb 5%nat 6%nat) (Fb 6%nat 0%nat) (Fb 6%nat 1%nat) (Fb 6%nat 2%nat) (Fb 6%nat 3%nat) (Fb 6%nat 4%nat) (Fb 6%nat 5%nat) (Fb 6%nat 6%nat) (Fc 0%nat 0%nat) (Fc 0%nat 1%nat) (Fc 0%nat 2%nat) (Fc 0%nat 3%nat) (Fc 0%nat 4%nat) (Fc 0%nat 5%nat) (Fc 0%nat 6%nat) (Fc 1%nat 0%nat) (Fc 1%nat 1%nat) (Fc 1%nat 2%nat) (Fc 1%nat 3%nat) (Fc 1%nat 4%nat) (Fc 1%nat 5%nat) (Fc 1%nat 6%nat) (Fc 2%nat 0%nat) (Fc 2%nat 1%nat) (Fc 2%nat 2%nat) (Fc 2%nat 3%nat) (Fc 2%nat 4%nat) (Fc 2%nat 5%nat) (Fc 2%nat 6%nat) (Fc 3%nat 0%nat) (Fc 3%nat 1%nat) (Fc 3%nat 2%nat) (Fc 3%nat 3%nat) (Fc 3%nat 4%nat) (Fc 3%nat 5%nat) (Fc 3%nat 6%nat) (Fc 4%nat 0%nat) (Fc 4%nat 1%nat) (Fc 4%nat 2%nat) (Fc 4%nat 3%nat) (Fc 4%nat 4%nat) (Fc 4%nat 5%nat) (Fc 4%nat 6%nat) (Fc 5%nat 0%nat) (Fc 5%nat 1%nat) (Fc 5%nat 2%nat) (Fc 5%nat 3%nat) (Fc 5%nat 4%nat) (Fc 5%nat 5%nat) (Fc 5%nat 6%nat) (Fc 6%nat 0%nat) (Fc 6%nat 1%nat) (Fc 6%nat 2%nat) (Fc 6%nat 3%nat) (Fc 6%nat 4%nat) (Fc 6%nat 5%nat) (Fc 6%nat 6%nat) (Ga 0%nat 0%nat) (Ga 0%nat 1%nat) (Ga 0%nat 2%nat) (Ga 1%nat 0%nat) (Ga 1%nat 1%nat) (Ga 1%nat 2%nat) (Ga 2%nat 0%nat) (Ga 2%nat 1%nat) (Ga 2%nat 2%nat) (Ga 3%nat 0%nat) (Ga 3%nat 1%nat) (Ga 3%nat 2%nat) (Ga 4%nat 0%nat) (Ga 4%nat 1%nat) (Ga 4%nat 2%nat) (Ga 5%nat 0%nat) (Ga 5%nat 1%nat) (Ga 5%nat 2%nat) (Ga 6%nat 0%nat) (Ga 6%nat 1%nat) (Ga 6%nat 2%nat) (Gb 0%nat 0%nat) (Gb 0%nat 1%nat) (Gb 0%nat 2%nat) (Gb 1%nat 0%nat) (Gb 1%nat 1%nat) (Gb 1%nat 2%nat) (Gb 2%nat 0%nat) (Gb 2%nat 1%nat) (Gb 2%nat 2%nat) (Gb 3%nat 0%nat) (Gb 3%nat 1%nat) (Gb 3%nat 2%nat) (Gb 4%nat 0%nat) (Gb 4%nat 1%nat) (Gb 4%nat 2%nat) (Gb 5%nat 0%nat) (Gb 5%nat 1%nat) (Gb 5%nat 2%nat) (Gb 6%nat 0%nat) (Gb 6%nat 1%nat) (Gb 6%nat 2%nat) (Gc 0%nat 0%nat) (Gc 0%nat 1%nat) (Gc 0%nat 2%nat) (Gc 1%nat 0%nat) (Gc 1%nat 1%nat) (Gc 1%nat 2%nat) (Gc 2%nat 0%nat) (Gc 2%nat 1%nat) (Gc 2%nat 2%nat) (Gc 3%nat 0%nat) (Gc 3%nat 1%nat) (Gc 3%nat 2%nat) (Gc 4%nat 0%nat) (Gc 4%nat 1%nat) (Gc 4%nat 2%nat) (Gc 5%nat 0%nat) (Gc 5%nat 1%nat) (Gc 5%nat 2%nat) (Gc 6%nat 0%nat) (Gc 6%nat 1%nat) (Gc 6%nat 2%nat) (Aa 0%nat 0%nat) (Aa 0%nat 1%nat) (Aa 0%nat 2%nat) (Aa 1%nat 0%nat) (Aa 1%nat 1%nat) (Aa 1%nat 2%nat) (Aa 2%nat 0%nat) (Aa 2%nat 1%nat) (Aa 2%nat 2%nat) (Aa 3%nat 0%nat) (Aa 3%nat 1%nat) (Aa 3%nat 2%nat) (Aa 4%nat 0%nat) (Aa 4%nat 1%nat) (Aa 4%nat 2%nat) (Aa 5%nat 0%nat) (Aa 5%nat 1%nat) (Aa 5%nat 2%nat) (Aa 6%nat 0%nat) (Aa 6%nat 1%nat) (Aa 6%nat 2%nat) (Ab 0%nat 0%nat) (Ab 0%nat 1%nat) (Ab 0%nat 2%nat) (Ab 1%nat 0%nat) (Ab 1%nat 1%nat) (Ab 1%nat 2%nat) (Ab 2%nat 0%nat) (Ab 2%nat 1%nat) (Ab 2%nat 2%nat) (Ab 3%nat 0%nat) (Ab 3%nat 1%nat) (Ab 3%nat 2%nat) (Ab 4%nat 0%nat) (Ab 4%nat 1%nat) (Ab 4%nat 2%nat) (Ab 5%nat 0%nat) (Ab 5%nat 1%nat) (Ab 5%nat 2%nat) (Ab 6%nat 0%nat) (Ab 6%nat 1%nat) (Ab 6%nat 2%nat) (Ac 0%nat 0%nat) (Ac 0%nat 1%nat) (Ac 0%nat 2%nat) (Ac 1%nat 0%nat) (Ac 1%nat 1%nat) (Ac 1%nat 2%nat) (Ac 2%nat 0%nat) (Ac 2%nat 1%nat) (Ac 2%nat 2%nat) (Ac 3%nat 0%nat) (Ac 3%nat 1%nat) (Ac 3%nat 2%nat) (Ac 4%nat 0%nat) (Ac 4%nat 1%nat) (Ac 4%nat 2%nat) (Ac 5%nat 0%nat) (Ac 5%nat 1%nat) (Ac 5%nat 2%nat) (Ac 6%nat 0%nat) (Ac 6%nat 1%nat) (Ac 6%nat 2%nat) (x 0%nat) (x 1%nat) (x 2%nat) (x 3%nat) (x 4%nat) (x 5%nat) (x 6%nat) (eg 0%nat) (eg 1%nat) (eg 2%nat) (ea 0%nat) (ea 1%nat) (ea 2%nat)
  | 1 => prop2d3_x1 dt1 dt2 (Fa 0%nat 0%nat) (Fa 0%nat 1%nat) (Fa 0%nat 2%nat) (Fa 0%nat 3%nat) (Fa 0%nat 4%nat) (Fa 0%nat 5%nat) (Fa 0%nat 6%nat) (Fa 1%nat 0%nat) (Fa 1%nat 1%nat) (Fa 1%nat 2%nat) (Fa 1%nat 3%nat) (Fa 1%nat 4%nat) (Fa 1%nat 5%nat) (Fa 1%nat 6%nat) (Fa 2%nat 0%nat) (Fa 2%nat 1%nat) (Fa 2%nat 2%nat) (Fa 2%nat 3%nat) (Fa 2%nat 4%nat) (Fa 2%nat 5%nat) (Fa 2%nat 6%nat) (Fa 3%nat 0%nat) (Fa 3%nat 1%nat) (Fa 3%nat 2%nat) (Fa 3%nat 3%nat) (Fa 3%nat 4%nat) (Fa 3%nat 5%nat) (Fa 3%nat 6%nat) (Fa 4%nat 0%nat) (Fa 4%nat 1%nat) (Fa 4%nat 2%nat) (Fa 4%nat 3%nat) (Fa 4%nat 4%nat) (Fa 4%nat 5%nat) (Fa 4%nat 6%nat) (Fa 5%nat 0%nat) (Fa 5%nat 1%nat) (Fa 5%nat 2%nat) (Fa 5%nat 3%nat) (Fa 5%nat 4%nat) (Fa 5%nat 5%nat) (Fa 5%nat 6%nat) (Fa 6%nat 0%nat) (Fa 6%nat 1%nat) (Fa 6%nat 2%nat) (Fa 6%nat 3%nat) (Fa 6%nat 4%nat) (Fa 6%nat 5%nat) (Fa 6%nat 6%nat) (Fb 0%nat 0%nat) (Fb 0%nat 1%nat) (Fb 0%nat 2%nat) (Fb 0%nat 3%nat) (Fb 0%nat 4%nat) (Fb 0%nat 5%nat) (Fb 0%nat 6%nat) (Fb 1%nat 0%nat) (Fb 1%nat 1%nat) (Fb 1%nat 2%nat) (Fb 1%nat 3%nat) (Fb 1%nat 4%nat) (Fb 1%nat 5%nat) (Fb 1%nat 6%nat) (Fb 2%nat 0%nat) (Fb 2%nat 1%nat) (Fb 2%nat 2%nat) (Fb 2%nat 3%nat) (Fb 2%nat 4%nat) (Fb 2%nat 5%nat) (Fb 2%nat 6%nat) (Fb 3%nat 0%nat) (Fb 3%nat 1%nat) (Fb 3%nat 2%nat) (Fb 3%nat 3%nat) (Fb 3%nat 4%nat) (Fb 3%nat 5%nat) (Fb 3%nat 6%nat) (Fb 4%nat 0%nat) (Fb 4%nat 1%nat) (Fb 4%nat 2%nat) (Fb 4%nat 3%nat) (Fb 4%nat 4%nat) (Fb 4%nat 5%nat) (Fb 4%nat 6%nat) (Fb 5%nat 0%nat) (Fb 5%nat 1%nat) (Fb 5%nat 2%nat) (Fb 5%nat 3%nat) (Fb 5%nat 4%nat) (Fb 5%nat 5%nat) (Fb 5%nat 6%nat) (Fb 6%nat 0%nat) (Fb 6%nat 1%nat) (Fb 6%nat 2%nat) (Fb 6%nat 3%nat) (Fb 6%nat 4%nat) (Fb 6%nat 5%nat) (Fb 6%nat 6%nat) (Fc 0%nat 0%nat) (Fc 0%nat 1%nat) (Fc 0%nat 2%nat) (Fc 0%nat 3%nat) (Fc 0%nat 4%nat) (Fc 0%nat 5%nat) (Fc 0%nat 6%nat) (Fc 1%nat 0%nat) (Fc 1%nat 1%nat) (Fc 1%nat 2%nat) (Fc 1%nat 3%nat) (Fc 1%nat 4%nat) (Fc 1%nat 5%nat) (Fc 1%nat 6%nat) (Fc 2%nat 0%nat) (Fc 2%nat 1%nat) (Fc 2%nat 2%nat) (Fc 2%nat 3%nat) (Fc 2%nat 4%nat) (Fc 2%nat 5%nat) (Fc 2%nat 6%nat) (Fc 3%nat 0%nat) (Fc 3%nat 1%nat) (Fc 3%nat 2%nat) (Fc 3%nat 3%nat) (Fc 3%nat 4%nat) (Fc 3%nat 5%nat) (Fc 3%nat 6%nat) (Fc 4%nat 0%nat) (Fc 4%nat 1%nat) (Fc 4%nat 2%nat) (Fc 4%nat 3%nat) (Fc 4%nat 4%nat) (Fc 4%nat 5%nat) (Fc 4%nat 6%nat) (Fc 5%nat 0%nat) (Fc 5%nat 1%nat) (Fc 5%nat 2%nat) (Fc 5%nat 3%nat) (Fc 5%nat 4%nat) (Fc 5%nat 5%nat) (Fc 5%nat 6%nat) (Fc 6%nat 0%nat) (Fc 6%nat 1%nat) (Fc 6%nat 2%nat) (Fc 6%nat 3%nat) (Fc 6%nat 4%nat) (Fc 6%nat 5%nat) (Fc 6%nat 6%nat) (Ga 0%nat 0%nat) (Ga 0%nat 1%nat) (Ga 0%nat 2%nat) (Ga 1%nat 0%nat) (Ga 1%nat 1%nat) (Ga 1%nat 2%nat) (Ga 2%nat 0%nat) (Ga 2%nat 1%nat) (Ga 2%nat 2%nat) (Ga 3%nat 0%nat) (Ga 3%nat 1%nat) (Ga 3%nat 2%nat) (Ga 4%nat 0%nat) (Ga 4%nat 1%nat) (Ga 4%nat 2%nat) (Ga 5%nat 0%nat) (Ga 5%nat 1%nat) (Ga 5%nat 2%nat) (Ga 6%nat 0%nat) (Ga 6%nat 1%nat) (Ga 6%nat 2%nat) (Gb 0%nat 0%nat) (Gb 0%nat 1%nat) (Gb 0%nat 2%nat) (Gb 1%nat 0%nat) (Gb 1%nat 1%nat) (Gb 1%nat 2%nat) (Gb 2%nat 0%nat) (Gb 2%nat 1%nat) (Gb 2%nat 2%nat) (Gb 3%nat 0%nat) (Gb 3%nat 1%nat) (Gb 3%nat 2%nat) (Gb 4%nat 0%nat) (Gb 4%nat 1%nat) (Gb 4%nat 2%nat) (Gb 5%nat 0%nat) (Gb 5%nat 1%nat) (Gb 5%nat 2%nat) (Gb 6%nat 0%nat) (Gb 6%nat 1%nat) (Gb 6%nat 2%nat) (Gc 0%nat 0%nat) (Gc 0%nat 1%nat) (Gc 0%nat 2%nat) (Gc 1%nat 0%nat) (Gc 1%nat 1%nat) (Gc 1%nat 2%nat) (Gc 2%nat 0%nat) (Gc 2%nat 1%nat) (Gc 2%nat 2%nat) (Gc 3%nat 0%nat) (Gc 3%nat 1%nat) (Gc 3%nat 2%nat) (Gc 4%nat 0%nat) (Gc 4%nat 1%nat) (Gc 4%nat 2%nat) (Gc 5%nat 0%nat) (Gc 5%nat 1%nat) (Gc 5%nat 2%nat) (Gc 6%nat 0%nat) (Gc 6%nat 1%nat) (Gc 6%nat 2%nat) (Aa 0%nat 0%nat) (Aa 0%nat 1%nat) (Aa 0%nat 2%nat) (Aa 1%nat 0%nat) (Aa 1%nat 1%nat) (Aa 1%nat 2%nat) (Aa 2%nat 0%nat) (Aa 2%nat 1%nat) (Aa 2%nat 2%nat) (Aa 3%nat 0%nat) (Aa 3%nat 1%nat) (Aa 3%nat 2%nat) (Aa 4%nat 0%nat) (Aa 4%nat 1%nat) (Aa 4%nat 2%nat) (Aa 5%nat 0%nat) (Aa 5%nat 1%nat) (Aa 5%nat 2%nat) (Aa 6%nat 0%nat) (Aa 6%nat 1%nat) (Aa 6%nat 2%nat) (Ab 0%nat 0%nat) (Ab 0%nat 1%nat) (Ab 0%nat 2%nat) (Ab 1%nat 0%nat) (Ab 1%nat 1%nat) (Ab 1%nat 2%nat) (Ab 2%nat 0%nat) (Ab 2%nat 1%nat) (Ab 2%nat 2%nat) (Ab 3%nat 0%nat) (Ab 3%nat 1%nat) (Ab 3%nat 2%nat) (Ab 4%nat 0%nat) (Ab 4%nat 1%nat) (Ab 4%nat 2%nat) (Ab 5%nat 0%nat) (Ab 5%nat 1%nat) (Ab 5%nat 2%nat) (Ab 6%nat 0%nat) (Ab 6%nat 1%nat) (Ab 6%nat 2%nat) (Ac 0%nat 0%nat) (Ac 0%nat 1%nat) (Ac 0%nat 2%nat) (Ac 1%nat 0%nat) (Ac 1%nat 1%nat) (Ac 1%nat 2%nat) (Ac 2%nat 0%nat) (Ac 2%nat 1%nat) (Ac 2%nat 2%nat) (Ac 3%nat 0%nat) (Ac 3%nat 1%nat) (Ac 3%nat 2%nat) (Ac 4%nat 0%nat) (Ac 4%nat 1%nat) (Ac 4%nat 2%nat) (Ac 5%nat 0%nat) (Ac 5%nat 1%nat) (Ac 5%nat 2%nat) (Ac 6%nat 0%nat) (Ac 6%nat 1%nat) (Ac 6%nat 2%nat) (x 0%nat) (x 1%nat) (x 2%nat) (x 3%nat) (x 4%nat) (x 5%nat) (x 6%nat) (eg 0%nat) (eg 1%nat) (eg 2%nat) (ea 0%nat) (ea 1%nat) (ea 2%nat)
  | 2 => prop2d3_x2 dt1 dt2 (Fa 0%nat 0%nat) (Fa 0%nat 1%nat) (Fa 0%nat 2%nat) (Fa 0%nat 3%nat) (Fa 0%nat 4%nat) (Fa 0%nat 5%nat) (Fa 0%nat 6%nat) (Fa 1%nat 0%nat) (Fa 1%nat 1%nat) (Fa 1%nat 2%nat) (Fa 1%nat 3%nat) (Fa 1%nat 4%nat) (Fa 1%nat 5%nat) (Fa 1%nat 6%nat) (Fa 2%nat 0%nat) (Fa 2%nat 1%nat) (Fa 2%nat 2%nat) (Fa 2%nat 3%nat) (Fa 2%nat 4%nat) (Fa 2%nat 5%nat) (Fa 2%nat 6%nat) (Fa 3%nat 0%nat) (Fa 3%nat 1%nat) (Fa 3%nat 2%nat) (Fa 3%nat 3%nat) (Fa 3%nat 4%nat) (Fa 3%nat 5%nat) (Fa 3%nat 6%nat) (Fa 4%nat 0%nat) (Fa 4%nat 1%nat) (Fa 4%nat 2%nat) (Fa 4%nat 3%nat) (Fa 4%nat 4%nat) (Fa 4%nat 5%nat) (Fa 4%nat 6%nat) (Fa 5%nat 0%nat) (Fa 5%nat 1%nat) (Fa 5%nat 2%nat) (Fa 5%nat 3%nat) (Fa 5%nat 4%nat) (Fa 5%nat 5%nat) (Fa 5%nat 6%nat) (Fa 6%nat 0%nat) (Fa 6%nat 1%nat) (Fa 6%nat 2%nat) (Fa 6%nat 3%nat) (Fa 6%nat 4%nat) (Fa 6%nat 5%nat) (Fa 6%nat 6%nat) (Fb 0%nat 0%nat) (Fb 0%nat 1%nat) (Fb 0%nat 2%nat) (Fb 0%nat 3%nat) (Fb 0%nat 4%nat) (Fb 0%nat 5%nat) (Fb 0%nat 6%nat) (Fb 1%nat 0%nat) (Fb 1%nat 1%nat) (Fb 1%nat 2%nat) (Fb 1%nat 3%nat) (Fb 1%nat 4%nat) (Fb 1%nat 5%nat) (Fb 1%nat 6%nat) (Fb 2%nat 0%nat) (Fb 2%nat 1%nat) (Fb 2%nat 2%nat) (Fb 2%nat 3%nat) (Fb 2%nat 4%nat) (Fb 2%nat 5%nat) (Fb 2%nat 6%nat) (Fb 3%nat 0%nat) (Fb 3%nat 1%nat) (Fb 3%nat 2%nat) (Fb 3%nat 3%nat) (Fb 3%nat 4%nat) (Fb 3%nat 5%nat) (Fb 3%nat 6%nat) (Fb 4%nat 0%nat) (Fb 4%nat 1%nat) (Fb 4%nat 2%nat) (Fb 4%nat 3%nat) (Fb 4%nat 4%nat) (Fb 4%nat 5%nat) (Fb 4%nat 6%nat) (Fb 5%nat 0%nat) (Fb 5%nat 1%nat) (Fb 5%nat 2%nat) (Fb 5%nat 3%nat) (Fb 5%nat 4%nat) (Fb 5%nat 5%nat) (Fb 5%nat 6%nat) (Fb 6%nat 0%nat) (Fb 6%nat 1%nat) (Fb 6%nat 2%nat) (Fb 6%nat 3%nat) (Fb 6%nat 4%nat) (Fb 6%nat 5%nat) (Fb 6%nat 6%nat) (Fc 0%nat 0%nat) (Fc 0%nat 1%nat) (Fc 0%nat 2%nat) (Fc 0%nat 3%nat) (Fc 0%nat 4%nat) (Fc 0%nat 5%nat) (Fc 0%nat 6%nat) (Fc 1%nat 0%nat) (Fc 1%nat 1%nat) (Fc 1%nat 2%nat) (Fc 1%nat 3%nat) (Fc 1%nat 4%nat) (Fc 1%nat 5%nat) (Fc 1%nat 6%nat) (Fc 2%nat 0%nat) (Fc 2%nat 1%nat) (Fc 2%nat 2%nat) (Fc 2%nat 3%nat) (Fc 2%nat 4%nat) (Fc 2%nat 5%nat) (Fc 2%nat 6%nat) (Fc 3%nat 0%nat) (Fc 3%nat 1%nat) (Fc 3%nat 2%nat) (Fc 3%nat 3%nat) (Fc 3%nat 4%nat) (Fc 3%nat 5%nat) (Fc 3%nat 6%nat) (Fc 4%nat 0%nat) (Fc 4%nat 1%nat) (Fc 4%nat 2%nat) (Fc 4%nat 3%nat) (Fc 4%nat 4%nat) (Fc 4%nat 5%nat) (Fc 4%nat 6%nat) (Fc 5%nat 0%nat) (Fc 5%nat 1%nat) (Fc 5%nat 2%nat) (Fc 5%nat 3%nat) (Fc 5%nat 4%nat) (Fc 5%nat 5%nat) (Fc 5%nat 6%nat) (Fc 6%nat 0%nat) (Fc 6%nat 1%nat) (Fc 6%nat 2%nat) (Fc 6%nat 3%nat) (Fc 6%nat 4%nat) (Fc 6%nat 5%nat) (Fc 6%nat 6%nat) (Ga 0%nat 0%nat) (Ga 0%nat 1%nat) (Ga 0%nat 2%nat) (Ga 1%nat 0%nat) (Ga 1%nat 1%nat) (Ga 1%nat 2%nat) (Ga 2%nat 0%nat) (Ga 2%nat 1%nat) (Ga 2%nat 2%nat) (Ga 3%nat 0%nat) (Ga 3%nat 1%nat) (Ga 3%nat 2%nat) (Ga 4%nat 0%nat) (Ga 4%nat 1%nat) (Ga 4%nat 2%nat) (Ga 5%nat 0%nat) (Ga 5%nat 1%nat) (Ga 5%nat 2%nat) (Ga 6%nat 0%nat) (Ga 6%nat 1%nat) (Ga 6%nat 2%nat) (Gb 0%nat 0%nat) (Gb 0%nat 1%nat) (Gb 0%nat 2%nat) (Gb 1%nat 0%nat) (Gb 1%nat 1%nat) (Gb 1%nat 2%nat) (Gb 2%nat 0%nat) (Gb 2%nat 1%nat) (Gb 2%nat 2%nat) (Gb 3%nat 0%nat) (Gb 3%nat 1%nat) (Gb 3%nat 2%nat) (Gb 4%nat 0%nat) (Gb 4%nat 1%nat) (Gb 4%nat 2%nat) (Gb 5%nat 0%nat) (Gb 5%nat 1%nat) (Gb 5%nat 2%nat) (Gb 6%nat 0%nat) (Gb 6%nat 1%nat) (Gb 6%nat 2%nat) (Gc 0%nat 0%nat) (Gc 0%nat 1%nat) (Gc 0%nat 2%nat) (Gc 1%nat 0%nat) (Gc 1%nat 1%nat) (Gc 1%nat 2%nat) (Gc 2%nat 0%nat) (Gc 2%nat 1%nat) (Gc 2%nat 2%nat) (Gc 3%nat 0%nat) (Gc 3%nat 1%nat) (Gc 3%nat 2%nat) (Gc 4%nat 0%nat) (Gc 4%nat 1%nat) (Gc 4%nat 2%nat) (Gc 5%nat 0%nat) (Gc 5%nat 1%nat) (Gc 5%nat 2%nat) (Gc 6%nat 0%nat) (Gc 6%nat 1%nat) (Gc 6%nat 2%nat) (Aa 0%nat 0%nat) (Aa 0%nat 1%nat) (Aa 0%nat 2%nat) (Aa 1%nat 0%nat) (Aa 1%nat 1%nat) (Aa 1%nat 2%nat) (Aa 2%nat 0%nat) (Aa 2%nat 1%nat) (Aa 2%nat 2%nat) (Aa 3%nat 0%nat) (Aa 3%nat 1%nat) (Aa 3%nat 2%nat) (Aa 4%nat 0%nat) (Aa 4%nat 1%nat) (Aa 4%nat 2%nat) (Aa 5%nat 0%nat) (Aa 5%nat 1%nat) (Aa 5%nat 2%nat) (Aa 6%nat 0%nat) (Aa 6%nat 1%nat) (Aa 6%nat 2%nat) (Ab 0%nat 0%nat) (Ab 0%nat 1%nat) (Ab 0%nat 2%nat) (Ab 1%nat 0%nat) (Ab 1%nat 1%nat) (Ab 1%nat 2%nat) (Ab 2%nat 0%nat) (Ab 2%nat 1%nat) (Ab 2%nat 2%nat) (Ab 3%nat 0%nat) (Ab 3%nat 1%nat) (Ab 3%nat 2%nat) (Ab 4%nat 0%nat) (Ab 4%nat 1%nat) (Ab 4%nat 2%nat) (Ab 5%nat 0%nat) (Ab 5%nat 1%nat) (Ab 5%nat 2%nat) (Ab 6%nat 0%nat) (Ab 6%nat 1%nat) (Ab 6%nat 2%nat) (Ac 0%nat 0%nat) (Ac 0%nat 1%nat) (Ac 0%nat 2%nat) (Ac 1%nat 0%nat) (Ac 1%nat 1%nat) (Ac 1%nat 2%nat) (Ac 2%nat 0%nat) (Ac 2%nat 1%nat) (Ac 2%nat 2%nat) (Ac 3%nat 0%nat) (Ac 3%nat 1%nat) (Ac 3%nat 2%nat) (Ac 4%nat 0%nat) (Ac 4%nat 1%nat) (Ac 4%nat 2%nat) (Ac 5%nat 0%nat) (Ac 5%nat 1%nat) (Ac 5%nat 2%nat) (Ac 6%nat 0%nat) (Ac 6%nat 1%nat) (Ac 6%nat 2%nat) (x 0%nat) (x 1%nat) (x 2%nat) (x 3%nat) (x 4%nat) (x 5%nat) (x 6%nat) (eg 0%nat) (eg 1%nat) (eg 2%nat) (ea 0%nat) (ea 1%nat) (ea 2%nat)
  | 3 => prop2d3_x3 dt1 dt2 (Fa 0%nat 0%nat) (Fa 0%nat 1%nat) (Fa 0%nat 2%nat) (Fa 0%nat 3%nat) (Fa 0%nat 4%nat) (Fa 0%nat 5%nat) (Fa 0%nat 6%nat) (Fa 1%nat 0%nat) (Fa 1%nat 1%nat) (Fa 1%nat 2%nat) (Fa 1%nat 3%nat) (Fa 1%nat 4%nat) (Fa 1%nat 5%nat) (Fa 1%nat 6%nat) (Fa 2%nat 0%nat) (Fa 2%nat 1%nat) (Fa 2%nat 2%nat) (Fa 2%nat 3%nat) (Fa 2%nat 4%nat) (Fa 2%nat 5%nat) (Fa 2%nat 6%nat) (Fa 3%nat 0%nat) (Fa 3%nat 1%nat) (Fa 3%nat 2%nat) (Fa 3%nat 3%nat) (Fa 3%nat 4%nat) (Fa 3%nat 5%nat) (Fa 3%nat 6%nat) (Fa 4%nat 0%nat) (Fa 4%nat 1%nat) (Fa 4%nat 2%nat) (Fa 4%nat 3%nat) (Fa 4%nat 4%nat) (Fa 4%nat 5%nat) (Fa 4%nat 6%nat) (Fa 5%nat 0%nat) (Fa 5%nat 1%nat) (Fa 5%nat 2%nat) (Fa 5%nat 3%nat) (Fa 5%nat 4%nat) (Fa 5%nat 5%nat) (Fa 5%nat 6%nat) (Fa 6%nat 0%nat) (Fa 6%nat 1%nat) (Fa 6%nat 2%nat) (Fa 6%nat 3%nat) (Fa 6%nat 4%nat) (Fa 6%nat 5%nat) (Fa 6%nat 6%nat) (Fb 0%nat 0%nat) (Fb 0%nat 1%nat) (Fb 0%nat 2%nat) (Fb 0%nat 3%nat) (Fb 0%nat 4%nat) (Fb 0%nat 5%nat) (Fb 0%nat 6%nat) (Fb 1%nat 0%nat) (Fb 1%nat 1%nat) (Fb 1%nat 2%nat) (Fb 1%nat 3%nat) (Fb 1%nat 4%nat) (Fb 1%nat 5%nat) (Fb 1%nat 6%nat) (Fb 2%nat 0%nat) (Fb 2%nat 1%nat) (Fb 2%nat 2%nat) (Fb 2%nat 3%nat) (Fb 2%nat 4%nat) (Fb 2%nat 5%nat) (Fb 2%nat 6%nat) (Fb 3%nat 0%nat) (Fb 3%nat 1%nat) (Fb 3%nat 2%nat) (Fb 3%nat 3%nat) (Fb 3%nat 4%nat) (Fb 3%nat 5%nat) (Fb 3%nat 6%nat) (Fb 4%nat 0%nat) (Fb 4%nat 1%nat) (Fb 4%nat 2%nat) (Fb 4%nat 3%nat) (Fb 4%nat 4%nat) (Fb 4%nat 5%nat) (Fb 4%nat 6%nat) (Fb 5%nat 0%nat) (Fb 5%nat 1%nat) (Fb 5%nat 2%nat) (Fb 5%nat 3%nat) (Fb 5%nat 4%nat) (Fb 5%nat 5%nat) (Fb 5%nat 6%nat) (Fb 6%nat 0%nat) (Fb 6%nat 1%nat) (Fb 6%nat 2%nat) (Fb 6%nat 3%nat) (Fb 6%nat 4%nat) (Fb 6%nat 5%nat) (Fb 6%nat 6%nat) (Fc 0%nat 0%nat) (Fc 0%nat 1%nat) (Fc 0%nat 2%nat) (Fc 0%nat 3%nat) (Fc 0%nat 4%nat) (Fc 0%nat 5%nat) (Fc 0%nat 6%nat) (Fc 1%nat 0%nat) (Fc 1%nat 1%nat) (Fc 1%nat 2%nat) (Fc 1%nat 3%nat) (Fc 1%nat 4%nat) (Fc 1%nat 5%nat) (Fc 1%nat 6%nat) (Fc 2%nat 0%nat) (Fc 2%nat 1%nat) (Fc 2%nat 2%nat) (Fc 2%nat 3%nat) (Fc 2%nat 4%nat) (Fc 2%nat 5%nat) (Fc 2%nat 6%nat) (Fc 3%nat 0%nat) (Fc 3%nat 1%nat) (Fc 3%nat 2%nat) (Fc 3%nat 3%nat) (Fc 3%nat 4%nat) (Fc 3%nat 5%nat) (Fc 3%nat 6%nat) (Fc 4%nat 0%nat) (Fc 4%nat 1%nat) (Fc 4%nat 2%nat) (Fc 4%nat 3%nat) (Fc 4%nat 4%nat) (Fc 4%nat 5%nat) (Fc 4%nat 6%nat) (Fc 5%nat 0%nat) (Fc 5%nat 1%nat) (Fc 5%nat 2%nat) (Fc 5%nat 3%nat) (Fc 5%nat 4%nat) (Fc 5%nat 5%nat) (Fc 5%nat 6%nat) (Fc 6%nat 0%nat) (Fc 6%nat 1%nat) (Fc 6%nat 2%nat) (Fc 6%nat 3%nat) (Fc 6%nat 4%nat) (Fc 6%nat 5%nat) (Fc 6%nat 6%nat) (Ga 0%nat 0%nat) (Ga 0%nat 1%nat) (Ga 0%nat 2%nat) (Ga 1%nat 0%nat) (Ga 1%nat 1%nat) (Ga 1%nat 2%nat) (Ga 2%nat 0%nat) (Ga 2%nat 1%nat) (Ga 2%nat 2%nat) (Ga 3%nat 0%nat) (Ga 3%nat 1%nat) (Ga 3%nat 2%nat) (Ga 4%nat 0%nat) (Ga 4%nat 1%nat) (Ga 4%nat 2%nat) (Ga 5%nat 0%nat) (Ga 5%nat 1%nat) (Ga 5%nat 2%nat) (Ga 6%nat 0%nat) (Ga 6%nat 1%nat) (Ga 6%nat 2%nat) (Gb 0%nat 0%nat) (Gb 0%nat 1%nat) (Gb 0%nat 2%nat) (Gb 1%nat 0%nat) (Gb 1%nat 1%nat) (Gb 1%nat 2%nat) (Gb 2%nat 0%nat) (Gb 2%nat 1%nat) (Gb 2%nat 2%nat) (Gb 3%nat 0%nat) (Gb 3%nat 1%nat) (Gb 3%nat 2%nat) (Gb 4%nat 0%nat) (Gb 4%nat 1%nat) (Gb 4%nat 2%nat) (Gb 5%nat 0%nat) (Gb 5%nat 1%nat) (Gb 5%nat 2%nat) (Gb 6%nat 0%nat) (Gb 6%nat 1%nat) (Gb 6%nat 2%nat) (Gc 0%nat 0%nat) (Gc 0%nat 1%nat) (Gc 0%nat 2%nat) (Gc 1%nat 0%nat) (Gc 1%nat 1%nat) (Gc 1%nat 2%nat) (Gc 2%nat 0%nat) (Gc 2%nat 1%nat) (Gc 2%nat 2%nat) (Gc 3%nat 0%nat) (Gc 3%nat 1%nat) (Gc 3%nat 2%nat) (Gc 4%nat 0%nat) (Gc 4%nat 1%nat) (Gc 4%nat 2%nat) (Gc 5%nat 0%nat) (Gc 5%nat 1%nat) (Gc 5%nat 2%nat) (Gc 6%nat 0%nat) (Gc 6%nat 1%nat) (Gc 6%nat 2%nat) (Aa 0%nat 0%nat) (Aa 0%nat 1%nat) (Aa 0%nat 2%nat) (Aa 1%nat 0%nat) (Aa 1%nat 1%nat) (Aa 1%nat 2%nat) (Aa 2%nat 0%nat) (Aa 2%nat 1%nat) (Aa 2%nat 2%nat) (Aa 3%nat 0%nat) (Aa 3%nat 1%nat) (Aa 3%nat 2%nat) (Aa 4%nat 0%nat) (Aa 4%nat 1%nat) (Aa 4%nat 2%nat) (Aa 5%nat 0%nat) (Aa 5%nat 1%nat) (Aa 5%nat 2%nat) (Aa 6%nat 0%nat) (Aa 6%nat 1%nat) (Aa 6%nat 2%nat) (Ab 0%nat 0%nat) (Ab 0%nat 1%nat) (Ab 0%nat 2%nat) (Ab 1%nat 0%nat) (Ab 1%nat 1%nat) (Ab 1%nat 2%nat) (Ab 2%nat 0%nat) (Ab 2%nat 1%nat) (Ab 2%nat 2%nat) (Ab 3%nat 0%nat) (Ab 3%nat 1%nat) (Ab 3%nat 2%nat) (Ab 4%nat 0%nat) (Ab 4%nat 1%nat) (Ab 4%nat 2%nat) (Ab 5%nat 0%nat) (Ab 5%nat 1%nat) (Ab 5%nat 2%nat) (Ab 6%nat 0%nat) (Ab 6%nat 1%nat) (Ab 6%nat 2%nat) (Ac 0%nat 0%nat) (Ac 0%nat 1%nat) (Ac 0%nat 2%nat) (Ac 1%nat 0%nat) (Ac 1%nat 1%nat) (Ac 1%nat 2%nat) (Ac 2%nat 0%nat) (Ac 2%nat 1%nat) (Ac 2%nat 2%nat) (Ac 3%nat 0%nat) (Ac 3%nat 1%nat) (Ac 3%nat 2%nat) (Ac 4%nat 0%nat) (Ac 4%nat 1%nat) (Ac 4%nat 2%nat) (Ac 5%nat 0%nat) (Ac 5%nat 1%nat) (Ac 5%nat 2%nat) (Ac 6%nat 0%nat) (Ac 6%nat 1%nat) (Ac 6%nat 2%nat) (x 0%nat) (x 1%nat) (x 2%nat) (x 3%nat) (x 4%nat) (x 5%nat) (x 6%nat) (eg 0%nat) (eg 1%nat) (eg 2%nat) (ea 0%nat) (ea 1%nat) (ea 2%nat)
  | 4 => prop2d3_x4 dt1 dt2 (Fa 0%nat 0%nat) (Fa 0%nat 1%nat) (Fa 0%nat 2%nat) (Fa 0%nat 3%nat) (Fa 0%nat 4%nat) (Fa 0%nat 5%nat) (Fa 0%nat 6%nat) (Fa 1%nat 0%nat) (Fa 1%nat 1%nat) (Fa 1%nat 2%nat) (Fa 1%nat 3%nat) (Fa 1%nat 4%nat) (Fa 1%nat 5%nat) (Fa 1%nat 6%nat) (Fa 2%nat 0%nat) (Fa 2%nat 1%nat) (Fa 2%nat 2%nat) (Fa 2%nat 3%nat) (Fa 2%nat 4%nat) (Fa 2%nat 5%nat) (Fa 2%nat 6%nat) (Fa 3%nat 0%nat) (Fa 3%nat 1%nat) (Fa 3%nat 2%nat) (Fa 3%nat 3%nat) (Fa 3%nat 4%nat) (Fa 3%nat 5%nat) (Fa 3%nat 6%nat) (Fa 4%nat 0%nat) (Fa 4%nat 1%nat) (Fa 4%nat 2%nat) (Fa 4%nat 3%nat) (Fa 4%nat 4%nat) (Fa 4%nat 5%nat) (Fa 4%nat 6%nat) (Fa 5%nat 0%nat) (Fa 5%nat 1%nat) (Fa 5%nat 2%nat) (Fa 5%nat 3%nat) (Fa 5%nat 4%nat) (Fa 5%nat 5%nat) (Fa 5%nat 6%nat) (Fa 6%nat 0%nat) (Fa 6%nat 1%nat) (Fa 6%nat 2%nat) (Fa 6%nat 3%nat) (Fa 6%nat 4%nat) (Fa 6%nat 5%nat) (Fa 6%nat 6%nat) (Fb 0%nat 0%nat) (Fb 0%nat 1%nat) (Fb 0%nat 2%nat) (Fb 0%nat 3%nat) (Fb 0%nat 4%nat) (Fb 0%nat 5%nat) (Fb 0%nat 6%nat) (Fb 1%nat 0%nat) (Fb 1%nat 1%nat) (Fb 1%nat 2%nat) (Fb 1%nat 3%nat) (Fb 1%nat 4%nat) (Fb 1%nat 5%nat) (Fb 1%nat 6%nat) (Fb 2%nat 0%nat) (Fb 2%nat 1%nat) (Fb 2%nat 2%nat) (Fb 2%nat 3%nat) (Fb 2%nat 4%nat) (Fb 2%nat 5%nat) (Fb 2%nat 6%nat) (Fb 3%nat 0%nat) (Fb 3%nat 1%nat) (Fb 3%nat 2%nat) (Fb 3%nat 3%nat) (Fb 3%nat 4%nat) (Fb 3%nat 5%nat) (Fb 3%nat 6%nat) (Fb 4%nat 0%nat) (Fb 4%nat 1%nat) (Fb 4%nat 2%nat) (Fb 4%nat 3%nat) (Fb 4%nat 4%nat) (Fb 4%nat 5%nat) (Fb 4%nat 6%nat) (Fb 5%nat 0%nat) (Fb 5%nat 1%nat) (Fb 5%nat 2%nat) (Fb 5%nat 3%nat) (Fb 5%nat 4%nat) (Fb 5%nat 5%nat) (Fb 5%nat 6%nat) (Fb 6%nat 0%nat) (Fb 6%nat 1%nat) (Fb 6%nat 2%nat) (Fb 6%nat 3%nat) (Fb 6%nat 4%nat) (Fb 6%nat 5%nat) (Fb 6%nat 6%nat) (Fc 0%nat 0%nat) (Fc 0%nat 1%nat) (Fc 0%nat 2%nat) (Fc 0%nat 3%nat) (Fc 0%nat 4%nat) (Fc 0%nat 5%nat) (Fc 0%nat 6%nat) (Fc 1%nat 0%nat) (Fc 1%nat 1%nat) (Fc 1%nat 2%nat) (Fc 1%nat 3%nat) (Fc 1%nat 4%nat) (Fc 1%nat 5%nat) (Fc 1%nat 6%nat) (Fc 2%nat 0%nat) (Fc 2%nat 1%nat) (Fc 2%nat 2%nat) (Fc 2%nat 3%nat) (Fc 2%nat 4%nat) (Fc 2%nat 5%nat) (Fc 2%nat 6%nat) (Fc 3%nat 0%nat) (Fc 3%nat 1%nat) (Fc 3%nat 2%nat) (Fc 3%nat 3%nat) (Fc 3%nat 4%nat) (Fc 3%nat 5%nat) (Fc 3%nat 6%nat) (Fc 4%nat 0%nat) (Fc 4%nat 1%nat) (Fc 4%nat 2%nat) (Fc 4%nat 3%nat) (Fc 4%nat 4%nat) (Fc 4%nat 5%nat) (Fc 4%nat 6%nat) (Fc 5%nat 0%nat) (Fc 5%nat 1%nat) (Fc 5%nat 2%nat) (Fc 5%nat 3%nat) (Fc 5%nat 4%nat) (Fc 5%nat 5%nat) (Fc 5%nat 6%nat) (Fc 6%nat 0%nat) (Fc 6%nat 1%nat) (Fc 6%nat 2%nat) (Fc 6%nat 3%nat) (Fc 6%nat 4%nat) (Fc 6%nat 5%nat) (Fc 6%nat 6%nat) (Ga 0%nat 0%nat) (Ga 0%nat 1%nat) (Ga 0%nat 2%nat) (Ga 1%nat 0%nat) (Ga 1%nat 1%nat) (Ga 1%nat 2%nat) (Ga 2%nat 0%nat) (Ga 2%nat 1%nat) (Ga 2%nat 2%nat) (Ga 3%nat 0%nat) (Ga 3%nat 1%nat) (Ga 3%nat 2%nat) (Ga 4%nat 0%nat) (Ga 4%nat 1%nat) (Ga 4%nat 2%nat) (Ga 5%nat 0%nat) (Ga 5%nat 1%nat) (Ga 5%nat 2%nat) (Ga 6%nat 0%nat) (Ga 6%nat 1%nat) (Ga 6%nat 2%nat) (Gb 0%nat 0%nat) (Gb 0%nat 1%nat) (Gb 0%nat 2%nat) (Gb 1%nat 0%nat) (Gb 1%nat 1%nat) (Gb 1%nat 2%nat) (Gb 2%nat 0%nat) (Gb 2%nat 1%nat) (Gb 2%nat 2%nat) (Gb 3%nat 0%nat) (Gb 3%nat 1%nat) (Gb 3%nat 2%nat) (Gb 4%nat 0%nat) (Gb 4%nat 1%nat) (Gb 4%nat 2%nat) (Gb 5%nat 0%nat) (Gb 5%nat 1%nat) (Gb 5%nat 2%nat) (Gb 6%nat 0%nat) (Gb 6%nat 1%nat) (Gb 6%nat 2%nat) (Gc 0%nat 0%nat) (Gc 0%nat 1%nat) (Gc 0%nat 2%nat) (Gc 1%nat 0%nat) (Gc 1%nat 1%nat) (Gc 1%nat 2%nat) (Gc 2%nat 0%nat) (Gc 2%nat 1%nat) (Gc 2%nat 2%nat) (Gc 3%nat 0%nat) (Gc 3%nat 1%nat) (Gc 3%nat 2%nat) (Gc 4%nat 0%nat) (Gc 4%nat 1%nat) (Gc 4%nat 2%nat) (Gc 5%nat 0%nat) (Gc 5%nat 1%nat) (Gc 5%nat 2%nat) (Gc 6%nat 0%nat) (Gc 6%nat 1%nat) (Gc 6%nat 2%nat) (Aa 0%nat 0%nat) (Aa 0%nat 1%nat) (Aa 0%nat 2%nat) (Aa 1%nat 0%nat) (Aa 1%nat 1%nat) (Aa 1%nat 2%nat) (Aa 2%nat 0%nat) (Aa 2%nat 1%nat) (Aa 2%nat 2%nat) (Aa 3%nat 0%nat) (Aa 3%nat 1%nat) (Aa 3%nat 2%nat) (Aa 4%nat 0%nat) (Aa 4%nat 1%nat) (Aa 4%nat 2%nat) (Aa 5%nat 0%nat) (Aa 5%nat 1%nat) (Aa 5%nat 2%nat) (Aa 6%nat 0%nat) (Aa 6%nat 1%nat) (Aa 6%nat 2%nat) (Ab 0%nat 0%nat) (Ab 0%nat 1%nat) (Ab 0%nat 2%nat) (Ab 1%nat 0%nat) (Ab 1%nat 1%nat) (Ab 1%nat 2%nat) (Ab 2%nat 0%nat) (Ab 2%nat 1%nat) (Ab 2%nat 2%nat) (Ab 3%nat 0%nat) (Ab 3%nat 1%nat) (Ab 3%nat 2%nat) (Ab 4%nat 0%nat) (Ab 4%nat 1%nat) (Ab 4%nat 2%nat) (Ab 5%nat 0%nat) (Ab 5%nat 1%nat) (Ab 5%nat 2%nat) (Ab 6%nat 0%nat) (Ab 6%nat 1%nat) (Ab 6%nat 2%nat) (Ac 0%nat 0%nat) (Ac 0%nat 1%nat) (Ac 0%nat 2%nat) (Ac 1%nat 0%nat) (Ac 1%nat 1%nat) (Ac 1%nat 2%nat) (Ac 2%nat 0%nat) (Ac 2%nat 1%nat) (Ac 2%nat 2%nat) (Ac 3%nat 0%nat) (Ac 3%nat 1%nat) (Ac 3%nat 2%nat) (Ac 4%nat 0%nat) (Ac 4%nat 1%nat) (Ac 4%nat 2%nat) (Ac 5%nat 0%nat) (Ac 5%nat 1%nat) (Ac 5%nat 2%nat) (Ac 6%nat 0%nat) (Ac 6%nat 1%nat) (Ac 6%nat 2%nat) (x 0%nat) (x 1%nat) (x 2%nat) (x 3%nat) (x 4%nat) (x 5%nat) (x 6%nat) (eg 0%nat) (eg 1%nat) (eg 2%nat) (ea 0%nat) (ea 1%nat) (ea 2%nat)
  | 5 => prop2d3_x5 dt1 dt2 (Fa 0%nat 0%nat) (Fa 0%nat 1%nat) (Fa 0%nat 2%nat) (Fa 0%nat 3%nat) (Fa 0%nat 4%nat) (Fa 0%nat 5%nat) (Fa 0%nat 6%nat) (Fa 1%nat 0%nat) (Fa 1%nat 1%nat) (Fa 1%nat 2%nat) (Fa 1%nat 3%nat) (Fa 1%nat 4%nat) (Fa 1%nat 5%nat) (Fa 1%nat 6%nat) (Fa 2%nat 0%nat) (Fa 2%nat 1%nat) (Fa 2%nat 2%nat) (Fa 2%nat 3%nat) (Fa 2%nat 4%nat) (Fa 2%nat 5%nat) (Fa 2%nat 6%nat) (Fa 3%nat 0%nat) (Fa 3%nat 1%nat) (Fa 3%nat 2%nat) (Fa 3%nat 3%nat) (Fa 3%nat 4%nat) (Fa 3%nat 5%nat) (Fa 3%nat 6%nat) (Fa 4%nat 0%nat) (Fa 4%nat 1%nat) (Fa 4%nat 2%nat) (Fa 4%nat 3%nat) (Fa 4%nat 4%nat) (Fa 4%nat 5%nat) (Fa 4%nat 6%nat) (Fa 5%nat 0%nat) (Fa 5%nat 1%nat) (Fa 5%nat 2%nat) (Fa 5%nat 3%nat) (Fa 5%nat 4%nat) (Fa 5%nat 5%nat) (Fa 5%nat 6%nat) (Fa 6%nat 0%nat) (Fa 6%nat 1%nat) (Fa 6%nat 2%nat) (Fa 6%nat 3%nat) (Fa 6%nat 4%nat) (Fa 6%nat 5%nat) (Fa 6%nat 6%nat) (Fb 0%nat 0%nat) (Fb 0%nat 1%nat) (Fb 0%nat 2%nat) (Fb 0%nat 3%nat) (Fb 0%nat 4%nat) (Fb 0%nat 5%nat) (Fb 0%nat 6%nat) (Fb 1%nat 0%nat) (Fb 1%nat 1%nat) (Fb 1%nat 2%nat) (Fb 1%nat 3%nat) (Fb 1%nat 4%nat) (Fb 1%nat 5%nat) (Fb 1%nat 6%nat) (Fb 2%nat 0%nat) (Fb 2%nat 1%nat) (Fb 2%nat 2%nat) (Fb 2%nat 3%nat) (Fb 2%nat 4%nat) (Fb 2%nat 5%nat) (Fb 2%nat 6%nat) (Fb 3%nat 0%nat) (Fb 3%nat 1%nat) (Fb 3%nat 2%nat) (Fb 3%nat 3%nat) (Fb 3%nat 4%nat) (Fb 3%nat 5%nat) (Fb 3%nat 6%nat) (Fb 4%nat 0%nat) (Fb 4%nat 1%nat) (Fb 4%nat 2%nat) (Fb 4%nat 3%nat) (Fb 4%nat 4%nat) (Fb 4%nat 5%nat) (Fb 4%nat 6%nat) (Fb 5%nat 0%nat) (Fb 5%nat 1%nat) (Fb 5%nat 2%nat) (Fb 5%nat 3%nat) (Fb 5%nat 4%nat) (Fb 5%nat 5%nat) (Fb 5%nat 6%nat) (Fb 6%nat 0%nat) (Fb 6%nat 1%nat) (Fb 6%nat 2%nat) (Fb 6%nat 3%nat) (Fb 6%nat 4%nat) (Fb 6%nat 5%nat) (Fb 6%nat 6%nat) (Fc 0%nat 0%nat) (Fc 0%nat 1%nat) (Fc 0%nat 2%nat) (Fc 0%nat 3%nat) (Fc 0%nat 4%nat) (Fc 0%nat 5%nat) (Fc 0%nat 6%nat) (Fc 1%nat 0%nat) (Fc 1%nat 1%nat) (Fc 1%nat 2%nat) (Fc 1%nat 3%nat) (Fc 1%nat 4%nat) (Fc 1%nat 5%nat) (Fc 1%nat 6%nat) (Fc 2%nat 0%nat) (Fc 2%nat 1%nat) (Fc 2%nat 2%nat) (Fc 2%nat 3%nat) (Fc 2%nat 4%nat) (Fc 2%nat 5%nat) (Fc 2%nat 6%nat) (Fc 3%nat 0%nat) (Fc 3%nat 1%nat) (Fc 3%nat 2%nat) (Fc 3%nat 3%nat) (Fc 3%nat 4%nat) (Fc 3%nat 5%nat) (Fc 3%nat 6%nat) (Fc 4%nat 0%nat) (Fc 4%nat 1%nat) (Fc 4%nat 2%nat) (Fc 4%nat 3%nat) (Fc 4%nat 4%nat) (Fc 4%nat 5%nat) (Fc 4%nat 6%nat) (Fc 5%nat 0%nat) (Fc 5%nat 1%nat) (Fc 5%nat 2%nat) (Fc 5%nat 3%nat) (Fc 5%nat 4%nat) (Fc 5%nat 5%nat) (Fc 5%nat 6%nat) (Fc 6%nat 0%nat) (Fc 6%nat 1%nat) (Fc 6%nat 2%nat) (Fc 6%nat 3%nat) (Fc 6%nat 4%nat) (Fc 6%nat 5%nat) (Fc 6%nat 6%nat) (Ga 0%nat 0%nat) (Ga 0%nat 1%nat) (Ga 0%nat 2%nat) (Ga 1%nat 0%nat) (Ga 1%nat 1%nat) (Ga 1%nat 2%nat) (Ga 2%nat 0%nat) (Ga 2%nat 1%nat) (Ga 2%nat 2%nat) (Ga 3%nat 0%nat) (Ga 3%nat 1%nat) (Ga 3%nat 2%nat) (Ga 4%nat 0%nat) (Ga 4%nat 1%nat) (Ga 4%nat 2%nat) (Ga 5%nat 0%nat) (Ga 5%nat 1%nat) (Ga 5%nat 2%nat) (Ga 6%nat 0%nat) (Ga 6%nat 1%nat) (Ga 6%nat 2%nat) (Gb 0%nat 0%nat) (Gb 0%nat 1%nat) (Gb 0%nat 2%nat) (Gb 1%nat 0%nat) (Gb 1%nat 1%nat) (Gb 1%nat 2%nat) (Gb 2%nat 0%nat) (Gb 2%nat 1%nat) (Gb 2%nat 2%nat) (Gb 3%nat 0%nat) (Gb 3%nat 1%nat) (Gb 3%nat 2%nat) (Gb 4%nat 0%nat) (Gb 4%nat 1%nat) (Gb 4%nat 2%nat) (Gb 5%nat 0%nat) (Gb 5%nat 1%nat) (Gb 5%nat 2%nat) (Gb 6%nat 0%nat) (Gb 6%nat 1%nat) (Gb 6%nat 2%nat) (Gc 0%nat 0%nat) (Gc 0%nat 1%nat) (Gc 0%nat 2%nat) (Gc 1%nat 0%nat) (Gc 1%nat 1%nat) (Gc 1%nat 2%nat) (Gc 2%nat 0%nat) (Gc 2%nat 1%nat) (Gc 2%nat 2%nat) (Gc 3%nat 0%nat) (Gc 3%nat 1%nat) (Gc 3%nat 2%nat) (Gc 4%nat 0%nat) (Gc 4%nat 1%nat) (Gc 4%nat 2%nat) (Gc 5%nat 0%nat) (Gc 5%nat 1%nat) (Gc 5%nat 2%nat) (Gc 6%nat 0%nat) (Gc 6%nat 1%nat) (Gc 6%nat 2%nat) (Aa 0%nat 0%nat) (Aa 0%nat 1%nat) (Aa 0%nat 2%nat) (Aa 1%nat 0%nat) (Aa 1%nat 1%nat) (Aa 1%nat 2%nat) (Aa 2%nat 0%nat) (Aa 2%nat 1%nat) (Aa 2%nat 2%nat) (Aa 3%nat 0%nat) (Aa 3%nat 1%nat) (Aa 3%nat 2%nat) (Aa 4%nat 0%nat) (Aa 4%nat 1%nat) (Aa 4%nat 2%nat) (Aa 5%nat 0%nat) (Aa 5%nat 1%nat) (Aa 5%nat 2%nat) (Aa 6%nat 0%nat) (Aa 6%nat 1%nat) (Aa 6%nat 2%nat) (Ab 0%nat 0%nat) (Ab 0%nat 1%nat) (Ab 0%nat 2%nat) (Ab 1%nat 0%nat) (Ab 1%nat 1%nat) (Ab 1%nat 2%nat) (Ab 2%nat 0%nat) (Ab 2%nat 1%nat) (Ab 2%nat 2%nat) (Ab 3%nat 0%nat) (Ab 3%nat 1%nat) (Ab 3%nat 2%nat) (Ab 4%nat 0%nat) (Ab 4%nat 1%nat) (Ab 4%nat 2%nat) (Ab 5%nat 0%nat) (Ab 5%nat 1%nat) (Ab 5%nat 2%nat) (Ab 6%nat 0%nat) (Ab 6%nat 1%nat) (Ab 6%nat 2%nat) (Ac 0%nat 0%nat) (Ac 0%nat 1%nat) (Ac 0%nat 2%nat) (Ac 1%nat 0%nat) (Ac 1%nat 1%nat) (Ac 1%nat 2%nat) (Ac 2%nat 0%nat) (Ac 2%nat 1%nat) (Ac 2%nat 2%nat) (Ac 3%nat 0%nat) (Ac 3%nat 1%nat) (Ac 3%nat 2%nat) (Ac 4%nat 0%nat) (Ac 4%nat 1%nat) (Ac 4%nat 2%nat) (Ac 5%nat 0%nat) (Ac 5%nat 1%nat) (Ac 5%nat 2%nat) (Ac 6%nat 0%nat) (Ac 6%nat 1%nat) (Ac 6%nat 2%nat) (x 0%nat) (x 1%nat) (x 2%nat) (x 3%nat) (x 4%nat) (x 5%nat) (x 6%nat) (eg 0%nat) (eg 1%nat) (eg 2%nat) (ea 0%nat) (ea 1%nat) (ea 2%nat)
  | 6 => prop2d3_x6 dt1 dt2 (Fa 0%nat 0%nat) (Fa 0%nat 1%nat) (Fa 0%nat 2%nat) (Fa 0%nat 3%nat) (Fa 0%nat 4%nat) (Fa 0%nat 5%nat) (Fa 0%nat 6%nat) (Fa 1%nat 0%nat) (Fa 1%nat 1%nat) (Fa 1%nat 2%nat) (Fa 1%nat 3%nat) (Fa 1%nat 4%nat) (Fa 1%nat 5%nat) (Fa 1%nat 6%nat) (Fa 2%nat 0%nat) (Fa 2%nat 1%nat) (Fa 2%nat 2%nat) (Fa 2%nat 3%nat) (Fa 2%nat 4%nat) (Fa 2%nat 5%nat) (Fa 2%nat 6%nat) (Fa 3%nat 0%nat) (Fa 3%nat 1%nat) (Fa 3%nat 2%nat) (Fa 3%nat 3%nat) (Fa 3%nat 4%nat) (Fa 3%nat 5%nat) (Fa 3%nat 6%nat) (Fa 4%nat 0%nat) (Fa 4%nat 1%nat) (Fa 4%nat 2%nat) (Fa 4%nat 3%nat) (Fa 4%nat 4%nat) (Fa 4%nat 5%nat) (Fa 4%nat 6%nat) (Fa 5%nat 0%nat) (Fa 5%nat 1%nat) (Fa 5%nat 2%nat) (Fa 5%nat 3%nat) (Fa 5%nat 4%nat) (Fa 5%nat 5%nat) (Fa 5%nat 6%nat) (Fa 6%nat 0%nat) (Fa 6%nat 1%nat) (Fa 6%nat 2%nat) (Fa 6%nat 3%nat) (Fa 6%nat 4%nat) (Fa 6%nat 5%nat) (Fa 6%nat 6%nat) (Fb 0%nat 0%nat) (Fb 0%nat 1%nat) (Fb 0%nat 2%nat) (Fb 0%nat 3%nat) (Fb 0%nat 4%nat) (Fb 0%nat 5%nat) (Fb 0%nat 6%nat) (Fb 1%nat 0%nat) (Fb 1%nat 1%nat) (Fb 1%nat 2%nat) (Fb 1%nat 3%nat) (Fb 1%nat 4%nat) (Fb 1%nat 5%nat) (Fb 1%nat 6%nat) (Fb 2%nat 0%nat) (Fb 2%nat 1%nat) (Fb 2%nat 2%nat) (Fb 2%nat 3%nat) (Fb 2%nat 4%nat) (Fb 2%nat 5%nat) (Fb 2%nat 6%nat) (Fb 3%nat 0%nat) (Fb 3%nat 1%nat) (Fb 3%nat 2%nat) (Fb 3%nat 3%nat) (Fb 3%nat 4%nat) (Fb 3%nat 5%nat) (Fb 3%nat 6%nat) (Fb 4%nat 0%nat) (Fb 4%nat 1%nat) (Fb 4%nat 2%nat) (Fb 4%nat 3%nat) (Fb 4%nat 4%nat) (Fb 4%nat 5%nat) (Fb 4%nat 6%nat) (Fb 5%nat 0%nat) (Fb 5%nat 1%nat) (Fb 5%nat 2%nat) (Fb 5%nat 3%nat) (Fb 5%nat 4%nat) (Fb 5%nat 5%nat) (Fb 5%nat 6%nat) (Fb 6%nat 0%nat) (Fb 6%nat 1%nat) (Fb 6%nat 2%nat) (Fb 6%nat 3%nat) (Fb 6%nat 4%nat) (Fb 6%nat 5%nat) (Fb 6%nat 6%nat) (Fc 0%nat 0%nat) (Fc 0%nat 1%nat) (Fc 0%nat 2%nat) (Fc 0%nat 3%nat) (Fc 0%nat 4%nat) (Fc 0%nat 5%nat) (Fc 0%nat 6%nat) (Fc 1%nat 0%nat) (Fc 1%nat 1%nat) (Fc 1%nat 2%nat) (Fc 1%nat 3%nat) (Fc 1%nat 4%nat) (Fc 1%nat 5%nat) (Fc 1%nat 6%nat) (Fc 2%nat 0%nat) (Fc 2%nat 1%nat) (Fc 2%nat 2%nat) (Fc 2%nat 3%nat) (Fc 2%nat 4%nat) (Fc 2%nat 5%nat) (Fc 2%nat 6%nat) (Fc 3%nat 0%nat) (Fc 3%nat 1%nat) (Fc 3%nat 2%nat) (Fc 3%nat 3%nat) (Fc 3%nat 4%nat) (Fc 3%nat 5%nat) (Fc 3%nat 6%nat) (Fc 4%nat 0%nat) (Fc 4%nat 1%nat) (Fc 4%nat 2%nat) (Fc 4%nat 3%nat) (Fc 4%nat 4%nat) (Fc 4%nat 5%nat) (Fc 4%nat 6%nat) (Fc 5%nat 0%nat) (Fc 5%nat 1%nat) (Fc 5%nat 2%nat) (Fc 5%nat 3%nat) (Fc 5%nat 4%nat) (Fc 5%nat 5%nat) (Fc 5%nat 6%nat) (Fc 6%nat 0%nat) (Fc 6%nat 1%nat) (Fc 6%nat 2%nat) (Fc 6%nat 3%nat) (Fc 6%nat 4%nat) (Fc 6%nat 5%nat) (Fc 6%nat 6%nat) (Ga 0%nat 0%nat) (Ga 0%nat 1%nat) (Ga 0%nat 2%nat) (Ga 1%nat 0%nat) (Ga 1%nat 1%nat) (Ga 1%nat 2%nat) (Ga 2%nat 0%nat) (Ga 2%nat 1%nat) (Ga 2%nat 2%nat) (Ga 3%nat 0%nat) (Ga 3%nat 1%nat) (Ga 3%nat 2%nat) (Ga 4%nat 0%nat) (Ga 4%nat 1%nat) (Ga 4%nat 2%nat) (Ga 5%nat 0%nat) (Ga 5%nat 1%nat) (Ga 5%nat 2%nat) (Ga 6%nat 0%nat) (Ga 6%nat 1%nat) (Ga 6%nat 2%nat) (Gb 0%nat 0%nat) (Gb 0%nat 1%nat) (Gb 0%nat 2%nat) (Gb 1%nat 0%nat) (Gb 1%nat 1%nat) (Gb 1%nat 2%nat) (Gb 2%nat 0%nat) (Gb 2%nat 1%nat) (Gb 2%nat 2%nat) (Gb 3%nat 0%nat) (Gb 3%nat 1%nat) (Gb 3%nat 2%nat) (Gb 4%nat 0%nat) (Gb 4%nat 1%nat) (Gb 4%nat 2%nat) (Gb 5%nat 0%nat) (Gb 5%nat 1%nat) (Gb 5%nat 2%nat) (Gb 6%nat 0%nat) (Gb 6%nat 1%nat) (Gb 6%nat 2%nat) (Gc 0%nat 0%nat) (Gc 0%nat 1%nat) (Gc 0%nat 2%nat) (Gc 1%nat 0%nat) (Gc 1%nat 1%nat) (Gc 1%nat 2%nat) (Gc 2%nat 0%nat) (Gc 2%nat 1%nat) (Gc 2%nat 2%nat) (Gc 3%nat 0%nat) (Gc 3%nat 1%nat) (Gc 3%nat 2%nat) (Gc 4%nat 0%nat) (Gc 4%nat 1%nat) (Gc 4%nat 2%nat) (Gc 5%nat 0%nat) (Gc 5%nat 1%nat) (Gc 5%nat 2%nat) (Gc 6%nat 0%nat) (Gc 6%nat 1%nat) (Gc 6%nat 2%nat) (Aa 0%nat 0%nat) (Aa 0%nat 1%nat) (Aa 0%nat 2%nat) (Aa 1%nat 0%nat) (Aa 1%nat 1%nat) (Aa 1%nat 2%nat) (Aa 2%nat 0%nat) (Aa 2%nat 1%nat) (Aa 2%nat 2%nat) (Aa 3%nat 0%nat) (Aa 3%nat 1%nat) (Aa 3%nat 2%nat) (Aa 4%nat 0%nat) (Aa 4%nat 1%nat) (Aa 4%nat 2%nat) (Aa 5%nat 0%nat) (Aa 5%nat 1%nat) (Aa 5%nat 2%nat) (Aa 6%nat 0%nat) (Aa 6%nat 1%nat) (Aa 6%nat 2%nat) (Ab 0%nat 0%nat) (Ab 0%nat 1%nat) (Ab 0%nat 2%nat) (Ab 1%nat 0%nat) (Ab 1%nat 1%nat) (Ab 1%nat 2%nat) (Ab 2%nat 0%nat) (Ab 2%nat 1%nat) (Ab 2%nat 2%nat) (Ab 3%nat 0%nat) (Ab 3%nat 1%nat) (Ab 3%nat 2%nat) (Ab 4%nat 0%nat) (Ab 4%nat 1%nat) (Ab 4%nat 2%nat) (Ab 5%nat 0%nat) (Ab 5%nat 1%nat) (Ab 5%nat 2%nat) (Ab 6%nat 0%nat) (Ab 6%nat 1%nat) (Ab 6%nat 2%nat) (Ac 0%nat 0%nat) (Ac 0%nat 1%nat) (Ac 0%nat 2%nat) (Ac 1%nat 0%nat) (Ac 1%nat 1%nat) (Ac 1%nat 2%nat) (Ac 2%nat 0%nat) (Ac 2%nat 1%nat) (Ac 2%nat 2%nat) (Ac 3%nat 0%nat) (Ac 3%nat 1%nat) (Ac 3%nat 2%nat) (Ac 4%nat 0%nat) (Ac 4%nat 1%nat) (Ac 4%nat 2%nat) (Ac 5%nat 0%nat) (Ac 5%nat 1%nat) (Ac 5%nat 2%nat) (Ac 6%nat 0%nat) (Ac 6%nat 1%nat) (Ac 6%nat 2%nat) (x 0%nat) (x 1%nat) (x 2%nat) (x 3%nat) (x 4%nat) (x 5%nat) (x 6%nat) (eg 0%nat) (eg 1%nat) (eg 2%nat) (ea 0%nat) (ea 1%nat) (ea 2%nat)
  | _ => 0%R
  end%nat.
Definition propT2' (i : nat) (dt1 dt2 : R) (Fa Fb Fc Ga Gb Gc Aa Ab Ac : mat) (x eg ea : nat -> R) : R :=
  match i with
  | 0 => prop2d3_z0 dt1 dt2 (Fa 0%nat 0%nat) (Fa 0%nat 1%nat) (Fa 0%nat 2%nat) (Fa 0%nat 3%nat) (Fa 0%nat 4%nat) (Fa 0%nat 5%nat) (Fa 0%nat 6%nat) (Fa 1%nat 0%nat) (Fa 1%nat 1%nat) (Fa 1%nat 2%nat) (Fa 1%nat 3%nat) (Fa 1%nat 4%nat) (Fa 1%nat 5%nat) (Fa 1%nat 6%nat) (Fa 2%nat 0%nat) (Fa 2%nat 1%nat) (Fa 2%nat 2%nat) (Fa 2%nat 3%nat) (Fa 2%nat 4%nat) (Fa 2%nat 5%nat) (Fa 2%nat 6%nat) (Fa 3%nat 0%nat) (Fa 3%nat 1%nat) (Fa 3%nat 2%nat) (Fa 3%nat 3%nat) (Fa 3%nat 4%nat) (Fa 3%nat 5%nat) (Fa 3%nat 6%nat) (Fa 4%nat 0%nat) (Fa 4%nat 1%nat) (Fa 4%nat 2%nat) (Fa 4%nat 3%nat) (Fa 4%nat 4%nat) (Fa 4%nat 5%nat) (Fa 4%nat 6%nat) (Fa 5%nat 0%nat) (Fa 5%nat 1%nat) (Fa 5%nat 2%nat) (Fa 5%nat 3%nat) (Fa 5%nat 4%nat) (Fa 5%nat 5%nat) (Fa 5%nat 6%nat) (Fa 6%nat 0%nat) (Fa 6%nat 1%nat) (Fa 6%nat 2%nat) (Fa 6%nat 3%nat) (Fa 6%nat 4%nat) (Fa 6%nat 5%nat) (Fa 6%nat 6%nat) (Fb 0%nat 0%nat) (Fb 0%nat 1%nat) (Fb 0%nat 2%nat) (Fb 0%nat 3%nat) (Fb 0%nat 4%nat) (Fb 0%nat 5%nat) (Fb 0%nat 6%nat) (Fb 1%nat 0%nat) (Fb 1%nat 1%nat) (Fb 1%nat 2%nat) (Fb 1%nat 3%nat) (Fb 1%nat 4%nat) (Fb 1%nat 5%nat) (Fb 1%nat 6%nat) (Fb 2%nat 0%nat) (Fb 2%nat 1%nat) (Fb 2%nat 2%nat) (Fb 2%nat 3%nat) (Fb 2%nat 4%nat) (Fb 2%nat 5%nat) (Fb 2%nat 6%nat) (Fb 3%nat 0%nat) (Fb 3%nat 1%nat) (Fb 3%nat 2%nat) (Fb 3%nat 3%nat) (Fb 3%nat 4%nat) (Fb 3%nat 5%nat) (Fb 3%nat 6%nat) (Fb 4%nat 0%nat) (Fb 4%nat 1%nat) (Fb 4%nat 2%nat) (Fb 4%nat 3%nat) (Fb 4%nat 4%nat) (Fb 4%nat 5%nat) (Fb 4%nat 6%nat) (Fb 5%nat 0%nat) (Fb 5%nat 1%nat) (Fb 5%nat 2%nat) (Fb 5%nat 3%nat) (Fb 5%nat 4%nat) (Fb 5%nat 5%nat) (Fb 5%nat 6%nat) (Fb 6%nat 0%nat) (Fb 6%nat 1%nat) (Fb 6%nat 2%nat) (Fb 6%nat 3%nat) (Fb 6%nat 4%nat) (Fb 6%nat 5%nat) (Fb 6%nat 6%nat) (Fc 0%nat 0%nat) (Fc 0%nat 1%nat) (Fc 0%nat 2%nat) (Fc 0%nat 3%nat) (Fc 0%nat 4%nat) (Fc 0%nat 5%nat) (Fc 0%nat 6%nat) (Fc 1%nat 0%nat) (Fc 1%nat 1%nat) (Fc 1%nat 2%nat) (Fc 1%nat 3%nat) (Fc 1%nat 4%nat) (Fc 1%nat 5%nat) (Fc 1%nat 6%nat) (Fc 2%nat 0%nat) (Fc 2%nat 1%nat) (Fc 2%nat 2%nat) (Fc 2%nat 3%nat) (Fc 2%nat 4%nat) (Fc 2%nat 5%nat) (Fc 2%nat 6%nat) (Fc 3%nat 0%nat) (Fc 3%nat 1%nat) (Fc 3%nat 2%nat) (Fc 3%nat 3%nat) (Fc 3%nat 4%nat) (Fc 3%nat 5%nat) (Fc 3%nat 6%nat) (Fc 4%nat 0%nat) (Fc 4%nat 1%nat) (Fc 4%nat 2%nat) (Fc 4%nat 3%nat) (Fc 4%nat 4%nat) (Fc 4%nat 5%nat) (Fc 4%nat 6%nat) (Fc 5%nat 0%nat) (Fc 5%nat 1%nat) (Fc 5%nat 2%nat) (Fc 5%nat 3%nat) (Fc 5%nat 4%nat) (Fc 5%nat 5%nat) (Fc 5%nat 6%nat) (Fc 6%nat 0%nat) (Fc 6%nat 1%nat) (Fc 6%nat 2%nat) (Fc 6%nat 3%nat) (Fc 6%nat 4%nat) (Fc 6%nat 5%nat) (Fc 6%nat 6%nat) (Ga 0%nat 0%nat) (Ga 0%nat 1%nat) (Ga 0%nat 2%nat) (Ga 1%nat 0%nat) (Ga 1%nat 1%nat) (Ga 1%nat 2%nat) (Ga 2%nat 0%nat) (Ga 2%nat 1%nat) (Ga 2%nat 2%nat) (Ga 3%nat 0%nat) (Ga 3%nat 1%nat) (Ga 3%nat 2%nat) (Ga 4%nat 0%nat) (Ga 4%nat 1%nat) (Ga 4%nat 2%nat) (Ga 5%nat 0%nat) (Ga 5%nat 1%nat) (Ga 5%nat 2%nat) (Ga 6%nat 0%nat) (Ga 6%nat 1%nat) (Ga 6%nat 2%nat) (Gb 0%nat 0%nat) (Gb 0%nat 1%nat) (Gb 0%nat 2%nat) (Gb 1%nat 0%nat) (Gb 1%nat 1%nat) (Gb 1%nat 2%nat) (Gb 2%nat 0%nat) (Gb 2%nat 1%nat) (Gb 2%nat 2%nat) (Gb 3%nat 0%nat) (Gb 3%nat 1%nat) (Gb 3%nat 2%nat) (Gb 4%nat 0%nat) (Gb 4%nat 1%nat) (Gb 4%nat 2%nat) (Gb 5%nat 0%nat) (Gb 5%nat 1%nat) (Gb 5%nat 2%nat) (Gb 6%nat 0%nat) (Gb 6%nat 1%nat) (Gb 6%nat 2%nat) (Gc 0%nat 0%nat) (Gc 0%nat 1%nat) (Gc 0%nat 2%nat) (Gc 1%nat 0%nat) (Gc 1%nat 1%nat) (Gc 1%nat 2%nat) (Gc 2%nat 0%nat) (Gc 2%nat 1%nat) (Gc 2%nat 2%nat) (Gc 3%nat 0%nat) (Gc 3%nat 1%nat) (Gc 3%nat 2%nat) (Gc 4%nat 0%nat) (Gc 4%nat 1%nat) (Gc 4%nat 2%nat) (Gc 5%nat 0%nat) (Gc 5%nat 1%nat) (Gc 5%nat 2%nat) (Gc 6%nat 0%nat) (Gc 6%nat 1%nat) (Gc 6%nat 2%nat) (Aa 0%nat 0%nat) (Aa 0%nat 1%nat) (Aa 0%nat 2%nat) (Aa 1%nat 0%nat) (Aa 1%nat 1%nat) (Aa 1%nat 2%nat) (Aa 2%nat 0%nat) (Aa 2%nat 1%nat) (Aa 2%nat 2%nat) (Aa 3%nat 0%nat) (Aa 3%nat 1%nat) (Aa 3%nat 2%nat) (Aa 4%nat 0%nat) (Aa 4%nat 1%nat) (Aa 4%nat 2%nat) (Aa 5%nat 0%nat) (Aa 5%nat 1%nat) (Aa 5%nat 2%nat) (Aa 6%nat 0%nat) (Aa 6%nat 1%nat) (Aa 6%nat 2%nat) (Ab 0%nat 0%nat) (Ab 0%nat 1%nat) (Ab 0%nat 2%nat) (Ab 1%nat 0%nat) (Ab 1%nat 1%nat) (Ab 1%nat 2%nat) (Ab 2%nat 0%nat) (Ab 2%nat 1%nat) (Ab 2%nat 2%nat) (Ab 3%nat 0%nat) (Ab 3%nat 1%nat) (Ab 3%nat 2%nat) (Ab 4%nat 0%nat) (Ab 4%nat 1%nat) (Ab 4%nat 2%nat) (Ab 5%nat 0%nat) (Ab 5%nat 1%nat) (Ab 5%nat 2%nat) (Ab 6%nat 0%nat) (Ab 6%nat 1%nat) (Ab 6%nat 2%nat) (Ac 0%nat 0%nat) (Ac 0%nat 1%nat) (Ac 0%nat 2%nat) (Ac 1%nat 0%nat) (Ac 1%nat 1%nat) (Ac 1%nat 2%nat) (Ac 2%nat 0%nat) (Ac 2%nat 1%nat) (Ac 2%nat 2%nat) (Ac 3%nat 0%nat) (Ac 3%nat 1%nat) (Ac 3%nat 2%nat) (Ac 4%nat 0%nat) (Ac 4%nat 1%nat) (Ac 4%nat 2%nat) (Ac 5%nat 0%nat) (Ac 5%nat 1%nat) (Ac 5%nat 2%nat) (Ac 6%nat 0%nat) (Ac 6%nat 1%nat) (Ac 6%nat 2%nat) (x 0%nat) (x 1%nat) (x 2%nat) (x 3%nat) (x 4%nat) (x 5%nat) (x 6%nat) (eg 0%nat) (eg 1%nat) (eg 2%nat) (ea 0%nat) (ea 1%nat) (ea 2%nat)
  | 1 => prop2d3_z1 dt1 dt2 (Fa 0%nat 0%nat) (Fa 0%nat 1%nat) (Fa 0%nat 2%nat) (Fa 0%nat 3%nat) (Fa 0%nat 4%nat) (Fa 0%nat 5%nat) (Fa 0%nat 6%nat) (Fa 1%nat 0%nat) (Fa 1%nat 1%nat) (Fa 1%nat 2%nat) (Fa 1%nat 3%nat) (Fa 1%nat 4%nat) (Fa 1%nat 5%nat) (Fa 1%nat 6%nat) (Fa 2%nat 0%nat) (Fa 2%nat 1%nat) (Fa 2%nat 2%nat) (Fa 2%nat 3%nat) (Fa 2%nat 4%nat) (Fa 2%nat 5%nat) (Fa 2%nat 6%nat) (Fa 3%nat 0%nat) (Fa 3%nat 1%nat) (Fa 3%nat 2%nat) (Fa 3%nat 3%nat) (Fa 3%nat 4%nat) (Fa 3%nat 5%nat) (Fa 3%nat 6%nat) (Fa 4%nat 0%nat) (Fa 4%nat 1%nat) (Fa 4%nat 2%nat) (Fa 4%nat 3%nat) (Fa 4%nat 4%nat) (Fa 4%nat 5%nat) (Fa 4%nat 6%nat) (Fa 5%nat 0%nat) (Fa 5%nat 1%nat) (Fa 5%nat 2%nat) (Fa 5%nat 3%nat) (Fa 5%nat 4%nat) (Fa 5%nat 5%nat) (Fa 5%nat 6%nat) (Fa 6%nat 0%nat) (Fa 6%nat 1%nat) (Fa 6%nat 2%nat) (Fa 6%nat 3%nat) (Fa 6%nat 4%nat) (Fa 6%nat 5%nat) (Fa 6%nat 6%nat) (Fb 0%nat 0%nat) (Fb 0%nat 1%nat) (Fb 0%nat 2%nat) (Fb 0%nat 3%nat) (Fb 0%nat 4%nat) (Fb 0%nat 5%nat) (Fb 0%nat 6%nat) (Fb 1%nat 0%nat) (Fb 1%nat 1%nat) (Fb 1%nat 2%nat) (Fb 1%nat 3%nat) (Fb 1%nat 4%nat) (Fb 1%nat 5%nat) (Fb 1%nat 6%nat) (Fb 2%nat 0%nat) (Fb 2%nat 1%nat) (Fb 2%nat 2%nat) (Fb 2%nat 3%nat) (Fb 2%nat 4%nat) (Fb 2%nat 5%nat) (Fb 2%nat 6%nat) (Fb 3%nat 0%nat) (Fb 3%nat 1%nat) (Fb 3%nat 2%nat) (Fb 3%nat 3%nat) (Fb 3%nat 4%nat) (Fb 3%nat 5%nat) (Fb 3%nat 6%nat) (Fb 4%nat 0%nat) (Fb 4%nat 1%nat) (Fb 4%nat 2%nat) (Fb 4%nat 3%nat) (Fb 4%nat 4%nat) (Fb 4%nat 5%nat) (Fb 4%nat 6%nat) (Fb 5%nat 0%nat) (Fb 5%nat 1%nat) (Fb 5%nat 2%nat) (Fb 5%nat 3%nat) (Fb 5%nat 4%nat) (Fb 5%nat 5%nat) (Fb 5%nat 6%nat) (Fb 6%nat 0%nat) (Fb 6%nat 1%nat) (Fb 6%nat 2%nat) (Fb 6%nat 3%nat) (Fb 6%nat 4%nat) (Fb 6%nat 5%nat) (Fb 6%nat 6%nat) (Fc 0%nat 0%nat) (Fc 0%nat 1%nat) (Fc 0%nat 2%nat) (Fc 0%nat 3%nat) (Fc 0%nat 4%nat) (Fc 0%nat 5%nat) (Fc 0%nat 6%nat) (Fc 1%nat 0%nat) (Fc 1%nat 1%nat) (Fc 1%nat 2%nat) (Fc 1%nat 3%nat) (Fc 1%nat 4%nat) (Fc 1%nat 5%nat) (Fc 1%nat 6%nat) (Fc 2%nat 0%nat) (Fc 2%nat 1%nat) (Fc 2%nat 2%nat) (Fc 2%nat 3%nat) (Fc 2%nat 4%nat) (Fc 2%nat 5%nat) (Fc 2%nat 6%nat) (Fc 3%nat 0%nat) (Fc 3%nat 1%nat) (Fc 3%nat 2%nat) (Fc 3%nat 3%nat) (Fc 3%nat 4%nat) (Fc 3%nat 5%nat) (Fc 3%nat 6%nat) (Fc 4%nat 0%nat) (Fc 4%nat 1%nat) (Fc 4%nat 2%nat) (Fc 4%nat 3%nat) (Fc 4%nat 4%nat) (Fc 4%nat 5%nat) (Fc 4%nat 6%nat) (Fc 5%nat 0%nat) (Fc 5%nat 1%nat) (Fc 5%nat 2%nat) (Fc 5%nat 3%nat) (Fc 5%nat 4%nat) (Fc 5%nat 5%nat) (Fc 5%nat 6%nat) (Fc 6%nat 0%nat) (Fc 6%nat 1%nat) (Fc 6%nat 2%nat) (Fc 6%nat 3%nat) (Fc 6%nat 4%nat) (Fc 6%nat 5%nat) (Fc 6%nat 6%nat) (Ga 0%nat 0%nat) (Ga 0%nat 1%nat) (Ga 0%nat 2%nat) (Ga 1%nat 0%nat) (Ga 1%nat 1%nat) (Ga 1%nat 2%nat) (Ga 2%nat 0%nat) (Ga 2%nat 1%nat) (Ga 2%nat 2%nat) (Ga 3%nat 0%nat) (Ga 3%nat 1%nat) (Ga 3%nat 2%nat) (Ga 4%nat 0%nat) (Ga 4%nat 1%nat) (Ga 4%nat 2%nat) (Ga 5%nat 0%nat) (Ga 5%nat 1%nat) (Ga 5%nat 2%nat) (Ga 6%nat 0%nat) (Ga 6%nat 1%nat) (Ga 6%nat 2%nat) (Gb 0%nat 0%nat) (Gb 0%nat 1%nat) (Gb 0%nat 2%nat) (Gb 1%nat 0%nat) (Gb 1%nat 1%nat) (Gb 1%nat 2%nat) (Gb 2%nat 0%nat) (Gb 2%nat 1%nat) (Gb 2%nat 2%nat) (Gb 3%nat 0%nat) (Gb 3%nat 1%nat) (Gb 3%nat 2%nat) (Gb 4%nat 0%nat) (Gb 4%nat 1%nat) (Gb 4%nat 2%nat) (Gb 5%nat 0%nat) (Gb 5%nat 1%nat) (Gb 5%nat 2%nat) (Gb 6%nat 0%nat) (Gb 6%nat 1%nat) (Gb 6%nat 2%nat) (Gc 0%nat 0%nat) (Gc 0%nat 1%nat) (Gc 0%nat 2%nat) (Gc 1%nat 0%nat) (Gc 1%nat 1%nat) (Gc 1%nat 2%nat) (Gc 2%nat 0%nat) (Gc 2%nat 1%nat) (Gc 2%nat 2%nat) (Gc 3%nat 0%nat) (Gc 3%nat 1%nat) (Gc 3%nat 2%nat) (Gc 4%nat 0%nat) (Gc 4%nat 1%nat) (Gc 4%nat 2%nat) (Gc 5%nat 0%nat) (Gc 5%nat 1%nat) (Gc 5%nat 2%nat) (Gc 6%nat 0%nat) (Gc 6%nat 1%nat) (Gc 6%nat 2%nat) (Aa 0%nat 0%nat) (Aa 0%nat 1%nat) (Aa 0%nat 2%nat) (Aa 1%nat 0%nat) (Aa 1%nat 1%nat) (Aa 1%nat 2%nat) (Aa 2%nat 0%nat) (Aa 2%nat 1%nat) (Aa 2%nat 2%nat) (Aa 3%nat 0%nat) (Aa 3%nat 1%nat) (Aa 3%nat 2%nat) (Aa 4%nat 0%nat) (Aa 4%nat 1%nat) (Aa 4%nat 2%nat) (Aa 5%nat 0%nat) (Aa 5%nat 1%nat) (Aa 5%nat 2%nat) (Aa 6%nat 0%nat) (Aa 6%nat 1%nat) (Aa 6%nat 2%nat) (Ab 0%nat 0%nat) (Ab 0%nat 1%nat) (Ab 0%nat 2%nat) (Ab 1%nat 0%nat) (Ab 1%nat 1%nat) (Ab 1%nat 2%nat) (Ab 2%nat 0%nat) (Ab 2%nat 1%nat) (Ab 2%nat 2%nat) (Ab 3%nat 0%nat) (Ab 3%nat 1%nat) (Ab 3%nat 2%nat) (Ab 4%nat 0%nat) (Ab 4%nat 1%nat) (Ab 4%nat 2%nat) (Ab 5%nat 0%nat) (Ab 5%nat 1%nat) (Ab 5%nat 2%nat) (Ab 6%nat 0%nat) (Ab 6%nat 1%nat) (Ab 6%nat 2%nat) (Ac 0%nat 0%nat) (Ac 0%nat 1%nat) (Ac 0%nat 2%nat) (Ac 1%nat 0%nat) (Ac 1%nat 1%nat) (Ac 1%nat 2%nat) (Ac 2%nat 0%nat) (Ac 2%nat 1%nat) (Ac 2%nat 2%nat) (Ac 3%nat 0%nat) (Ac 3%nat 1%nat) (Ac 3%nat 2%nat) (Ac 4%nat 0%nat) (Ac 4%nat 1%nat) (Ac 4%nat 2%nat) (Ac 5%nat 0%nat) (Ac 5%nat 1%nat) (Ac 5%nat 2%nat) (Ac 6%nat 0%nat) (Ac 6%nat 1%nat) (Ac 6%nat 2%nat) (x 0%nat) (x 1%nat) (x 2%nat) (x 3%nat) (x 4%nat) (x 5%nat) (x 6%nat) (eg 0%nat) (eg 1%nat) (eg 2%nat) (ea 0%nat) (ea 1%nat) (ea 2%nat)
  | 2 => prop2d3_z2 dt1 dt2 (Fa 0%nat 0%nat) (Fa 0%nat 1%nat) (Fa 0%nat 2%nat) (Fa 0%nat 3%nat) (Fa 0%nat 4%nat) (Fa 0%nat 5%nat) (Fa 0%nat 6%nat) (Fa 1%nat 0%nat) (Fa 1%nat 1%nat) (Fa 1%nat 2%nat) (Fa 1%nat 3%nat) (Fa 1%nat 4%nat) (Fa 1%nat 5%nat) (Fa 1%nat 6%nat) (Fa 2%nat 0%nat) (Fa 2%nat 1%nat) (Fa 2%nat 2%nat) (Fa 2%nat 3%nat) (Fa 2%nat 4%nat) (Fa 2%nat 5%nat) (Fa 2%nat 6%nat) (Fa 3%nat 0%nat) (Fa 3%nat 1%nat) (Fa 3%nat 2%nat) (Fa 3%nat 3%nat) (Fa 3%nat 4%nat) (Fa 3%nat 5%nat) (Fa 3%nat 6%nat) (Fa 4%nat 0%nat) (Fa 4%nat 1%nat) (Fa 4%nat 2%nat) (Fa 4%nat 3%nat) (Fa 4%nat 4%nat) (Fa 4%nat 5%nat) (Fa 4%nat 6%nat) (Fa 5%nat 0%nat) (Fa 5%nat 1%nat) (Fa 5%nat 2%nat) (Fa 5%nat 3%nat) (Fa 5%nat 4%nat) (Fa 5%nat 5%nat) (Fa 5%nat 6%nat) (Fa 6%nat 0%nat) (Fa 6%nat 1%nat) (Fa 6%nat 2%nat) (Fa 6%nat 3%nat) (Fa 6%nat 4%nat) (Fa 6%nat 5%nat) (Fa 6%nat 6%nat) (Fb 0%nat 0%nat) (Fb 0%nat 1%nat) (Fb 0%nat 2%nat) (Fb 0%nat 3%nat) (Fb 0%nat 4%nat) (Fb 0%nat 5%nat) (Fb 0%nat 6%nat) (Fb 1%nat 0%nat) (Fb 1%nat 1%nat) (Fb 1%nat 2%nat) (Fb 1%nat 3%nat) (Fb 1%nat 4%nat) (Fb 1%nat 5%nat) (Fb 1%nat 6%nat) (Fb 2%nat 0%nat) (Fb 2%nat 1%nat) (Fb 2%nat 2%nat) (Fb 2%nat 3%nat) (Fb 2%nat 4%nat) (Fb 2%nat 5%nat) (Fb 2%nat 6%nat) (Fb 3%nat 0%nat) (Fb 3%nat 1%nat) (Fb 3%nat 2%nat) (Fb 3%nat 3%nat) (Fb 3%nat 4%nat) (Fb 3%nat 5%nat) (Fb 3%nat 6%nat) (Fb 4%nat 0%nat) (Fb 4%nat 1%nat) (Fb 4%nat 2%nat) (Fb 4%nat 3%nat) (Fb 4%nat 4%nat) (Fb 4%nat 5%nat) (Fb 4%nat 6%nat) (Fb 5%nat 0%nat) (Fb 5%nat 1%nat) (Fb 5%nat 2%nat) (Fb 5%nat 3%nat) (Fb 5%nat 4%nat) (Fb 5%nat 5%nat) (Fb 5%nat 6%nat) (Fb 6%nat 0%nat) (Fb 6%nat 1%nat) (Fb 6%nat 2%nat) (Fb 6%nat 3%nat) (Fb 6%nat 4%nat) (Fb 6%nat 5%nat) (Fb 6%nat 6%nat) (Fc 0%nat 0%nat) (Fc 0%nat 1%nat) (Fc 0%nat 2%nat) (Fc 0%nat 3%nat) (Fc 0%nat 4%nat) (Fc 0%nat 5%nat) (Fc 0%nat 6%nat) (Fc 1%nat 0%nat) (Fc 1%nat 1%nat) (Fc 1%nat 2%nat) (Fc 1%nat 3%nat) (Fc 1%nat 4%nat) (Fc 1%nat 5%nat) (Fc 1%nat 6%nat) (Fc 2%nat 0%nat) (Fc 2%nat 1%nat) (Fc 2%nat 2%nat) (Fc 2%nat 3%nat) (Fc 2%nat 4%nat) (Fc 2%nat 5%nat) (Fc 2%nat 6%nat) (Fc 3%nat 0%nat) (Fc 3%nat 1%nat) (Fc 3%nat 2%nat) (Fc 3%nat 3%nat) (Fc 3%nat 4%nat) (Fc 3%nat 5%nat) (Fc 3%nat 6%nat) (Fc 4%nat 0%nat) (Fc 4%nat 1%nat) (Fc 4%nat 2%nat) (Fc 4%nat 3%nat) (Fc 4%nat 4%nat) (Fc 4%nat 5%nat) (Fc 4%nat 6%nat) (Fc 5%nat 0%nat) (Fc 5%nat 1%nat) (Fc 5%nat 2%nat) (Fc 5%nat 3%nat) (Fc 5%nat 4%nat) (Fc 5%nat 5%nat) (Fc 5%nat 6%nat) (Fc 6%nat 0%nat) (Fc 6%nat 1%nat) (Fc 6%nat 2%nat) (Fc 6%nat 3%nat) (Fc 6%nat 4%nat) (Fc 6%nat 5%nat) (Fc 6%nat 6%nat) (Ga 0%nat 0%nat) (Ga 0%nat 1%nat) (Ga 0%nat 2%nat) (Ga 1%nat 0%nat) (Ga 1%nat 1%nat) (Ga 1%nat 2%nat) (Ga 2%nat 0%nat) (Ga 2%nat 1%nat) (Ga 2%nat 2%nat) (Ga 3%nat 0%nat) (Ga 3%nat 1%nat) (Ga 3%nat 2%nat) (Ga 4%nat 0%nat) (Ga 4%nat 1%nat) (Ga 4%nat 2%nat) (Ga 5%nat 0%nat) (Ga 5%nat 1%nat) (Ga 5%nat 2%nat) (Ga 6%nat 0%nat) (Ga 6%nat 1%nat) (Ga 6%nat 2%nat) (Gb 0%nat 0%nat) (Gb 0%nat 1%nat) (Gb 0%nat 2%nat) (Gb 1%nat 0%nat) (Gb 1%nat 1%nat) (Gb 1%nat 2%nat) (Gb 2%nat 0%nat) (Gb 2%nat 1%nat) (Gb 2%nat 2%nat) (Gb 3%nat 0%nat) (Gb 3%nat 1%nat) (Gb 3%nat 2%nat) (Gb 4%nat 0%nat) (Gb 4%nat 1%nat) (Gb 4%nat 2%nat) (Gb 5%nat 0%nat) (Gb 5%nat 1%nat) (Gb 5%nat 2%nat) (Gb 6%nat 0%nat) (Gb 6%nat 1%nat) (Gb 6%nat 2%nat) (Gc 0%nat 0%nat) (Gc 0%nat 1%nat) (Gc 0%nat 2%nat) (Gc 1%nat 0%nat) (Gc 1%nat 1%nat) (Gc 1%nat 2%nat) (Gc 2%nat 0%nat) (Gc 2%nat 1%nat) (Gc 2%nat 2%nat) (Gc 3%nat 0%nat) (Gc 3%nat 1%nat) (Gc 3%nat 2%nat) (Gc 4%nat 0%nat) (Gc 4%nat 1%nat) (Gc 4%nat 2%nat) (Gc 5%nat 0%nat) (Gc 5%nat 1%nat) (Gc 5%nat 2%nat) (Gc 6%nat 0%nat) (Gc 6%nat 1%nat) (Gc 6%nat 2%nat) (Aa 0%nat 0%nat) (Aa 0%nat 1%nat) (Aa 0%nat 2%nat) (Aa 1%nat 0%nat) (Aa 1%nat 1%nat) (Aa 1%nat 2%nat) (Aa 2%nat 0%nat) (Aa 2%nat 1%nat) (Aa 2%nat 2%nat) (Aa 3%nat 0%nat) (Aa 3%nat 1%nat) (Aa 3%nat 2%nat) (Aa 4%nat 0%nat) (Aa 4%nat 1%nat) (Aa 4%nat 2%nat) (Aa 5%nat 0%nat) (Aa 5%nat 1%nat) (Aa 5%nat 2%nat) (Aa 6%nat 0%nat) (Aa 6%nat 1%nat) (Aa 6%nat 2%nat) (Ab 0%nat 0%nat) (Ab 0%nat 1%nat) (Ab 0%nat 2%nat) (Ab 1%nat 0%nat) (Ab 1%nat 1%nat) (Ab 1%nat 2%nat) (Ab 2%nat 0%nat) (Ab 2%nat 1%nat) (Ab 2%nat 2%nat) (Ab 3%nat 0%nat) (Ab 3%nat 1%nat) (Ab 3%nat 2%nat) (Ab 4%nat 0%nat) (Ab 4%nat 1%nat) (Ab 4%nat 2%nat) (Ab 5%nat 0%nat) (Ab 5%nat 1%nat) (Ab 5%nat 2%nat) (Ab 6%nat 0%nat) (Ab 6%nat 1%nat) (Ab 6%nat 2%nat) (Ac 0%nat 0%nat) (Ac 0%nat 1%nat) (Ac 0%nat 2%nat) (Ac 1%nat 0%nat) (Ac 1%nat 1%nat) (Ac 1%nat 2%nat) (Ac 2%nat 0%nat) (Ac 2%nat 1%nat) (Ac 2%nat 2%nat) (Ac 3%nat 0%nat) (Ac 3%nat 1%nat) (Ac 3%nat 2%nat) (Ac 4%nat 0%nat) (Ac 4%nat 1%nat) (Ac 4%nat 2%nat) (Ac 5%nat 0%nat) (Ac 5%nat 1%nat) (Ac 5%nat 2%nat) (Ac 6%nat 0%nat) (Ac 6%nat 1%nat) (Ac 6%nat 2%nat) (x 0%nat) (x 1%nat) (x 2%nat) (x 3%nat) (x 4%nat) (x 5%nat) (x 6%nat) (eg 0%nat) (eg 1%nat) (eg 2%nat) (ea 0%nat) (ea 1%nat) (ea 2%nat)
  | 3 => prop2d3_z3 dt1 dt2 (Fa 0%nat 0%nat) (Fa 0%nat 1%nat) (Fa 0%nat 2%nat) (Fa 0%nat 3%nat) (Fa 0%nat 4%nat) (Fa 0%nat 5%nat) (Fa 0%nat 6%nat) (Fa 1%nat 0%nat) (Fa 1%nat 1%nat) (Fa 1%nat 2%nat) (Fa 1%nat 3%nat) (Fa 1%nat 4%nat) (Fa 1%nat 5%nat) (Fa 1%nat 6%nat) (Fa 2%nat 0%nat) (Fa 2%nat 1%nat) (Fa 2%nat 2%nat) (Fa 2%nat 3%nat) (Fa 2%nat 4%nat) (Fa 2%nat 5%nat) (Fa 2%nat 6%nat) (Fa 3%nat 0%nat) (Fa 3%nat 1%nat) (Fa 3%nat 2%nat) (Fa 3%nat 3%nat) (Fa 3%nat 4%nat) (Fa 3%nat 5%nat) (Fa 3%nat 6%nat) (Fa 4%nat 0%nat) (Fa 4%nat 1%nat) (Fa 4%nat 2%nat) (Fa 4%nat 3%nat) (Fa 4%nat 4%nat) (Fa 4%nat 5%nat) (Fa 4%nat 6%nat) (Fa 5%nat 0%nat) (Fa 5%nat 1%nat) (Fa 5%nat 2%nat) (Fa 5%nat 3%nat) (Fa 5%nat 4%nat) (Fa 5%nat 5%nat) (Fa 5%nat 6%nat) (Fa 6%nat 0%nat) (Fa 6%nat 1%nat) (Fa 6%nat 2%nat) (Fa 6%nat 3%nat) (Fa 6%nat 4%nat) (Fa 6%nat 5%nat) (Fa 6%nat 6%nat) (Fb 0%nat 0%nat) (Fb 0%nat 1%nat) (Fb 0%nat 2%nat) (Fb 0%nat 3%nat) (Fb 0%nat 4%nat) (Fb 0%nat 5%nat) (Fb 0%nat 6%nat) (Fb 1%nat 0%nat) (Fb 1%nat 1%nat) (Fb 1%nat 2%nat) (Fb 1%nat 3%nat) (Fb 1%nat 4%nat) (Fb 1%nat 5%nat) (Fb 1%nat 6%nat) (Fb 2%nat 0%nat) (Fb 2%nat 1%nat) (Fb 2%nat 2%nat) (Fb 2%nat 3%nat) (Fb 2%nat 4%nat) (Fb 2%nat 5%nat) (Fb 2%nat 6%nat) (Fb 3%nat 0%nat) (Fb 3%nat 1%nat) (Fb 3%nat 2%nat) (Fb 3%nat 3%nat) (Fb 3%nat 4%nat) (Fb 3%nat 5%nat) (Fb 3%nat 6%nat) (Fb 4%nat 0%nat) (Fb 4%nat 1%nat) (Fb 4%nat 2%nat) (Fb 4%nat 3%nat) (Fb 4%nat 4%nat) (Fb 4%nat 5%nat) (Fb 4%nat 6%nat) (Fb 5%nat 0%nat) (Fb 5%nat 1%nat) (Fb 5%nat 2%nat) (Fb 5%nat 3%nat) (Fb 5%nat 4%nat) (Fb 5%nat 5%nat) (Fb 5%nat 6%nat) (Fb 6%nat 0%nat) (Fb 6%nat 1%nat) (Fb 6%nat 2%nat) (Fb 6%nat 3%nat) (Fb 6%nat 4%nat) (Fb 6%nat 5%nat) (Fb 6%nat 6%nat) (Fc 0%nat 0%nat) (Fc 0%nat 1%nat) (Fc 0%nat 2%nat) (Fc 0%nat 3%nat) (Fc 0%nat 4%nat) (Fc 0%nat 5%nat) (Fc 0%nat 6%nat) (Fc 1%nat 0%nat) (Fc 1%nat 1%nat) (Fc 1%nat 2%nat) (Fc 1%nat 3%nat) (Fc 1%nat 4%nat) (Fc 1%nat 5%nat) (Fc 1%nat 6%nat) (Fc 2%nat 0%nat) (Fc 2%nat 1%nat) (Fc 2%nat 2%nat) (Fc 2%nat 3%nat) (Fc 2%nat 4%nat) (Fc 2%nat 5%nat) (Fc 2%nat 6%nat) (Fc 3%nat 0%nat) (Fc 3%nat 1%nat) (Fc 3%nat 2%nat) (Fc 3%nat 3%nat) (Fc 3%nat 4%nat) (Fc 3%nat 5%nat) (Fc 3%nat 6%nat) (Fc 4%nat 0%nat) (Fc 4%nat 1%nat) (Fc 4%nat 2%nat) (Fc 4%nat 3%nat) (Fc 4%nat 4%nat) (Fc 4%nat 5%nat) (Fc 4%nat 6%nat) (Fc 5%nat 0%nat) (Fc 5%nat 1%nat) (Fc 5%nat 2%nat) (Fc 5%nat 3%nat) (Fc 5%nat 4%nat) (Fc 5%nat 5%nat) (Fc 5%nat 6%nat) (Fc 6%nat 0%nat) (Fc 6%nat 1%nat) (Fc 6%nat 2%nat) (Fc 6%nat 3%nat) (Fc 6%nat 4%nat) (Fc 6%nat 5%nat) (Fc 6%nat 6%nat) (Ga 0%nat 0%nat) (Ga 0%nat 1%nat) (Ga 0%nat 2%nat) (Ga 1%nat 0%nat) (Ga 1%nat 1%nat) (Ga 1%nat 2%nat) (Ga 2%nat 0%nat) (Ga 2%nat 1%nat) (Ga 2%nat 2%nat) (Ga 3%nat 0%nat) (Ga 3%nat 1%nat) (Ga 3%nat 2%nat) (Ga 4%nat 0%nat) (Ga 4%nat 1%nat) (Ga 4%nat 2%nat) (Ga 5%nat 0%nat) (Ga 5%nat 1%nat) (Ga 5%nat 2%nat) (Ga 6%nat 0%nat) (Ga 6%nat 1%nat) (Ga 6%nat 2%nat) (Gb 0%nat 0%nat) (Gb 0%nat 1%nat) (Gb 0%nat 2%nat) (Gb 1%nat 0%nat) (Gb 1%nat 1%nat) (Gb 1%nat 2%nat) (Gb 2%nat 0%nat) (Gb 2%nat 1%nat) (Gb 2%nat 2%nat) (Gb 3%nat 0%nat) (Gb 3%nat 1%nat) (Gb 3%nat 2%nat) (Gb 4%nat 0%nat) (Gb 4%nat 1%nat) (Gb 4%nat 2%nat) (Gb 5%nat 0%nat) (Gb 5%nat 1%nat) (Gb 5%nat 2%nat) (Gb 6%nat 0%nat) (Gb 6%nat 1%nat) (Gb 6%nat 2%nat) (Gc 0%nat 0%nat) (Gc 0%nat 1%nat) (Gc 0%nat 2%nat) (Gc 1%nat 0%nat) (Gc 1%nat 1%nat) (Gc 1%nat 2%nat) (Gc 2%nat 0%nat) (Gc 2%nat 1%nat) (Gc 2%nat 2%nat) (Gc 3%nat 0%nat) (Gc 3%nat 1%nat) (Gc 3%nat 2%nat) (Gc 4%nat 0%nat) (Gc 4%nat 1%nat) (Gc 4%nat 2%nat) (Gc 5%nat 0%nat) (Gc 5%nat 1%nat) (Gc 5%nat 2%nat) (Gc 6%nat 0%nat) (Gc 6%nat 1%nat) (Gc 6%nat 2%nat) (Aa 0%nat 0%nat) (Aa 0%nat 1%nat) (Aa 0%nat 2%nat) (Aa 1%nat 0%nat) (Aa 1%nat 1%nat) (Aa 1%nat 2%nat) (Aa 2%nat 0%nat) (Aa 2%nat 1%nat) (Aa 2%nat 2%nat) (Aa 3%nat 0%nat) (Aa 3%nat 1%nat) (Aa 3%nat 2%nat) (Aa 4%nat 0%nat) (Aa 4%nat 1%nat) (Aa 4%nat 2%nat) (Aa 5%nat 0%nat) (Aa 5%nat 1%nat) (Aa 5%nat 2%nat) (Aa 6%nat 0%nat) (Aa 6%nat 1%nat) (Aa 6%nat 2%nat) (Ab 0%nat 0%nat) (Ab 0%nat 1%nat) (Ab 0%nat 2%nat) (Ab 1%nat 0%nat) (Ab 1%nat 1%nat) (Ab 1%nat 2%nat) (Ab 2%nat 0%nat) (Ab 2%nat 1%nat) (Ab 2%nat 2%nat) (Ab 3%nat 0%nat) (Ab 3%nat 1%nat) (Ab 3%nat 2%nat) (Ab 4%nat 0%nat) (Ab 4%nat 1%nat) (Ab 4%nat 2%nat) (Ab 5%nat 0%nat) (Ab 5%nat 1%nat) (Ab 5%nat 2%nat) (Ab 6%nat 0%nat) (Ab 6%nat 1%nat) (Ab 6%nat 2%nat) (Ac 0%nat 0%nat) (Ac 0%nat 1%nat) (Ac 0%nat 2%nat) (Ac 1%nat 0%nat) (Ac 1%nat 1%nat) (Ac 1%nat 2%nat) (Ac 2%nat 0%nat) (Ac 2%nat 1%nat) (Ac 2%nat 2%nat) (Ac 3%nat 0%nat) (Ac 3%nat 1%nat) (Ac 3%nat 2%nat) (Ac 4%nat 0%nat) (Ac 4%nat 1%nat) (Ac 4%nat 2%nat) (Ac 5%nat 0%nat) (Ac 5%nat 1%nat) (Ac 5%nat 2%nat) (Ac 6%nat 0%nat) (Ac 6%nat 1%nat) (Ac 6%nat 2%nat) (x 0%nat) (x 1%nat) (x 2%nat) (x 3%nat) (x 4%nat) (x 5%nat) (x 6%nat) (eg 0%nat) (eg 1%nat) (eg 2%nat) (ea 0%nat) (ea 1%nat) (ea 2%nat)
  | 4 => prop2d3_z4 dt1 dt2 (Fa 0%nat 0%nat) (Fa 0%nat 1%nat) (Fa 0%nat 2%nat) (Fa 0%nat 3%nat) (Fa 0%nat 4%nat) (Fa 0%nat 5%nat) (Fa 0%nat 6%nat) (Fa 1%nat 0%nat) (Fa 1%nat 1%nat) (Fa 1%nat 2%nat) (Fa 1%nat 3%nat) (Fa 1%nat 4%nat) (Fa 1%nat 5%nat) (Fa 1%nat 6%nat) (Fa 2%nat 0%nat) (Fa 2%nat 1%nat) (Fa 2%nat 2%nat) (Fa 2%nat 3%nat) (Fa 2%nat 4%nat) (Fa 2%nat 5%nat) (Fa 2%nat 6%nat) (Fa 3%nat 0%nat) (Fa 3%nat 1%nat) (Fa 3%nat 2%nat) (Fa 3%nat 3%nat) (Fa 3%nat 4%nat) (Fa 3%nat 5%nat) (Fa 3%nat 6%nat) (Fa 4%nat 0%nat) (Fa 4%nat 1%nat) (Fa 4%nat 2%nat) (Fa 4%nat 3%nat) (Fa 4%nat 4%nat) (Fa 4%nat 5%nat) (Fa 4%nat 6%nat) (Fa 5%nat 0%nat) (Fa 5%nat 1%nat) (Fa 5%nat 2%nat) (Fa 5%nat 3%nat) (Fa 5%nat 4%nat) (Fa 5%nat 5%nat) (Fa 5%nat 6%nat) (Fa 6%nat 0%nat) (Fa 6%nat 1%nat) (Fa 6%nat 2%nat) (Fa 6%nat 3%nat) (Fa 6%nat 4%nat) (Fa 6%nat 5%nat) (Fa 6%nat 6%nat) (Fb 0%nat 0%nat) (Fb 0%nat 1%nat) (Fb 0%nat 2%nat) (Fb 0%nat 3%nat) (Fb 0%nat 4%nat) (Fb 0%nat 5%nat) (Fb 0%nat 6%nat) (Fb 1%nat 0%nat) (Fb 1%nat 1%nat) (Fb 1%nat 2%nat) (Fb 1%nat 3%nat) (Fb 1%nat 4%nat) (Fb 1%nat 5%nat) (Fb 1%nat 6%nat) (Fb 2%nat 0%nat) (Fb 2%nat 1%nat) (Fb 2%nat 2%nat) (Fb 2%nat 3%nat) (Fb 2%nat 4%nat) (Fb 2%nat 5%nat) (Fb 2%nat 6%nat) (Fb 3%nat 0%nat) (Fb 3%nat 1%nat) (Fb 3%nat 2%nat) (Fb 3%nat 3%nat) (Fb 3%nat 4%nat) (Fb 3%nat 5%nat) (Fb 3%nat 6%nat) (Fb 4%nat 0%nat) (Fb 4%nat 1%nat) (Fb 4%nat 2%nat) (Fb 4%nat 3%nat) (Fb 4%nat 4%nat) (Fb 4%nat 5%nat) (Fb 4%nat 6%nat) (Fb 5%nat 0%nat) (Fb 5%nat 1%nat) (Fb 5%nat 2%nat) (Fb 5%nat 3%nat) (Fb 5%nat 4%nat) (Fb 5%nat 5%nat) (Fb 5%nat 6%nat) (Fb 6%nat 0%nat) (Fb 6%nat 1%nat) (Fb 6%nat 2%nat) (Fb 6%nat 3%nat) (Fb 6%nat 4%nat) (Fb 6%nat 5%nat) (Fb 6%nat 6%nat) (Fc 0%nat 0%nat) (Fc 0%nat 1%nat) (Fc 0%nat 2%nat) (Fc 0%nat 3%nat) (Fc 0%nat 4%nat) (Fc 0%nat 5%nat) (Fc 0%nat 6%nat) (Fc 1%nat 0%nat) (Fc 1%nat 1%nat) (Fc 1%nat 2%nat) (Fc 1%nat 3%nat) (Fc 1%nat 4%nat) (Fc 1%nat 5%nat) (Fc 1%nat 6%nat) (Fc 2%nat 0%nat) (Fc 2%nat 1%nat) (Fc 2%nat 2%nat) (Fc 2%nat 3%nat) (Fc 2%nat 4%nat) (Fc 2%nat 5%nat) (Fc 2%nat 6%nat) (Fc 3%nat 0%nat) (Fc 3%nat 1%nat) (Fc 3%nat 2%nat) (Fc 3%nat 3%nat) (Fc 3%nat 4%nat) (Fc 3%nat 5%nat) (Fc 3%nat 6%nat) (Fc 4%nat 0%nat) (Fc 4%nat 1%nat) (Fc 4%nat 2%nat) (Fc 4%nat 3%nat) (Fc 4%nat 4%nat) (Fc 4%nat 5%nat) (Fc 4%nat 6%nat) (Fc 5%nat 0%nat) (Fc 5%nat 1%nat) (Fc 5%nat 2%nat) (Fc 5%nat 3%nat) (Fc 5%nat 4%nat) (Fc 5%nat 5%nat) (Fc 5%nat 6%nat) (Fc 6%nat 0%nat) (Fc 6%nat 1%nat) (Fc 6%nat 2%nat) (Fc 6%nat 3%nat) (Fc 6%nat 4%nat) (Fc 6%nat 5%nat) (Fc 6%nat 6%nat) (Ga 0%nat 0%nat) (Ga 0%nat 1%nat) (Ga 0%nat 2%nat) (Ga 1%nat 0%nat) (Ga 1%nat 1%nat) (Ga 1%nat 2%nat) (Ga 2%nat 0%nat) (Ga 2%nat 1%nat) (Ga 2%nat 2%nat) (Ga 3%nat 0%nat) (Ga 3%nat 1%nat) (Ga 3%nat 2%nat) (Ga 4%nat 0%nat) (Ga 4%nat 1%nat) (Ga 4%nat 2%nat) (Ga 5%nat 0%nat) (Ga 5%nat 1%nat) (Ga 5%nat 2%nat) (Ga 6%nat 0%nat) (Ga 6%nat 1%nat) (Ga 6%nat 2%nat) (Gb 0%nat 0%nat) (Gb 0%nat 1%nat) (Gb 0%nat 2%nat) (Gb 1%nat 0%nat) (Gb 1%nat 1%nat) (Gb 1%nat 2%nat) (Gb 2%nat 0%nat) (Gb 2%nat 1%nat) (Gb 2%nat 2%nat) (Gb 3%nat 0%nat) (Gb 3%nat 1%nat) (Gb 3%nat 2%nat) (Gb 4%nat 0%nat) (Gb 4%nat 1%nat) (Gb 4%nat 2%nat) (Gb 5%nat 0%nat) (Gb 5%nat 1%nat) (Gb 5%nat 2%nat) (Gb 6%nat 0%nat) (Gb 6%nat 1%nat) (Gb 6%nat 2%nat) (Gc 0%nat 0%nat) (Gc 0%nat 1%nat) (Gc 0%nat 2%nat) (Gc 1%nat 0%nat) (Gc 1%nat 1%nat) (Gc 1%nat 2%nat) (Gc 2%nat 0%nat) (Gc 2%nat 1%nat) (Gc 2%nat 2%nat) (Gc 3%nat 0%nat) (Gc 3%nat 1%nat) (Gc 3%nat 2%nat) (Gc 4%nat 0%nat) (Gc 4%nat 1%nat) (Gc 4%nat 2%nat) (Gc 5%nat 0%nat) (Gc 5%nat 1%nat) (Gc 5%nat 2%nat) (Gc 6%nat 0%nat) (Gc 6%nat 1%nat) (Gc 6%nat 2%nat) (Aa 0%nat 0%nat) (Aa 0%nat 1%nat) (Aa 0%nat 2%nat) (Aa 1%nat 0%nat) (Aa 1%nat 1%nat) (Aa 1%nat 2%nat) (Aa 2%nat 0%nat) (Aa 2%nat 1%nat) (Aa 2%nat 2%nat) (Aa 3%nat 0%nat) (Aa 3%nat 1%nat) (Aa 3%nat 2%nat) (Aa 4%nat 0%nat) (Aa 4%nat 1%nat) (Aa 4%nat 2%nat) (Aa 5%nat 0%nat) (Aa 5%nat 1%nat) (Aa 5%nat 2%nat) (Aa 6%nat 0%nat) (Aa 6%nat 1%nat) (Aa 6%nat 2%nat) (Ab 0%nat 0%nat) (Ab 0%nat 1%nat) (Ab 0%nat 2%nat) (Ab 1%nat 0%nat) (Ab 1%nat 1%nat) (Ab 1%nat 2%nat) (Ab 2%nat 0%nat) (Ab 2%nat 1%nat) (Ab 2%nat 2%nat) (Ab 3%nat 0%nat) (Ab 3%nat 1%nat) (Ab 3%nat 2%nat) (Ab 4%nat 0%nat) (Ab 4%nat 1%nat) (Ab 4%nat 2%nat) (Ab 5%nat 0%nat) (Ab 5%nat 1%nat) (Ab 5%nat 2%nat) (Ab 6%nat 0%nat) (Ab 6%nat 1%nat) (Ab 6%nat 2%nat) (Ac 0%nat 0%nat) (Ac 0%nat 1%nat) (Ac 0%nat 2%nat) (Ac 1%nat 0%nat) (Ac 1%nat 1%nat) (Ac 1%nat 2%nat) (Ac 2%nat 0%nat) (Ac 2%nat 1%nat) (Ac 2%nat 2%nat) (Ac 3%nat 0%nat) (Ac 3%nat 1%nat) (Ac 3%nat 2%nat) (Ac 4%nat 0%nat) (Ac 4%nat 1%nat) (Ac 4%nat 2%nat) (Ac 5%nat 0%nat) (Ac 5%nat 1%nat) (Ac 5%nat 2%nat) (Ac 6%nat 0%nat) (Ac 6%nat 1%nat) (Ac 6%nat 2%nat) (x 0%nat) (x 1%nat) (x 2%nat) (x 3%nat) (x 4%nat) (x 5%nat) (x 6%nat) (eg 0%nat) (eg 1%nat) (eg 2%nat) (ea 0%nat) (ea 1%nat) (ea 2%nat)
  | 5 => prop2d3_z5 dt1 dt2 (Fa 0%nat 0%nat) (Fa 0%nat 1%nat) (Fa 0%nat 2%nat) (Fa 0%nat 3%nat) (Fa 0%nat 4%nat) (Fa 0%nat 5%nat) (Fa 0%nat 6%nat) (Fa 1%nat 0%nat) (Fa 1%nat 1%nat) (Fa 1%nat 2%nat) (Fa 1%nat 3%nat) (Fa 1%nat 4%nat) (Fa 1%nat 5%nat) (Fa 1%nat 6%nat) (Fa 2%nat 0%nat) (Fa 2%nat 1%nat) (Fa 2%nat 2%nat) (Fa 2%nat 3%nat) (Fa 2%nat 4%nat) (Fa 2%nat 5%nat) (Fa 2%nat 6%nat) (Fa 3%nat 0%nat) (Fa 3%nat 1%nat) (Fa 3%nat 2%nat) (Fa 3%nat 3%nat) (Fa 3%nat 4%nat) (Fa 3%nat 5%nat) (Fa 3%nat 6%nat) (Fa 4%nat 0%nat) (Fa 4%nat 1%nat) (Fa 4%nat 2%nat) (Fa 4%nat 3%nat) (Fa 4%nat 4%nat) (Fa 4%nat 5%nat) (Fa 4%nat 6%nat) (Fa 5%nat 0%nat) (Fa 5%nat 1%nat) (Fa 5%nat 2%nat) (Fa 5%nat 3%nat) (Fa 5%nat 4%nat) (Fa 5%nat 5%nat) (Fa 5%nat 6%nat) (Fa 6%nat 0%nat) (Fa 6%nat 1%nat) (Fa 6%nat 2%nat) (Fa 6%nat 3%nat) (Fa 6%nat 4%nat) (Fa 6%nat 5%nat) (Fa 6%nat 6%nat) (Fb 0%nat 0%nat) (Fb 0%nat 1%nat) (Fb 0%nat 2%nat) (Fb 0%nat 3%nat) (Fb 0%nat 4%nat) (Fb 0%nat 5%nat) (Fb 0%nat 6%nat) (Fb 1%nat 0%nat) (Fb 1%nat 1%nat) (Fb 1%nat 2%nat) (Fb 1%nat 3%nat) (Fb 1%nat 4%nat) (Fb 1%nat 5%nat) (Fb 1%nat 6%nat) (Fb 2%nat 0%nat) (Fb 2%nat 1%nat) (Fb 2%nat 2%nat) (Fb 2%nat 3%nat) (Fb 2%nat 4%nat) (Fb 2%nat 5%nat) (Fb 2%nat 6%nat) (Fb 3%nat 0%nat) (Fb 3%nat 1%nat) (Fb 3%nat 2%nat) (Fb 3%nat 3%nat) (Fb 3%nat 4%nat) (Fb 3%nat 5%nat) (Fb 3%nat 6%nat) (Fb 4%nat 0%nat) (Fb 4%nat 1%nat) (Fb 4%nat 2%nat) (Fb 4%nat 3%nat) (Fb 4%nat 4%nat) (Fb 4%nat 5%nat) (Fb 4%nat 6%nat) (Fb 5%nat 0%nat) (Fb 5%nat 1%nat) (Fb 5%nat 2%nat) (Fb 5%nat 3%nat) (Fb 5%nat 4%nat) (Fb 5%nat 5%nat) (Fb 5%nat 6%nat) (Fb 6%nat 0%nat) (Fb 6%nat 1%nat) (Fb 6%nat 2%nat) (Fb 6%nat 3%nat) (Fb 6%nat 4%nat) (Fb 6%nat 5%nat) (Fb 6%nat 6%nat) (Fc 0%nat 0%nat) (Fc 0%nat 1%nat) (Fc 0%nat 2%nat) (Fc 0%nat 3%nat) (Fc 0%nat 4%nat) (Fc 0%nat 5%nat) (Fc 0%nat 6%nat) (Fc 1%nat 0%nat) (Fc 1%nat 1%nat) (Fc 1%nat 2%nat) (Fc 1%nat 3%nat) (Fc 1%nat 4%nat) (Fc 1%nat 5%nat) (Fc 1%nat 6%nat) (Fc 2%nat 0%nat) (Fc 2%nat 1%nat) (Fc 2%nat 2%nat) (Fc 2%nat 3%nat) (Fc 2%nat 4%nat) (Fc 2%nat 5%nat) (Fc 2%nat 6%nat) (Fc 3%nat 0%nat) (Fc 3%nat 1%nat) (Fc 3%nat 2%nat) (Fc 3%nat 3%nat) (Fc 3%nat 4%nat) (Fc 3%nat 5%nat) (Fc 3%nat 6%nat) (Fc 4%nat 0%nat) (Fc 4%nat 1%nat) (Fc 4%nat 2%nat) (Fc 4%nat 3%nat) (Fc 4%nat 4%nat) (Fc 4%nat 5%nat) (Fc 4%nat 6%nat) (Fc 5%nat 0%nat) (Fc 5%nat 1%nat) (Fc 5%nat 2%nat) (Fc 5%nat 3%nat) (Fc 5%nat 4%nat) (Fc 5%nat 5%nat) (Fc 5%nat 6%nat) (Fc 6%nat 0%nat) (Fc 6%nat 1%nat) (Fc 6%nat 2%nat) (Fc 6%nat 3%nat) (Fc 6%nat 4%nat) (Fc 6%nat 5%nat) (Fc 6%nat 6%nat) (Ga 0%nat 0%nat) (Ga 0%nat 1%nat) (Ga 0%nat 2%nat) (Ga 1%nat 0%nat) (Ga 1%nat 1%nat) (Ga 1%nat 2%nat) (Ga 2%nat 0%nat) (Ga 2%nat 1%nat) (Ga 2%nat 2%nat) (Ga 3%nat 0%nat) (Ga 3%nat 1%nat) (Ga 3%nat 2%nat) (Ga 4%nat 0%nat) (Ga 4%nat 1%nat) (Ga 4%nat 2%nat) (Ga 5%nat 0%nat) (Ga 5%nat 1%nat) (Ga 5%nat 2%nat) (Ga 6%nat 0%nat) (Ga 6%nat 1%nat) (Ga 6%nat 2%nat) (Gb 0%nat 0%nat) (Gb 0%nat 1%nat) (Gb 0%nat 2%nat) (Gb 1%nat 0%nat) (Gb 1%nat 1%nat) (Gb 1%nat 2%nat) (Gb 2%nat 0%nat) (Gb 2%nat 1%nat) (Gb 2%nat 2%nat) (Gb 3%nat 0%nat) (Gb 3%nat 1%nat) (Gb 3%nat 2%nat) (Gb 4%nat 0%nat) (Gb 4%nat 1%nat) (Gb 4%nat 2%nat) (Gb 5%nat 0%nat) (Gb 5%nat 1%nat) (Gb 5%nat 2%nat) (Gb 6%nat 0%nat) (Gb 6%nat 1%nat) (Gb 6%nat 2%nat) (Gc 0%nat 0%nat) (Gc 0%nat 1%nat) (Gc 0%nat 2%nat) (Gc 1%nat 0%nat) (Gc 1%nat 1%nat) (Gc 1%nat 2%nat) (Gc 2%nat 0%nat) (Gc 2%nat 1%nat) (Gc 2%nat 2%nat) (Gc 3%nat 0%nat) (Gc 3%nat 1%nat) (Gc 3%nat 2%nat) (Gc 4%nat 0%nat) (Gc 4%nat 1%nat) (Gc 4%nat 2%nat) (Gc 5%nat 0%nat) (Gc 5%nat 1%nat) (Gc 5%nat 2%nat) (Gc 6%nat 0%nat) (Gc 6%nat 1%nat) (Gc 6%nat 2%nat) (Aa 0%nat 0%nat) (Aa 0%nat 1%nat) (Aa 0%nat 2%nat) (Aa 1%nat 0%nat) (Aa 1%nat 1%nat) (Aa 1%nat 2%nat) (Aa 2%nat 0%nat) (Aa 2%nat 1%nat) (Aa 2%nat 2%nat) (Aa 3%nat 0%nat) (Aa 3%nat 1%nat) (Aa 3%nat 2%nat) (Aa 4%nat 0%nat) (Aa 4%nat 1%nat) (Aa 4%nat 2%nat) (Aa 5%nat 0%nat) (Aa 5%nat 1%nat) (Aa 5%nat 2%nat) (Aa 6%nat 0%nat) (Aa 6%nat 1%nat) (Aa 6%nat 2%nat) (Ab 0%nat 0%nat) (Ab 0%nat 1%nat) (Ab 0%nat 2%nat) (Ab 1%nat 0%nat) (Ab 1%nat 1%nat) (Ab 1%nat 2%nat) (Ab 2%nat 0%nat) (Ab 2%nat 1%nat) (Ab 2%nat 2%nat) (Ab 3%nat 0%nat) (Ab 3%nat 1%nat) (Ab 3%nat 2%nat) (Ab 4%nat 0%nat) (Ab 4%nat 1%nat) (Ab 4%nat 2%nat) (Ab 5%nat 0%nat) (Ab 5%nat 1%nat) (Ab 5%nat 2%nat) (Ab 6%nat 0%nat) (Ab 6%nat 1%nat) (Ab 6%nat 2%nat) (Ac 0%nat 0%nat) (Ac 0%nat 1%nat) (Ac 0%nat 2%nat) (Ac 1%nat 0%nat) (Ac 1%nat 1%nat) (Ac 1%nat 2%nat) (Ac 2%nat 0%nat) (Ac 2%nat 1%nat) (Ac 2%nat 2%nat) (Ac 3%nat 0%nat) (Ac 3%nat 1%nat) (Ac 3%nat 2%nat) (Ac 4%nat 0%nat) (Ac 4%nat 1%nat) (Ac 4%nat 2%nat) (Ac 5%nat 0%nat) (Ac 5%nat 1%nat) (Ac 5%nat 2%nat) (Ac 6%nat 0%nat) (Ac 6%nat 1%nat) (Ac 6%nat 2%nat) (x 0%nat) (x 1%nat) (x 2%nat) (x 3%nat) (x 4%nat) (x 5%nat) (x 6%nat) (eg 0%nat) (eg 1%nat) (eg 2%nat) (ea 0%nat) (ea 1%nat) (ea 2%nat)
  | 6 => prop2d3_z6 dt1 dt2 (Fa 0%nat 0%nat) (Fa 0%nat 1%nat) (Fa 0%nat 2%nat) (Fa 0%nat 3%nat) (Fa 0%nat 4%nat) (Fa 0%nat 5%nat) (Fa 0%nat 6%nat) (Fa 1%nat 0%nat) (Fa 1%nat 1%nat) (Fa 1%nat 2%nat) (Fa 1%nat 3%nat) (Fa 1%nat 4%nat) (Fa 1%nat 5%nat) (Fa 1%nat 6%nat) (Fa 2%nat 0%nat) (Fa 2%nat 1%nat) (Fa 2%nat 2%nat) (Fa 2%nat 3%nat) (Fa 2%nat 4%nat) (Fa 2%nat 5%nat) (Fa 2%nat 6%nat) (Fa 3%nat 0%nat) (Fa 3%nat 1%nat) (Fa 3%nat 2%nat) (Fa 3%nat 3%nat) (Fa 3%nat 4%nat) (Fa 3%nat 5%nat) (Fa 3%nat 6%nat) (Fa 4%nat 0%nat) (Fa 4%nat 1%nat) (Fa 4%nat 2%nat) (Fa 4%nat 3%nat) (Fa 4%nat 4%nat) (Fa 4%nat 5%nat) (Fa 4%nat 6%nat) (Fa 5%nat 0%nat) (Fa 5%nat 1%nat) (Fa 5%nat 2%nat) (Fa 5%nat 3%nat) (Fa 5%nat 4%nat) (Fa 5%nat 5%nat) (Fa 5%nat 6%nat) (Fa 6%nat 0%nat) (Fa 6%nat 1%nat) (Fa 6%nat 2%nat) (Fa 6%nat 3%nat) (Fa 6%nat 4%nat) (Fa 6%nat 5%nat) (Fa 6%nat 6%nat) (Fb 0%nat 0%nat) (Fb 0%nat 1%nat) (Fb 0%nat 2%nat) (Fb 0%nat 3%nat) (Fb 0%nat 4%nat) (Fb 0%nat 5%nat) (Fb 0%nat 6%nat) (Fb 1%nat 0%nat) (Fb 1%nat 1%nat) (Fb 1%nat 2%nat) (Fb 1%nat 3%nat) (Fb 1%nat 4%nat) (Fb 1%nat 5%nat) (Fb 1%nat 6%nat) (Fb 2%nat 0%nat) (Fb 2%nat 1%nat) (Fb 2%nat 2%nat) (Fb 2%nat 3%nat) (Fb 2%nat 4%nat) (Fb 2%nat 5%nat) (Fb 2%nat 6%nat) (Fb 3%nat 0%nat) (Fb 3%nat 1%nat) (Fb 3%nat 2%nat) (Fb 3%nat 3%nat) (Fb 3%nat 4%nat) (Fb 3%nat 5%nat) (Fb 3%nat 6%nat) (Fb 4%nat 0%nat) (Fb 4%nat 1%nat) (Fb 4%nat 2%nat) (Fb 4%nat 3%nat) (Fb 4%nat 4%nat) (Fb 4%nat 5%nat) (Fb 4%nat 6%nat) (Fb 5%nat 0%nat) (Fb 5%nat 1%nat) (Fb 5%nat 2%nat) (Fb 5%nat 3%nat) (Fb 5%nat 4%nat) (Fb 5%nat 5%nat) (Fb 5%nat 6%nat) (Fb 6%nat 0%nat) (Fb 6%nat 1%nat) (Fb 6%nat 2%nat) (Fb 6%nat 3%nat) (Fb 6%nat 4%nat) (Fb 6%nat 5%nat) (Fb 6%nat 6%nat) (Fc 0%nat 0%nat) (Fc 0%nat 1%nat) (Fc 0%nat 2%nat) (Fc 0%nat 3%nat) (Fc 0%nat 4%nat) (Fc 0%nat 5%nat) (Fc 0%nat 6%nat) (Fc 1%nat 0%nat) (Fc 1%nat 1%nat) (Fc 1%nat 2%nat) (Fc 1%nat 3%nat) (Fc 1%nat 4%nat) (Fc 1%nat 5%nat) (Fc 1%nat 6%nat) (Fc 2%nat 0%nat) (Fc 2%nat 1%nat) (Fc 2%nat 2%nat) (Fc 2%nat 3%nat) (Fc 2%nat 4%nat) (Fc 2%nat 5%nat) (Fc 2%nat 6%nat) (Fc 3%nat 0%nat) (Fc 3%nat 1%nat) (Fc 3%nat 2%nat) (Fc 3%nat 3%nat) (Fc 3%nat 4%nat) (Fc 3%nat 5%nat) (Fc 3%nat 6%nat) (Fc 4%nat 0%nat) (Fc 4%nat 1%nat) (Fc 4%nat 2%nat) (Fc 4%nat 3%nat) (Fc 4%nat 4%nat) (Fc 4%nat 5%nat) (Fc 4%nat 6%nat) (Fc 5%nat 0%nat) (Fc 5%nat 1%nat) (Fc 5%nat 2%nat) (Fc 5%nat 3%nat) (Fc 5%nat 4%nat) (Fc 5%nat 5%nat) (Fc 5%nat 6%nat) (Fc 6%nat 0%nat) (Fc 6%nat 1%nat) (Fc 6%nat 2%nat) (Fc 6%nat 3%nat) (Fc 6%nat 4%nat) (Fc 6%nat 5%nat) (Fc 6%nat 6%nat) (Ga 0%nat 0%nat) (Ga 0%nat 1%nat) (Ga 0%nat 2%nat) (Ga 1%nat 0%nat) (Ga 1%nat 1%nat) (Ga 1%nat 2%nat) (Ga 2%nat 0%nat) (Ga 2%nat 1%nat) (Ga 2%nat 2%nat) (Ga 3%nat 0%nat) (Ga 3%nat 1%nat) (Ga 3%nat 2%nat) (Ga 4%nat 0%nat) (Ga 4%nat 1%nat) (Ga 4%nat 2%nat) (Ga 5%nat 0%nat) (Ga 5%nat 1%nat) (Ga 5%nat 2%nat) (Ga 6%nat 0%nat) (Ga 6%nat 1%nat) (Ga 6%nat 2%nat) (Gb 0%nat 0%nat) (Gb 0%nat 1%nat) (Gb 0%nat 2%nat) (Gb 1%nat 0%nat) (Gb 1%nat 1%nat) (Gb 1%nat 2%nat) (Gb 2%nat 0%nat) (Gb 2%nat 1%nat) (Gb 2%nat 2%nat) (Gb 3%nat 0%nat) (Gb 3%nat 1%nat) (Gb 3%nat 2%nat) (Gb 4%nat 0%nat) (Gb 4%nat 1%nat) (Gb 4%nat 2%nat) (Gb 5%nat 0%nat) (Gb 5%nat 1%nat) (Gb 5%nat 2%nat) (Gb 6%nat 0%nat) (Gb 6%nat 1%nat) (Gb 6%nat 2%nat) (Gc 0%nat 0%nat) (Gc 0%nat 1%nat) (Gc 0%nat 2%nat) (Gc 1%nat 0%nat) (Gc 1%nat 1%nat) (Gc 1%nat 2%nat) (Gc 2%nat 0%nat) (Gc 2%nat 1%nat) (Gc 2%nat 2%nat) (Gc 3%nat 0%nat) (Gc 3%nat 1%nat) (Gc 3%nat 2%nat) (Gc 4%nat 0%nat) (Gc 4%nat 1%nat) (Gc 4%nat 2%nat) (Gc 5%nat 0%nat) (Gc 5%nat 1%nat) (Gc 5%nat 2%nat) (Gc 6%nat 0%nat) (Gc 6%nat 1%nat) (Gc 6%nat 2%nat) (Aa 0%nat 0%nat) (Aa 0%nat 1%nat) (Aa 0%nat 2%nat) (Aa 1%nat 0%nat) (Aa 1%nat 1%nat) (Aa 1%nat 2%nat) (Aa 2%nat 0%nat) (Aa 2%nat 1%nat) (Aa 2%nat 2%nat) (Aa 3%nat 0%nat) (Aa 3%nat 1%nat) (Aa 3%nat 2%nat) (Aa 4%nat 0%nat) (Aa 4%nat 1%nat) (Aa 4%nat 2%nat) (Aa 5%nat 0%nat) (Aa 5%nat 1%nat) (Aa 5%nat 2%nat) (Aa 6%nat 0%nat) (Aa 6%nat 1%nat) (Aa 6%nat 2%nat) (Ab 0%nat 0%nat) (Ab 0%nat 1%nat) (Ab 0%nat 2%nat) (Ab 1%nat 0%nat) (Ab 1%nat 1%nat) (Ab 1%nat 2%nat) (Ab 2%nat 0%nat) (Ab 2%nat 1%nat) (Ab 2%nat 2%nat) (Ab 3%nat 0%nat) (Ab 3%nat 1%nat) (Ab 3%nat 2%nat) (Ab 4%nat 0%nat) (Ab 4%nat 1%nat) (Ab 4%nat 2%nat) (Ab 5%nat 0%nat) (Ab 5%nat 1%nat) (Ab 5%nat 2%nat) (Ab 6%nat 0%nat) (Ab 6%nat 1%nat) (Ab 6%nat 2%nat) (Ac 0%nat 0%nat) (Ac 0%nat 1%nat) (Ac 0%nat 2%nat) (Ac 1%nat 0%nat) (Ac 1%nat 1%nat) (Ac 1%nat 2%nat) (Ac 2%nat 0%nat) (Ac 2%nat 1%nat) (Ac 2%nat 2%nat) (Ac 3%nat 0%nat) (Ac 3%nat 1%nat) (Ac 3%nat 2%nat) (Ac 4%nat 0%nat) (Ac 4%nat 1%nat) (Ac 4%nat 2%nat) (Ac 5%nat 0%nat) (Ac 5%nat 1%nat) (Ac 5%nat 2%nat) (Ac 6%nat 0%nat) (Ac 6%nat 1%nat) (Ac 6%nat 2%nat) (x 0%nat) (x 1%nat) (x 2%nat) (x 3%nat) (x 4%nat) (x 5%nat) (x 6%nat) (eg 0%nat) (eg 1%nat) (eg 2%nat) (ea 0%nat) (ea 1%nat) (ea 2%nat)
  | _ => 0%R
  end%nat.

Lemma propagate_rows_uniform_2d : forall (Fa Fb Fc Ga Gb Gc Aa Ab Ac : mat) (x eg ea : nat -> R) (dt1 dt2 : R) (i : nat),
  (i < 7)%nat ->
  propT2 i dt1 dt2 Fa Fb Fc Ga Gb Gc Aa Ab Ac x eg ea = prop2 i dt1 Fa Fb Ga Gb Aa Ab x eg ea /\
  propT2' i dt1 dt2 Fa Fb Fc Ga Gb Gc Aa Ab Ac x eg ea =
    prop2 i dt2 Fb Fc Gb Gc Ab Ac (fun j => propT2 j dt1 dt2 Fa Fb Fc Ga Gb Gc Aa Ab Ac x eg ea) eg ea.
Proof.
  intros Fa Fb Fc Ga Gb Gc Aa Ab Ac x eg ea dt1 dt2 i Hi. rewrite !prop2_affine by exact Hi. split.
  - cases_lt lt7_cases i Hi; unfold propT2, rate2; unfold prop2d3_x0, prop2d3_x1, prop2d3_x2, prop2d3_x3, prop2d3_x4, prop2d3_x5, prop2d3_x6;
      repeat autounfold with prop2d3_db; lra.
  - cases_lt lt7_cases i Hi; unfold propT2', rate2; unfold prop2d3_z0, prop2d3_z1, prop2d3_z2, prop2d3_z3, prop2d3_z4, prop2d3_z5, prop2d3_z6;
      fold_rows propT2 0%nat; fold_rows propT2 1%nat; fold_rows propT2 2%nat; fold_rows propT2 3%nat;
      fold_rows propT2 4%nat; fold_rows propT2 5%nat; fold_rows propT2 6%nat;
      repeat autounfold with prop2d3_db; 
      first [lra | unfold propT2, prop2d3_x0, prop2d3_x1, prop2d3_x2, prop2d3_x3, prop2d3_x4, prop2d3_x5, prop2d3_x6; repeat autounfold with prop2d3_db; lra].
Qed.

(** * 12. The neglected terms are small on the flight envelope of the property

    |lat| <= 80 deg, 0 <= alt <= 20 km, each velocity component within +-300 m/s (so any speed <= 300 m/s).
    Units: rows DR in 1/s (per metre of position error) or m/s per rad; rows DV in 1/s^2 per metre, m/s^2 per rad;
    rows PHI in rad/s per metre.  For comparison the retained couplings are |V| <= 300 (DR/PHI), g ~ 9.8 (DV/PHI),
    2 Omega ~ 1.5e-4 (DV/DV), 2 g / a ~ 3e-6 (DV3/DR3), Omega / R ~ 1e-11 (PHI/DR), 1 / R ~ 1.6e-7 (PHI/DV). *)
Definition flight_domain (s : nstate) : Prop :=
  -80 <= s_lat s <= 80 /\ 0 <= s_alt s <= 20000 /\
  -300 <= s_VN s <= 300 /\ -300 <= s_VE s <= 300 /\ -300 <= s_VD s <= 300.

(* The larger constants: RATE_ * 300 = 0.0219 (Earth rate times one velocity component: N36 N37 N38 N56 N57 N58),
   RATE_ * 300 * sqrt 2 = 0.0309 (N47 = RATE_ (VN cos - VD sin)), 300 / 6.3e6 = 4.8e-5 (velocity over radius:
   N00 N02 N12). *)
Lemma neglected_small : forall s, flight_domain s ->
  Rabs (N00 s) <= 5 / 100000 /\
  Rabs (N02 s) <= 5 / 100000 /\
  Rabs (N10 s) <= 3 / 10000 /\
  Rabs (N11 s) <= 33 / 100000 /\
  Rabs (N12 s) <= 5 / 100000 /\
  Rabs (N30 s) <= 4 / 1000000000 /\
  Rabs (N36 s) <= 22 / 1000 /\
  Rabs (N37 s) <= 22 / 1000 /\
  Rabs (N38 s) <= 22 / 1000 /\
  Rabs (N40 s) <= 5 / 1000000000 /\
  Rabs (N47 s) <= 31 / 1000 /\
  Rabs (N50 s) <= 13 / 1000000000 /\
  Rabs (N56 s) <= 22 / 1000 /\
  Rabs (N57 s) <= 22 / 1000 /\
  Rabs (N58 s) <= 22 / 1000 /\
  Rabs (N60 s) <= 3 / 100000000000000 /\
  Rabs (N62 s) <= 8 / 1000000000000 /\
  Rabs (N70 s) <= 8 / 100000000000000 /\
  Rabs (N72 s) <= 8 / 1000000000000 /\
  Rabs (N80 s) <= 3 / 10000000000 /\
  Rabs (N82 s) <= 5 / 100000000000.
Proof.
  intros s (Hlat & Halt & HVN & HVE & HVD).
  unfold N00, N02, N10, N11, N12, N30, N36, N37, N38, N40, N47, N50, N56, N57, N58, N60, N62, N70, N72, N80, N82,
    rn, re, sphi, cphi, tphi.
  set (lat := s_lat s) in *; set (alt := s_alt s) in *; set (VN := s_VN s) in *; set (VE := s_VE s) in *;
    set (VD := s_VD s) in *; clearbody lat alt VN VE VD.
  unfold nav_Rn, nav_Re, R_meridian, R_transverse, dRn_dphi, dRe_dphi, W2l, W2, g0, dg0;
    unfold A_, E2_, RATE_, GE_, FG_, d2r.
  (* only the latitude is bisected: it enters through sin, cos, tan and both radii at once, while the altitude and
     the velocities enter each entry once or bilinearly, where plain interval evaluation is already sharp *)
  repeat split; interval with (i_bisect lat, i_depth 12).
Qed.
