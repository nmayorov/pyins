(* C09 / C10 — proofs about the scheduling models of the two filter loops
   (Model/FeedbackSched.v, Model/FeedforwardSched.v).

   A run of the feedforward loop is a sequence of `passes`: correct the pending
   epochs that lie before the next row, record the row, propagate to a later
   row.  `ff_loop_passes` reads that sequence off the loop, and every C10
   theorem is a property of such sequences.  Under t <= add_step t the feedback
   loop is the feedforward loop on the grid t0 :: incs of trajectory times, with
   Integrate written for Propagate (`fb_is_ff`); the C09 theorems are the C10
   theorems on that grid.  At the end: both loops with one guard weakened (they
   are refuted in Props/C10.v and Props/C09.v), and a run that shows that
   t <= add_step t is needed.

   `*_oracle` theorems: the float expression `time + time_step` is replaced
   by an arbitrary function add_step; since the loop time strictly increases
   from one iteration to the next this is a value chosen adversarially at
   each iteration.  The feedback loop needs the single hypothesis
   `forall t, t <= add_step t` (true of binary64 `t + step` for step >= 0);
   the feedforward loop needs NO hypothesis on add_step at all.  Theorems
   without the suffix are the instances add_step t = t + time_step (exact
   arithmetic; feedback: 0 <= time_step, feedforward: any time_step). *)
From Coq Require Import List QArith Bool Arith Lia Lqa Sorted Qminmax.
From PV Require Import Base.ListFacts Model.FeedbackSched Model.FeedforwardSched.
Import ListNotations.
Open Scope Q_scope.

Lemma Qltb_true : forall x y, Qltb x y = true <-> x < y.
Proof. intros x y. unfold Qltb. rewrite negb_true_iff. apply Qle_bool_false. Qed.

Lemma Qltb_false : forall x y, Qltb x y = false <-> y <= x.
Proof. intros x y. unfold Qltb. rewrite negb_false_iff. apply Qle_bool_iff. Qed.

Definition InQ (x : Q) (l : list Q) : Prop := exists y, In y l /\ y == x.

Lemma InQ_nil : forall x, ~ InQ x [].
Proof. intros x [y [[] _]]. Qed.

Lemma InQ_cons : forall x a l, InQ x (a :: l) <-> a == x \/ InQ x l.
Proof.
  intros x a l. split.
  - intros [y [[->|Hin] He]]; [now left|right; now exists y].
  - intros [He|[y [Hin He]]]; [exists a|exists y]; split; auto; now (left + right).
Qed.

Lemma InQ_app : forall x l1 l2, InQ x (l1 ++ l2) <-> InQ x l1 \/ InQ x l2.
Proof. intros x l1 l2. unfold InQ. setoid_rewrite in_app_iff. firstorder. Qed.

Lemma In_InQ : forall x l, In x l -> InQ x l.
Proof. intros x l H. exists x. split; [assumption|reflexivity]. Qed.

Lemma InQ_eq : forall x y l, x == y -> InQ x l -> InQ y l.
Proof. intros x y l He [z [Hin Hz]]. exists z. split; [assumption|lra]. Qed.

Lemma stamped_true : forall m s, stamped m s = true <-> InQ m s.
Proof.
  intros m s. unfold stamped, InQ. rewrite existsb_exists.
  split; intros [y [Hin He]]; exists y; (split; [assumption|]);
    [apply Qeq_bool_iff in He|apply Qeq_bool_iff]; lra.
Qed.

Lemma stamped_eq : forall x y s, x == y -> stamped x s = stamped y s.
Proof.
  intros x y s He. apply eq_true_iff_eq. rewrite !stamped_true.
  split; apply InQ_eq; lra.
Qed.

Notation sorted := (StronglySorted Qlt).

Lemma sorted_nil : sorted [].
Proof. constructor. Qed.

Lemma sorted_cons_iff : forall a l, sorted (a :: l) <-> sorted l /\ Forall (Qlt a) l.
Proof.
  intros a l. split.
  - apply StronglySorted_inv.
  - intros [H1 H2]. now constructor.
Qed.

Lemma sorted_app_r : forall l1 l2, sorted (l1 ++ l2) -> sorted l2.
Proof.
  induction l1 as [|a l1 IH]; intros l2 H; [assumption|].
  apply IH. now apply sorted_cons_iff in H.
Qed.

Lemma sorted_filter : forall f l, sorted l -> sorted (filter f l).
Proof.
  intros f l. induction 1 as [|a l Hs IH Hf]; cbn; [constructor|].
  destruct (f a); [|assumption].
  constructor; [assumption|]. exact (incl_Forall (incl_filter f l) Hf).
Qed.

Lemma sorted_nth_lt : forall l i j, sorted l ->
  (i < j)%nat -> (j < length l)%nat -> nth i l 0 < nth j l 0.
Proof.
  induction l as [|a l IH]; intros i j Hs Hij Hj; cbn in Hj; [lia|].
  apply sorted_cons_iff in Hs as [Hs Hf].
  destruct j as [|j]; [lia|]. destruct i as [|i]; cbn.
  - rewrite Forall_forall in Hf. apply Hf. apply nth_In. lia.
  - apply IH; [assumption|lia|lia].
Qed.

Lemma sorted_nth_le : forall l i j, sorted l ->
  (i <= j)%nat -> (j < length l)%nat -> nth i l 0 <= nth j l 0.
Proof.
  intros l i j Hs Hij Hj. destruct (Nat.eq_dec i j) as [->|Hne]; [lra|].
  apply Qlt_le_weak. apply sorted_nth_lt; [assumption|lia|lia].
Qed.

Lemma sorted_head_le : forall x m p, sorted (m :: p) -> x <= m -> Forall (fun y => x <= y) (m :: p).
Proof.
  intros x m p Hs Hx. apply sorted_cons_iff in Hs as [_ Hf].
  constructor; [assumption|]. revert Hf. apply Forall_impl. intros y Hy. lra.
Qed.

Lemma last_nth_len : forall (l : list Q) d, l <> [] -> last l d = nth (length l - 1) l 0.
Proof.
  induction l as [|a l IH]; intros d Hne; [congruence|].
  destruct l as [|b l]; [reflexivity|].
  change (last (a :: b :: l) d) with (last (b :: l) d).
  rewrite IH by discriminate. cbn [length].
  replace (S (S (length l)) - 1)%nat with (S (S (length l) - 1))%nat by lia.
  reflexivity.
Qed.

Lemma filter_filter {A} (f g : A -> bool) l :
  filter f (filter g l) = filter (fun x => g x && f x) l.
Proof.
  induction l as [|a l IH]; cbn; [reflexivity|].
  destruct (g a); cbn; [destruct (f a)|]; now rewrite IH.
Qed.

Lemma flat_map_if_filter {A} (f : A -> bool) l :
  flat_map (fun m => if f m then [m] else []) l = filter f l.
Proof.
  induction l as [|a l IH]; cbn; [reflexivity|].
  rewrite IH. now destruct (f a).
Qed.

Lemma insert_u_lower : forall a x l, a < x -> Forall (Qlt a) l -> Forall (Qlt a) (insert_u x l).
Proof.
  intros a x l Hax. induction 1 as [|y r Hy Hr IH]; cbn.
  - now repeat constructor.
  - destruct (Qltb x y); [now repeat constructor|].
    destruct (Qeq_bool x y); now constructor.
Qed.

Lemma insert_u_sorted : forall x l, sorted l -> sorted (insert_u x l).
Proof.
  intros x l. induction 1 as [|y r Hr IH Hf]; cbn.
  - now repeat constructor.
  - destruct (Qltb x y) eqn:E1.
    + apply Qltb_true in E1. constructor; [now constructor|].
      constructor; [assumption|]. revert Hf. apply Forall_impl. intros z Hz. lra.
    + destruct (Qeq_bool x y) eqn:E2; [now constructor|].
      apply Qltb_false in E1.
      assert (Hne : ~ x == y) by (rewrite <- Qeq_bool_iff; congruence).
      constructor; [assumption|]. apply insert_u_lower; [|assumption].
      destruct (Qlt_le_dec y x) as [H|H]; [assumption|]. exfalso. apply Hne. lra.
Qed.

Lemma insert_u_InQ : forall z x l, InQ z (insert_u x l) <-> x == z \/ InQ z l.
Proof.
  intros z x l. induction l as [|y r IH]; cbn.
  - rewrite InQ_cons. tauto.
  - destruct (Qltb x y) eqn:E1; [rewrite InQ_cons; tauto|].
    destruct (Qeq_bool x y) eqn:E2.
    + apply Qeq_bool_iff in E2. split; [tauto|].
      intros [He|H]; [|assumption]. apply InQ_cons. left. lra.
    + rewrite !InQ_cons, IH. tauto.
Qed.

Lemma sort_unique_sorted : forall l, sorted (sort_unique l).
Proof.
  induction l as [|a l IH]; cbn; [constructor|]. now apply insert_u_sorted.
Qed.

Lemma sort_unique_InQ : forall z l, InQ z (sort_unique l) <-> InQ z l.
Proof.
  intros z l. induction l as [|a l IH]; cbn; [tauto|].
  rewrite insert_u_InQ, InQ_cons, IH. tauto.
Qed.

Lemma merge_times_sorted : forall sensors, sorted (merge_times sensors).
Proof. intro. apply sort_unique_sorted. Qed.

Lemma merge_times_InQ : forall z sensors,
  InQ z (merge_times sensors) <-> exists s, In s sensors /\ InQ z s.
Proof.
  intros z sensors. unfold merge_times. rewrite sort_unique_InQ. split.
  - intros [y [Hin He]]. apply in_concat in Hin as [s [Hs Hy]].
    exists s. split; [assumption|]. now exists y.
  - intros [s [Hs [y [Hy He]]]]. exists y. split; [|assumption].
    apply in_concat. now exists s.
Qed.

Lemma clip_sorted : forall lo hi l, sorted l -> sorted (clip lo hi l).
Proof. intros. now apply sorted_filter. Qed.

Lemma clip_In : forall lo hi l y, In y (clip lo hi l) <-> In y l /\ lo <= y /\ y <= hi.
Proof.
  intros lo hi l y. unfold clip. rewrite filter_In, andb_true_iff, !Qle_bool_iff. tauto.
Qed.

(* the epochs that are actually processed: lo <= m < hi *)
Definition in_range (lo hi : Q) (m : Q) : bool := Qle_bool lo m && Qltb m hi.

Lemma in_range_true : forall lo hi m, in_range lo hi m = true <-> lo <= m /\ m < hi.
Proof.
  intros. unfold in_range. now rewrite andb_true_iff, Qle_bool_iff, Qltb_true.
Qed.

Lemma in_range_eq : forall lo hi a b, a == b -> in_range lo hi a = in_range lo hi b.
Proof. intros lo hi a b He. apply eq_true_iff_eq. rewrite !in_range_true. lra. Qed.

Lemma InQ_filter : forall f l x, (forall a b, a == b -> f a = f b) ->
  InQ x (filter f l) <-> InQ x l /\ f x = true.
Proof.
  intros f l x Hf. unfold InQ. setoid_rewrite filter_In. split.
  - intros (y & (Hin & Hy) & He). split; [now exists y|]. now rewrite <- (Hf y x He).
  - intros ((y & Hin & He) & Hx). exists y. rewrite (Hf y x He). tauto.
Qed.

Lemma filter_lt_clip : forall lo hi l,
  filter (fun m => Qltb m hi) (clip lo hi l) = filter (in_range lo hi) l.
Proof.
  intros lo hi l. unfold clip. rewrite filter_filter. apply filter_ext. intro m.
  unfold in_range. destruct (Qle_bool lo m); cbn; [|reflexivity].
  destruct (Qltb m hi) eqn:E; [|now rewrite andb_false_r].
  apply Qltb_true in E. rewrite andb_true_r. apply Qle_bool_iff. lra.
Qed.

Lemma due_nil : forall hi p,
  Forall (fun m => hi <= m) p -> filter (fun m => Qltb m hi) p = [].
Proof.
  intros hi p H. apply filter_all_false. intros x Hx. apply Qltb_false.
  revert x Hx. now apply Forall_forall.
Qed.

Lemma filter_lt_split : forall pre p' bound hi,
  Forall (fun m => m < bound) pre -> bound <= hi ->
  filter (fun m => Qltb m hi) (pre ++ p') = pre ++ filter (fun m => Qltb m hi) p'.
Proof.
  intros pre p' bound hi Hpre Hb. rewrite filter_app. f_equal.
  apply filter_all_true. intros x Hx. rewrite Forall_forall in Hpre.
  specialize (Hpre x Hx). apply Qltb_true. lra.
Qed.

(* `b` is not after the stamp under the cursor (the sentinel +inf if none is left) *)
Notation head_ge b p := (match p with [] => True | m :: _ => b <= m end).

Lemma min_inf_le : forall x p, min_inf x (head_inf p) <= x.
Proof.
  intros x [|m p]; cbn; [lra|].
  destruct (Qltb m x) eqn:E; [apply Qltb_true in E|]; lra.
Qed.

Lemma min_inf_head : forall x p, head_ge (min_inf x (head_inf p)) p.
Proof.
  intros x [|m p]; cbn; [exact I|].
  destruct (Qltb m x) eqn:E; [lra|now apply Qltb_false in E].
Qed.

Lemma min_inf_glb : forall lo x p, lo <= x -> head_ge lo p -> lo <= min_inf x (head_inf p).
Proof. intros lo x [|m p] Hx Hp; cbn; [assumption|]. now destruct (Qltb m x). Qed.

Lemma ss_le_len : forall a x, (searchsorted_right a x <= length a)%nat.
Proof.
  induction a as [|y r IH]; intro x; cbn; [lia|].
  destruct (Qle_bool y x); [specialize (IH x)|]; lia.
Qed.

Lemma ss_prefix : forall a x i, (i < searchsorted_right a x)%nat -> nth i a 0 <= x.
Proof.
  induction a as [|y r IH]; intros x i Hi; cbn in Hi; [lia|].
  destruct (Qle_bool y x) eqn:E; [|lia].
  destruct i as [|i]; cbn; [now apply Qle_bool_iff|]. apply IH. lia.
Qed.

Lemma ss_next : forall a x, (searchsorted_right a x < length a)%nat ->
  x < nth (searchsorted_right a x) a 0.
Proof.
  induction a as [|y r IH]; intros x H; cbn in *; [lia|].
  destruct (Qle_bool y x) eqn:E.
  - apply IH. lia.
  - now apply Qle_bool_false.
Qed.

Lemma ss_lower : forall a x i, sorted a -> (i < length a)%nat -> nth i a 0 <= x ->
  (i < searchsorted_right a x)%nat.
Proof.
  intros a x i Hs Hi Hle.
  destruct (Nat.lt_ge_cases i (searchsorted_right a x)) as [H|H]; [assumption|exfalso].
  assert (Hk : (searchsorted_right a x < length a)%nat) by lia.
  pose proof (ss_next a x Hk) as Hn.
  pose proof (sorted_nth_le a _ i Hs H Hi) as Hm. lra.
Qed.

Lemma batch_last : forall incs a b d, (a < b)%nat -> (b <= length incs)%nat ->
  last (batch incs a b) d = nth (b - 1) incs 0.
Proof.
  intros incs a b d Hab Hb. unfold batch. rewrite (firstn_skipn_seq 0) by lia.
  replace (b - a)%nat with (S (b - a - 1)) by lia.
  rewrite seq_S, map_app. cbn [map]. rewrite last_last. f_equal. lia.
Qed.

(* the rows selected by the batches of a trace, for any table `data` indexed
   like the increments *)
Lemma chunks_by_index {A : Type} (d : A) (data : list A) : forall tr,
  (forall a b, In (Integrate a b) tr -> (a <= b)%nat /\ (b <= length data)%nat) ->
  flat_map (fun e => match e with
                     | Integrate a b => firstn (b - a) (skipn a data)
                     | _ => [] end) tr =
  map (fun i => nth i data d) (integrated tr).
Proof.
  induction tr as [|e tr IH]; intro H; [reflexivity|].
  unfold integrated in *. cbn [flat_map].
  rewrite map_app, IH by (intros a b Hab; apply H; now right). f_equal.
  destruct e; try reflexivity.
  destruct (H a b ltac:(now left)). apply firstn_skipn_seq. lia.
Qed.

Definition is_innov (e : event) : bool :=
  match e with Innov _ _ _ => true | _ => false end.

Definition all_innov (l : list event) : Prop := Forall (fun e => is_innov e = true) l.

Lemma all_innov_app : forall l1 l2, all_innov l1 -> all_innov l2 -> all_innov (l1 ++ l2).
Proof. intros. apply Forall_app. now split. Qed.

Section AllInnov.
  Variable l : list event.
  Hypothesis H : all_innov l.

  Lemma all_innov_In : forall e, In e l -> is_innov e = true.
  Proof. exact (proj1 (Forall_forall _ l) H). Qed.

  Lemma all_innov_completed : completed l = true.
  Proof. apply forallb_forall. intros e He. apply all_innov_In in He. now destruct e. Qed.

  Lemma all_innov_flat_map : forall (B : Type) (f : event -> list B),
    (forall k m t, f (Innov k m t) = []) -> flat_map f l = [].
  Proof.
    intros B f Hf. destruct (flat_map f l) as [|b r] eqn:E; [reflexivity|exfalso].
    assert (Hb : In b (flat_map f l)) by (rewrite E; now left).
    apply in_flat_map in Hb as (e & He & Hb). apply all_innov_In in He.
    destruct e; try discriminate He. now rewrite Hf in Hb.
  Qed.

  Lemma all_innov_propagations : propagations l = [].
  Proof. apply all_innov_flat_map. reflexivity. Qed.

  Lemma all_innov_batches : forall incs,
    flat_map (fun e => match e with Integrate a b => batch incs a b | _ => [] end) l = [].
  Proof. intro. apply all_innov_flat_map. reflexivity. Qed.

  Lemma all_innov_no_propagate : forall a b, ~ In (Propagate a b) l.
  Proof. intros a b Hin. now apply all_innov_In in Hin. Qed.
End AllInnov.

Lemma propagations_app : forall l1 l2,
  propagations (l1 ++ l2) = propagations l1 ++ propagations l2.
Proof. intros. apply flat_map_app. Qed.

Lemma completed_app : forall l1 l2, completed (l1 ++ l2) = completed l1 && completed l2.
Proof. intros. apply forallb_app. Qed.

(* what one pass of the outer loop (innovation rows, the recorded time, the
   step) adds to the observables of the rest of the trace *)
Section Pass.
  Variables (ev tr : list event) (t : Q) (i j : nat).
  Hypothesis Hev : all_innov ev.
  Local Notation pass := (ev ++ Record t :: Propagate i j :: tr).

  Lemma pass_completed : completed pass = completed tr.
  Proof. now rewrite completed_app, all_innov_completed. Qed.

  Lemma pass_records : record_times pass = t :: record_times tr.
  Proof.
    unfold record_times. now rewrite flat_map_app, (all_innov_flat_map ev Hev).
  Qed.

  Lemma pass_propagations : propagations pass = (i, j) :: propagations tr.
  Proof. now rewrite propagations_app, all_innov_propagations. Qed.
End Pass.

(* what sensor k contributes at epoch m *)
Definition sel (sensors : list (list Q)) (k : nat) (m : Q) : list Q :=
  match nth_error sensors k with
  | Some s => if stamped m s then [m] else []
  | None => []
  end.

(* the innovation rows of sensor k, each shown as `g epoch at_time`;
   innov_epochs k is innov_proj (fun m _ => m) k, innov_rows k is
   innov_proj (fun _ t => t) k, and g = pair keeps the whole event *)
Definition innov_proj {B : Type} (g : Q -> Q -> B) (k : nat) (tr : list event) : list B :=
  flat_map (fun e => match e with
                     | Innov k' m t => if Nat.eqb k k' then [g m t] else []
                     | _ => [] end) tr.

Lemma innov_proj_app : forall (B : Type) (g : Q -> Q -> B) k l1 l2,
  innov_proj g k (l1 ++ l2) = innov_proj g k l1 ++ innov_proj g k l2.
Proof. intros. apply flat_map_app. Qed.

Lemma innov_proj_In : forall (B : Type) (g : Q -> Q -> B) k m t tr,
  In (Innov k m t) tr -> In (g m t) (innov_proj g k tr).
Proof.
  intros B g k m t tr H. apply in_flat_map. exists (Innov k m t).
  split; [assumption|]. rewrite Nat.eqb_refl. now left.
Qed.

Section SensorLoop.
  Variable m t : Q.
  Let f := fun ks : nat * list Q =>
             if stamped m (snd ks) then [Innov (fst ks) m t] else [].

  Lemma sensor_loop_all_innov : forall ss a,
    all_innov (flat_map f (combine (seq a (length ss)) ss)).
  Proof.
    induction ss as [|s r IH]; intro a; cbn; [constructor|].
    apply all_innov_app; [|apply IH].
    unfold f; cbn [fst snd]. destruct (stamped m s); now repeat constructor.
  Qed.

  (* the sensors are numbered from a: sensor k is met once, at position k - a *)
  Lemma sensor_loop_proj : forall (B : Type) (g : Q -> Q -> B) k ss a,
    innov_proj g k (flat_map f (combine (seq a (length ss)) ss)) =
    map (fun x => g x t) (if (a <=? k)%nat then sel ss (k - a) m else []).
  Proof.
    intros B g k. induction ss as [|s r IH]; intro a.
    - unfold sel. now destruct (k - a)%nat, (a <=? k)%nat.
    - cbn [length seq combine flat_map]. rewrite innov_proj_app, IH.
      unfold f at 1, sel; cbn [fst snd].
      destruct (Nat.leb_spec a k), (Nat.leb_spec (S a) k); try lia.
      + replace (k - a)%nat with (S (k - S a)) by lia. cbn [nth_error].
        destruct (stamped m s); cbn; [|reflexivity].
        destruct (Nat.eqb_spec k a); [lia|reflexivity].
      + replace k with a by lia. rewrite Nat.sub_diag. cbn [nth_error].
        destruct (stamped m s); cbn; [rewrite Nat.eqb_refl|]; reflexivity.
      + destruct (stamped m s); cbn; [|reflexivity].
        destruct (Nat.eqb_spec k a); [lia|reflexivity].
  Qed.
End SensorLoop.

Lemma epoch_events_proj : forall (B : Type) (g : Q -> Q -> B) sensors m t k,
  innov_proj g k (epoch_events sensors m t) = map (fun x => g x t) (sel sensors k m).
Proof.
  intros. unfold epoch_events. rewrite sensor_loop_proj. cbn. now rewrite Nat.sub_0_r.
Qed.

(* the inner while: the processed epochs are the longest prefix of the pending
   stamps that lies strictly before `bound` *)
Lemma inner_spec : forall sensors t bound pending ev p',
  inner sensors t bound pending = (ev, p') ->
  exists pre,
    pending = pre ++ p' /\
    ev = flat_map (fun m => epoch_events sensors m t) pre /\
    Forall (fun m => m < bound) pre /\ head_ge bound p'.
Proof.
  intros sensors t bound. induction pending as [|m rest IH]; intros ev p' H; cbn in H.
  - inversion H; subst. exists []. repeat split; constructor.
  - destruct (Qltb m bound) eqn:E.
    + destruct (inner sensors t bound rest) as [ev0 p0] eqn:E0.
      inversion H; subst. destruct (IH _ _ eq_refl) as (pre & H1 & H2 & H3 & H4).
      exists (m :: pre). subst rest ev0. repeat split; try assumption.
      constructor; [now apply Qltb_true|assumption].
    + inversion H; subst. exists []. repeat split; [constructor|].
      now apply Qltb_false.
Qed.

Lemma events_all_innov : forall sensors t pre,
  all_innov (flat_map (fun m => epoch_events sensors m t) pre).
Proof.
  intros sensors t. induction pre as [|m pre IH]; cbn; [constructor|].
  apply all_innov_app; [apply sensor_loop_all_innov|assumption].
Qed.

Lemma events_proj : forall (B : Type) (g : Q -> Q -> B) sensors t k pre,
  innov_proj g k (flat_map (fun m => epoch_events sensors m t) pre) =
  map (fun x => g x t) (flat_map (sel sensors k) pre).
Proof.
  intros B g sensors t k. induction pre as [|m pre IH]; [reflexivity|].
  cbn [flat_map]. now rewrite innov_proj_app, epoch_events_proj, IH, map_app.
Qed.

Lemma events_epochs : forall sensors t k pre,
  innov_epochs k (flat_map (fun m => epoch_events sensors m t) pre) =
  flat_map (sel sensors k) pre.
Proof.
  intros. rewrite <- (map_id (flat_map (sel sensors k) pre)).
  apply (events_proj _ (fun m _ => m)).
Qed.

Lemma events_rows : forall sensors t k pre,
  innov_rows k (flat_map (fun m => epoch_events sensors m t) pre) =
  map (fun _ => t) (flat_map (sel sensors k) pre).
Proof. intros. apply (events_proj _ (fun _ t => t)). Qed.

(* an Innov event is read back from its (epoch, at_time) projection *)
Lemma events_In : forall sensors t pre k m' t',
  In (Innov k m' t') (flat_map (fun m => epoch_events sensors m t) pre) ->
  In m' pre /\ t' = t /\ exists s, nth_error sensors k = Some s /\ stamped m' s = true.
Proof.
  intros sensors t pre k m' t' Hin.
  apply (innov_proj_In _ pair) in Hin. rewrite events_proj in Hin.
  apply in_map_iff in Hin as (x & E & Hx). injection E as -> <-.
  apply in_flat_map in Hx as (m & Hm & Hx). unfold sel in Hx.
  destruct (nth_error sensors k) as [s|]; [|destruct Hx].
  destruct (stamped m s) eqn:Es; [|destruct Hx]. destruct Hx as [->|[]]. eauto.
Qed.

Lemma sel_filter : forall sensors k s l, nth_error sensors k = Some s ->
  flat_map (sel sensors k) l = filter (fun m => stamped m s) l.
Proof.
  intros sensors k s l H. unfold sel. rewrite H. apply flat_map_if_filter.
Qed.

Lemma sel_none : forall sensors k l, nth_error sensors k = None ->
  flat_map (sel sensors k) l = [].
Proof.
  intros sensors k l H. unfold sel. rewrite H. induction l; cbn; auto.
Qed.

Lemma InQ_lower : forall a l x, Forall (Qlt a) l -> InQ x l -> a < x.
Proof.
  intros a l x Hf (y & Hy & He). apply (proj1 (Forall_forall _ _) Hf) in Hy. lra.
Qed.

Lemma sorted_same_elements : forall l1 l2, sorted l1 -> sorted l2 ->
  (forall x, InQ x l1 <-> InQ x l2) -> Forall2 Qeq l1 l2.
Proof.
  assert (Tail : forall a b l1 l2, Forall (Qlt a) l1 -> a == b ->
            (forall x, InQ x (a :: l1) -> InQ x (b :: l2)) ->
            forall x, InQ x l1 -> InQ x l2).
  { intros a b l1 l2 F Hab H x Hx. pose proof (InQ_lower a l1 x F Hx).
    destruct (proj1 (InQ_cons x b l2)) as [He|]; [apply H, InQ_cons; now right|lra|assumption]. }
  induction l1 as [|a l1 IH]; intros [|b l2] H1 H2 H; [constructor| | |].
  1,2: exfalso; eapply InQ_nil; apply H, InQ_cons; left; reflexivity.
  apply sorted_cons_iff in H1 as [H1 F1]. apply sorted_cons_iff in H2 as [H2 F2].
  assert (Hab : a == b).
  { destruct (proj1 (InQ_cons a b l2)) as [He|Ha]; [apply H, InQ_cons; now left|lra|].
    destruct (proj1 (InQ_cons b a l1)) as [He|Hb]; [apply H, InQ_cons; now left|lra|].
    apply (InQ_lower b) in Ha; [|assumption]. apply (InQ_lower a) in Hb; [lra|assumption]. }
  constructor; [assumption|]. apply IH; try assumption.
  intro x. split; [apply (Tail a b)|apply (Tail b a)]; try assumption; try (intro; apply H); lra.
Qed.

(* the epochs corrected for sensor k, out of the merged list cut to [lo, hi) *)
Lemma sensor_epochs_spec : forall sensors k s lo hi,
  nth_error sensors k = Some s ->
  let l := flat_map (sel sensors k) (filter (in_range lo hi) (merge_times sensors)) in
  sorted l /\ (forall x, InQ x l <-> InQ x s /\ lo <= x /\ x < hi) /\
  Forall2 Qeq l (sort_unique (filter (in_range lo hi) s)).
Proof.
  intros sensors k s lo hi Hk l. subst l. rewrite (sel_filter _ _ s) by assumption.
  assert (Hs : sorted (filter (fun m => stamped m s)
                         (filter (in_range lo hi) (merge_times sensors))))
    by apply sorted_filter, sorted_filter, merge_times_sorted.
  assert (Hx : forall x, InQ x (filter (fun m => stamped m s)
                                  (filter (in_range lo hi) (merge_times sensors)))
                         <-> InQ x s /\ lo <= x /\ x < hi).
  { intro x. rewrite !InQ_filter by (intros; auto using stamped_eq, in_range_eq).
    rewrite merge_times_InQ, stamped_true, in_range_true.
    split; [tauto|]. intros [Hxs Hr]. repeat split; try tauto.
    exists s. eauto using nth_error_In. }
  split; [assumption|]. split; [assumption|].
  apply sorted_same_elements; [assumption|apply sort_unique_sorted|].
  intro x. rewrite Hx, sort_unique_InQ, InQ_filter, in_range_true by apply in_range_eq. tauto.
Qed.

(* consecutive propagation steps: each one starts where the previous ended *)
Fixpoint chain (a : nat) (l : list (nat * nat)) (b : nat) : Prop :=
  match l with
  | [] => a = b
  | (i, j) :: r => i = a /\ chain j r b
  end.

Lemma chain_seq : forall l a b, chain a l b -> (forall i j, In (i, j) l -> (i < j)%nat) ->
  (a <= b)%nat /\ flat_map (fun s => seq (fst s) (snd s - fst s)) l = seq a (b - a).
Proof.
  induction l as [|[i j] r IH]; intros a b Hc Hlt; cbn [chain] in Hc.
  - subst b. now rewrite Nat.sub_diag.
  - destruct Hc as [-> Hc]. pose proof (Hlt a j ltac:(now left)).
    destruct (IH j b Hc) as [Hjb E]; [intros; apply Hlt; now right|].
    split; [lia|]. cbn [flat_map fst snd]. rewrite E.
    replace (b - a)%nat with ((j - a) + (b - j))%nat by lia.
    rewrite seq_app. do 2 f_equal. lia.
Qed.

(* `adjacent P l e`: P holds of every element of l and its successor, the
   successor of the last element being e *)
Fixpoint adjacent (P : Q -> Q -> Prop) (l : list Q) (e : Q) : Prop :=
  match l with
  | [] => True
  | a :: r => P a (hd e r) /\ adjacent P r e
  end.

Lemma adjacent_impl : forall (P P' : Q -> Q -> Prop) l e,
  (forall a b, P a b -> P' a b) -> adjacent P l e -> adjacent P' l e.
Proof. intros P P' l e H. induction l; cbn; [trivial|]. intros [? ?]. split; auto. Qed.

(* the starts of chained steps, read through f, are adjacent: the successor of the
   start f i of a step (i, j) is f j, the start of the next step or the end f b.
   The relation names i and j because P speaks of indices, which f need not determine *)
Lemma chain_adjacent : forall (f : nat -> Q) (P : nat -> nat -> Prop) l a b,
  chain a l b -> (forall i j, In (i, j) l -> P i j) ->
  adjacent (fun x y => exists i j, x = f i /\ y = f j /\ P i j)
           (map (fun p => f (fst p)) l) (f b).
Proof.
  intros f P l. induction l as [|[i j] r IH]; intros a b Hc HP; [exact I|].
  cbn [chain] in Hc. destruct Hc as [-> Hc].
  cbn [map fst adjacent]. split.
  - exists a, j. split; [reflexivity|]. split; [|apply HP; now left].
    destruct r as [|[i' j'] r']; cbn [map hd fst chain] in *; [now subst|].
    now destruct Hc as [-> _].
  - apply (IH j b Hc). intros i' j' H. apply HP. now right.
Qed.

Lemma epochs_rows_related : forall (R : Q -> Q -> Prop) k tr,
  (forall m t, In (Innov k m t) tr -> R m t) ->
  Forall2 R (innov_epochs k tr) (innov_rows k tr).
Proof.
  intros R k tr. induction tr as [|e tr IH]; intro H; [constructor|].
  assert (IH' : Forall2 R (innov_epochs k tr) (innov_rows k tr))
    by (apply IH; intros m t Hin; apply H; now right).
  destruct e; try exact IH'. cbn.
  destruct (Nat.eqb_spec k sensor) as [->|Hne]; [|exact IH'].
  constructor; [|exact IH']. apply H. now left.
Qed.

Section Feedforward.
  Variable add_step : Q -> Q.
  Variable times : list Q.
  Variable sensors : list (list Q).
  Hypothesis Hsorted : sorted times.

  Local Notation len := (length times).
  Local Notation T i := (nth i times 0).
  Local Notation due := (filter (fun m => Qltb m (T (len - 1)))).

  Lemma tt_lt : forall i j, (i < j)%nat -> (j < len)%nat -> nth i times 0 < nth j times 0.
  Proof. intros. now apply sorted_nth_lt. Qed.

  Lemma tt_le : forall i j, (i <= j)%nat -> (j < len)%nat -> nth i times 0 <= nth j times 0.
  Proof. intros. now apply sorted_nth_le. Qed.

  (* the row cursor may pass `time + time_step` only by advancing exactly one row *)
  Lemma next_index_bounds : forall index p',
    (index + 1 < len)%nat -> head_ge (T (index + 1)) p' ->
    let next_time := min_inf (add_step (T index)) (head_inf p') in
    let next_index := Nat.max (searchsorted_right times next_time - 1) (index + 1) in
    (index < next_index < len)%nat /\ head_ge (T next_index) p' /\
    (next_index = (index + 1)%nat \/ T next_index <= add_step (T index)).
  Proof.
    intros index p' Hidx Hp next_time next_index.
    pose proof (min_inf_le (add_step (T index)) p') as Hup.
    pose proof (min_inf_head (add_step (T index)) p') as Hupm.
    pose proof (ss_le_len times next_time) as Hlen.
    fold next_time in Hup, Hupm. subst next_index.
    destruct (Nat.max_spec (searchsorted_right times next_time - 1) (index + 1))
      as [[Hlt ->]|[Hge ->]].
    - split; [lia|]. split; [exact Hp|now left].
    - pose proof (ss_prefix times next_time (searchsorted_right times next_time - 1)
                    ltac:(lia)) as Hpre.
      split; [lia|]. split; [|right; lra].
      destruct p' as [|m p]; [exact I|]. lra.
  Qed.

  Lemma ff_loop_done : forall fuel index pending, ~ (index + 1 < len)%nat ->
    ff_loop fuel add_step times sensors index pending = [].
  Proof.
    intros fuel index pending H.
    assert (E : Nat.ltb (index + 1) len = false) by (apply Nat.ltb_ge; lia).
    destruct fuel; cbn [ff_loop]; now rewrite E.
  Qed.

  Lemma ff_loop_unfold : forall fuel index pending, (index + 1 < len)%nat ->
    ff_loop (S fuel) add_step times sensors index pending =
    let (ev, pending') := inner sensors (T index) (T (index + 1)) pending in
    let next_time := min_inf (add_step (T index)) (head_inf pending') in
    let next_index := Nat.max (searchsorted_right times next_time - 1) (index + 1) in
    match nth_error times next_index with
    | None => ev ++ [Record (T index); Crash]
    | Some _ =>
        ev ++ Record (T index) :: Propagate index next_index
           :: ff_loop fuel add_step times sensors next_index pending'
    end.
  Proof.
    intros fuel index pending H. cbn [ff_loop].
    assert (E : Nat.ltb (index + 1) len = true) by (apply Nat.ltb_lt; lia).
    rewrite E.
    rewrite (nth_error_nth' times 0 (n:=index)) by lia.
    rewrite (nth_error_nth' times 0 (n:=(index + 1)%nat)) by lia.
    reflexivity.
  Qed.

  (* `passes i p tr`: tr is a complete run of the outer loop from row i with the
     stamps p, none before times[i], pending.  One pass corrects the pending
     epochs `pre` that lie in [times[i], times[i+1]), records row i and
     propagates to a later row j, which is i + 1 or not after add_step times[i] *)
  Inductive passes : nat -> list Q -> list event -> Prop :=
  | passes_done : forall p,
      Forall (fun m => T (len - 1) <= m) p -> passes (len - 1) p []
  | passes_step : forall i j pre p tr,
      (i < j < len)%nat -> (j = (i + 1)%nat \/ T j <= add_step (T i)) ->
      Forall (fun m => T i <= m) pre -> Forall (fun m => m < T (i + 1)) pre ->
      Forall (fun m => T j <= m) p -> passes j p tr ->
      passes i (pre ++ p)
             (flat_map (fun m => epoch_events sensors m (T i)) pre
                ++ Record (T i) :: Propagate i j :: tr).

  Lemma ff_loop_passes : forall fuel index pending,
    (len - 1 - index <= fuel)%nat -> (index < len)%nat ->
    sorted pending -> Forall (fun m => T index <= m) pending ->
    passes index pending (ff_loop fuel add_step times sensors index pending).
  Proof.
    (* on the last row the loop has stopped, whatever the fuel; before it the
       bound on the fuel leaves one unit for this pass *)
    induction fuel as [|fuel IH]; intros index pending Hfuel Hidx Hsp Hlow;
      (destruct (Nat.lt_ge_cases (index + 1) len) as [Hlt|Hge];
       [|rewrite ff_loop_done by lia; assert (index = len - 1)%nat as -> by lia;
         now constructor]); [lia|].
    rewrite (ff_loop_unfold fuel index pending Hlt).
    destruct (inner sensors (T index) (T (index + 1)) pending) as [ev p'] eqn:Einner.
    apply inner_spec in Einner as (pre & -> & -> & Hpre & Hhead).
    destruct (next_index_bounds index p' Hlt Hhead) as (Hn' & Hhead' & Hbound).
    cbv zeta. set (nidx := Nat.max _ (index + 1)) in *.
    rewrite (nth_error_nth' times 0 (n:=nidx)) by lia.
    apply Forall_app in Hlow as [Hlow _]. apply sorted_app_r in Hsp.
    assert (Hlow' : Forall (fun m => T nidx <= m) p')
      by (destruct p' as [|m p]; [constructor|now apply sorted_head_le]).
    apply passes_step; try assumption. apply IH; (lia || assumption).
  Qed.

  Lemma passes_completed : forall i p tr, passes i p tr -> completed tr = true.
  Proof.
    induction 1 as [|i j pre p tr _ _ _ _ _ _ IH]; [reflexivity|].
    now rewrite pass_completed by apply events_all_innov.
  Qed.

  (* every epoch due before the last row is corrected, in order *)
  Lemma passes_epochs : forall k i p tr, passes i p tr ->
    innov_epochs k tr = flat_map (sel sensors k) (due p).
  Proof.
    intro k. induction 1 as [p Hp|i j pre p tr Hij _ _ Hpre _ _ IH].
    - now rewrite (due_nil _ _ Hp).
    - rewrite (filter_lt_split pre p (T (i + 1))) by (assumption || apply tt_le; lia).
      rewrite flat_map_app, <- IH, <- (events_epochs sensors (T i)).
      unfold innov_epochs. now rewrite flat_map_app.
  Qed.

  (* ... each at the row whose interval [times[i'], times[i'+1]) contains it *)
  Lemma passes_Innov : forall k m t i p tr, passes i p tr -> In (Innov k m t) tr ->
    (exists s, nth_error sensors k = Some s /\ stamped m s = true) /\
    exists i', (i <= i')%nat /\ (i' + 1 < len)%nat /\
               t = T i' /\ T i' <= m /\ m < T (i' + 1).
  Proof.
    intros k m t. induction 1 as [|i j pre p tr Hij _ Hlo Hhi _ _ IH]; intro Hin;
      [destruct Hin|].
    apply in_app_or in Hin as [Hin|[Hin|[Hin|Hin]]]; try discriminate Hin.
    - apply events_In in Hin as (Hm & -> & Hs). split; [assumption|]. exists i.
      rewrite Forall_forall in Hlo, Hhi. repeat split; auto; lia.
    - destruct (IH Hin) as (Hs & i' & Hi' & Hrest). split; [assumption|].
      exists i'. split; [lia|assumption].
  Qed.

  Lemma passes_steps : forall i p tr, passes i p tr ->
    chain i (propagations tr) (len - 1) /\
    (forall a b, In (a, b) (propagations tr) ->
       (i <= a < b)%nat /\ (b < len)%nat /\ (b = (a + 1)%nat \/ T b <= add_step (T a))) /\
    record_times tr = map (fun s => T (fst s)) (propagations tr).
  Proof.
    induction 1 as [|i j pre p tr Hij Hb _ _ _ _ (IHc & IHs & IHr)];
      [split; [reflexivity|split; [intros ? ? []|reflexivity]]|].
    rewrite pass_propagations, pass_records by apply events_all_innov.
    cbn [chain map fst]. split; [now split|]. split; [|now rewrite IHr].
    intros a b [E|Hin]; [injection E as <- <-; repeat split; (lia || assumption)|].
    apply IHs in Hin. repeat split; (lia || tauto).
  Qed.

  Lemma passes_records : forall i p tr, passes i p tr ->
    sorted (record_times tr) /\
    (forall t, In t (record_times tr) ->
       exists i', (i <= i')%nat /\ (i' + 1 < len)%nat /\ t = T i') /\
    ((i + 1 < len)%nat -> exists r, record_times tr = T i :: r).
  Proof.
    induction 1 as [|i j pre p tr Hij _ _ _ _ _ (IHs & IHm & _)].
    - split; [constructor|]. split; [intros t []|lia].
    - rewrite pass_records by apply events_all_innov. split; [|split; [|eauto]].
      + constructor; [assumption|]. apply Forall_forall. intros t Ht.
        apply IHm in Ht as (i' & ? & ? & ->). apply tt_lt; lia.
      + intros t [<-|Ht]; [exists i|apply IHm in Ht as (i' & ? & ? & ->); exists i'];
          repeat split; lia.
  Qed.
End Feedforward.

Arguments passes_completed {add_step times sensors i p tr} _.
Arguments passes_epochs {add_step times sensors} Hsorted k {i p tr} _.
Arguments passes_Innov {add_step times sensors k m t i p tr} _ _.
Arguments passes_steps {add_step times sensors i p tr} _.
Arguments passes_records {add_step times sensors} Hsorted {i p tr} _.

Section FeedforwardTop.
  Variable add_step : Q -> Q.
  Variable times : list Q.
  Variable sensors : list (list Q).
  Variable fuel : nat.
  Hypothesis Hsorted : sorted times.
  Hypothesis Hlen : (2 <= length times)%nat.
  Hypothesis Hfuel : (length times - 1 <= fuel)%nat.

  Local Notation len := (length times).
  Local Notation tstart := (nth 0 times 0).
  Local Notation tend := (nth (len - 1) times 0).
  Local Notation tr := (ff_run fuel add_step times sensors).

  Lemma ff_run_passes :
    passes add_step times sensors 0 (clip tstart tend (merge_times sensors)) tr.
  Proof.
    (* `times` is folded back after the case analysis: the section notations and
       `passes` mention it as a variable *)
    unfold ff_run. destruct times as [|a l] eqn:E; [cbn in Hlen; lia|]. rewrite <- E in *.
    rewrite (last_nth_len times a) by (rewrite E; discriminate).
    replace a with tstart by (rewrite E; reflexivity).
    apply ff_loop_passes; try assumption; try lia.
    - apply clip_sorted, merge_times_sorted.
    - apply Forall_forall. intros m Hm. apply clip_In in Hm. tauto.
  Qed.

  Theorem ff_terminates_oracle : completed tr = true.
  Proof. exact (passes_completed ff_run_passes). Qed.

  Theorem ff_records_oracle :
    sorted (record_times tr) /\
    (forall t, In t (record_times tr) -> In t times /\ t < tend) /\
    (exists r, record_times tr = tstart :: r) /\
    record_times tr = map (fun p => nth (fst p) times 0) (propagations tr).
  Proof.
    destruct (passes_records Hsorted ff_run_passes) as (Hs & Hm & Hh).
    split; [assumption|].
    split; [|split; [apply Hh; lia|apply (passes_steps ff_run_passes)]].
    intros t H. apply Hm in H as (i & _ & Hi & ->).
    split; [apply nth_In; lia|apply (tt_lt times Hsorted); lia].
  Qed.

  Theorem ff_positive_propagate_oracle :
    (forall i j, In (i, j) (propagations tr) -> (i < j)%nat /\ (j < len)%nat /\
                                               nth i times 0 < nth j times 0) /\
    chain 0 (propagations tr) (len - 1).
  Proof.
    destruct (passes_steps ff_run_passes) as (Hc & Hs & _).
    split; [|assumption].
    intros i j H. apply Hs in H as (H1 & H2 & _). split; [lia|]. split; [lia|].
    apply (tt_lt times Hsorted); lia.
  Qed.

  Theorem ff_step_bound_oracle : forall i j, In (i, j) (propagations tr) ->
    j = (i + 1)%nat \/ nth j times 0 <= add_step (nth i times 0).
  Proof. intros i j H. now apply (passes_steps ff_run_passes) in H. Qed.

  Theorem ff_innov_sound_oracle : forall k m t, In (Innov k m t) tr ->
    tstart <= m /\ m < tend /\
    (exists s, nth_error sensors k = Some s /\ InQ m s) /\
    exists i, (i + 1 < len)%nat /\ t = nth i times 0 /\ t <= m /\ m < nth (i + 1) times 0.
  Proof.
    intros k m t H.
    apply (passes_Innov ff_run_passes) in H
      as ((s & Hs & Hst) & i & _ & Hi & -> & Hlo & Hhi).
    pose proof (tt_le times Hsorted 0 i ltac:(lia) ltac:(lia)).
    pose proof (tt_le times Hsorted (i + 1) (len - 1) ltac:(lia) ltac:(lia)).
    split; [lra|]. split; [lra|]. split; [|now exists i].
    exists s. split; [assumption|]. now apply stamped_true.
  Qed.

  Theorem ff_meas_exactly_once_oracle :
    (forall k s, nth_error sensors k = Some s ->
       sorted (innov_epochs k tr) /\
       (forall x, InQ x (innov_epochs k tr) <-> InQ x s /\ tstart <= x /\ x < tend) /\
       Forall2 Qeq (innov_epochs k tr) (sort_unique (filter (in_range tstart tend) s)) /\
       Forall2 (fun m t => exists i, (i + 1 < len)%nat /\ t = nth i times 0 /\
                                     t <= m /\ m < nth (i + 1) times 0)
               (innov_epochs k tr) (innov_rows k tr)) /\
    (forall k, nth_error sensors k = None -> innov_epochs k tr = []).
  Proof.
    assert (He : forall k, innov_epochs k tr =
              flat_map (sel sensors k) (filter (in_range tstart tend) (merge_times sensors))).
    { intro k. rewrite <- filter_lt_clip. exact (passes_epochs Hsorted k ff_run_passes). }
    split; [|intros k Hk; rewrite He; now apply sel_none].
    intros k s Hk.
    destruct (sensor_epochs_spec sensors k s tstart tend Hk) as (S1 & S2 & S3).
    rewrite <- He in S1, S2, S3. split; [assumption|]. split; [assumption|]. split; [assumption|].
    apply epochs_rows_related. intros m t H.
    now apply ff_innov_sound_oracle in H as (_ & _ & _ & H).
  Qed.

  (* every row of the result tables and the next row (for the last row: the end
     of the data) are one propagation step apart *)
  Theorem ff_table_step_bound_oracle :
    adjacent (fun a b => exists i, (i + 1 < len)%nat /\ a = nth i times 0 /\ a < b /\
                                   (b = nth (i + 1) times 0 \/ b <= add_step a))
             (record_times tr) tend.
  Proof.
    destruct (passes_steps ff_run_passes) as (Hc & Hs & ->).
    eapply adjacent_impl; [|exact (chain_adjacent (fun i => nth i times 0) _ _ _ _ Hc Hs)].
    intros a b (i & j & -> & -> & Hij & Hj & Hor). exists i.
    split; [lia|]. split; [reflexivity|]. split; [apply (tt_lt times Hsorted); lia|].
    destruct Hor as [->|Hor]; auto.
  Qed.
End FeedforwardTop.

Theorem ff_terminates : forall time_step times sensors fuel,
  sorted times -> (2 <= length times)%nat ->
  (length times - 1 <= fuel)%nat ->
  completed (ff_run_exact fuel time_step times sensors) = true.
Proof. intro time_step. exact (ff_terminates_oracle _). Qed.

Theorem ff_records : forall time_step times sensors fuel,
  sorted times -> (2 <= length times)%nat ->
  (length times - 1 <= fuel)%nat ->
  let tr := ff_run_exact fuel time_step times sensors in
  sorted (record_times tr) /\
  (forall t, In t (record_times tr) -> In t times /\ t < nth (length times - 1) times 0) /\
  (exists r, record_times tr = nth 0 times 0 :: r) /\
  record_times tr = map (fun p => nth (fst p) times 0) (propagations tr).
Proof. intro time_step. exact (ff_records_oracle _). Qed.

Lemma step_bound_max : forall s a b c, b = c \/ b <= a + s -> b - a <= Qmax s (c - a).
Proof.
  intros s a b c [->|H]; [apply Q.le_max_r|].
  eapply Qle_trans; [|apply Q.le_max_l]. lra.
Qed.

Theorem ff_step_bound : forall time_step times sensors fuel,
  sorted times -> (2 <= length times)%nat ->
  (length times - 1 <= fuel)%nat ->
  forall i j, In (i, j) (propagations (ff_run_exact fuel time_step times sensors)) ->
  nth j times 0 - nth i times 0 <=
  Qmax time_step (nth (i + 1) times 0 - nth i times 0).
Proof.
  intros time_step times sensors fuel Hsorted Hlen Hfuel i j H.
  apply step_bound_max.
  destruct (ff_step_bound_oracle _ times sensors fuel Hsorted Hlen Hfuel i j H) as [->|];
    auto.
Qed.

Theorem ff_meas_exactly_once : forall time_step times sensors fuel,
  sorted times -> (2 <= length times)%nat ->
  (length times - 1 <= fuel)%nat ->
  let tr := ff_run_exact fuel time_step times sensors in
  let tstart := nth 0 times 0 in
  let tend := nth (length times - 1) times 0 in
  (forall k s, nth_error sensors k = Some s ->
     sorted (innov_epochs k tr) /\
     (forall x, InQ x (innov_epochs k tr) <-> InQ x s /\ tstart <= x /\ x < tend) /\
     Forall2 Qeq (innov_epochs k tr) (sort_unique (filter (in_range tstart tend) s)) /\
     Forall2 (fun m t => exists i, (i + 1 < length times)%nat /\ t = nth i times 0 /\
                                   t <= m /\ m < nth (i + 1) times 0)
             (innov_epochs k tr) (innov_rows k tr)) /\
  (forall k, nth_error sensors k = None -> innov_epochs k tr = []).
Proof. intro time_step. exact (ff_meas_exactly_once_oracle _). Qed.

Theorem ff_innov_sound : forall time_step times sensors fuel,
  sorted times -> (2 <= length times)%nat ->
  (length times - 1 <= fuel)%nat ->
  forall k m t, In (Innov k m t) (ff_run_exact fuel time_step times sensors) ->
  nth 0 times 0 <= m /\ m < nth (length times - 1) times 0 /\
  (exists s, nth_error sensors k = Some s /\ InQ m s) /\
  exists i, (i + 1 < length times)%nat /\ t = nth i times 0 /\ t <= m /\
            m < nth (i + 1) times 0.
Proof. intro time_step. exact (ff_innov_sound_oracle _). Qed.

(* the trajectory times: tmf t0 incs 0 = t0, tmf t0 incs (S i) = incs[i] *)
Definition tmf (t0 : Q) (incs : list Q) (i : nat) : Q := nth i (t0 :: incs) 0.

(* The feedback loop walks the grid t0 :: incs of trajectory times exactly as
   the feedforward loop walks `times`: integrating the batch iloc[idx:nidx']
   moves the integrator from grid row idx to grid row nidx'.  `swap` exchanges
   the two names of a step; it is an involution, so no fact about which kinds of
   events a trace contains is needed to carry an observable across. *)
Definition swap (e : event) : event :=
  match e with
  | Integrate a b => Propagate a b
  | Propagate a b => Integrate a b
  | e => e
  end.

Lemma swap_innov : forall l, all_innov l -> map swap l = l.
Proof.
  induction 1 as [|e l He _ IH]; [reflexivity|]. cbn. rewrite IH.
  now destruct e.
Qed.

Lemma flat_map_swap : forall (B : Type) (f : event -> list B),
  (forall e, f (swap e) = f e) -> forall tr, flat_map f (map swap tr) = flat_map f tr.
Proof.
  intros B f H tr. rewrite !flat_map_concat_map, map_map. f_equal. apply map_ext, H.
Qed.

Lemma completed_swap : forall tr, completed (map swap tr) = completed tr.
Proof.
  unfold completed. induction tr as [|e tr IH]; [reflexivity|]. cbn. rewrite IH.
  now destruct e.
Qed.

Lemma integrated_swap : forall tr,
  integrated tr = flat_map (fun s => seq (fst s) (snd s - fst s)) (propagations (map swap tr)).
Proof.
  unfold integrated, propagations. induction tr as [|e tr IH]; [reflexivity|].
  cbn [map flat_map]. rewrite flat_map_app, <- IH. destruct e; try reflexivity.
  cbn. now rewrite app_nil_r.
Qed.

Section Feedback.
  Variable add_step : Q -> Q.
  Variable t0 : Q.
  Variable incs : list Q.
  Variable sensors : list (list Q).
  Hypothesis Hstep : forall t, t <= add_step t.
  Hypothesis Hsorted : sorted (t0 :: incs).

  Local Notation n := (length incs).
  Local Notation T i := (nth i (t0 :: incs) 0).    (* = tmf t0 incs i *)

  Lemma fb_loop_done : forall fuel pending,
    fb_loop fuel add_step incs sensors (T n) (T n) n pending = [].
  Proof.
    intros fuel pending.
    assert (E : Qltb (T n) (T n) = false) by (apply Qltb_false; lra).
    destruct fuel; cbn [fb_loop]; now rewrite E.
  Qed.

  Lemma fb_loop_unfold : forall fuel idx pending, (idx < n)%nat ->
    fb_loop (S fuel) add_step incs sensors (T n) (T idx) idx pending =
    let (ev, pending') := inner sensors (T idx) (T (S idx)) pending in
    let next_time := min_inf (add_step (T idx)) (head_inf pending') in
    let nidx := searchsorted_right incs next_time in
    let nidx' := if Nat.eqb nidx idx then S nidx else nidx in
    ev ++ Record (T idx) :: Integrate idx nidx'
       :: fb_loop fuel add_step incs sensors (T n)
            (last (batch incs idx nidx') (T idx)) nidx' pending'.
  Proof.
    intros fuel idx pending Hidx. cbn [fb_loop].
    rewrite (proj2 (Qltb_true (T idx) (T n))) by (apply (tt_lt _ Hsorted); cbn; lia).
    rewrite (nth_error_nth' incs 0 Hidx). reflexivity.
  Qed.

  (* t0 <= next_time, the only use of Hstep, makes searchsorted on the grid one
     more than searchsorted on incs; then max(. - 1, idx + 1) on the grid is the
     `== idx -> += 1` guard on incs *)
  Lemma fb_is_ff : forall fuel idx pending, (idx <= n)%nat ->
    map swap (fb_loop fuel add_step incs sensors (T n) (T idx) idx pending) =
    ff_loop fuel add_step (t0 :: incs) sensors idx pending.
  Proof.
    induction fuel as [|fuel IH]; intros idx pending Hidx;
      (destruct (Nat.eq_dec idx n) as [->|Hne];
       [now rewrite fb_loop_done, ff_loop_done by (cbn; lia)|]);
      assert (Hlt : (idx < n)%nat) by lia;
      pose proof (tt_lt _ Hsorted idx (S idx) ltac:(lia) ltac:(cbn; lia)) as Hrow.
    - cbn [fb_loop ff_loop length].
      rewrite (proj2 (Qltb_true (T idx) (T n))) by (apply (tt_lt _ Hsorted); cbn; lia).
      now rewrite (proj2 (Nat.ltb_lt (idx + 1) (S n))) by lia.
    - rewrite (fb_loop_unfold fuel idx pending Hlt).
      rewrite (ff_loop_unfold add_step (t0 :: incs) sensors fuel idx pending) by (cbn; lia).
      rewrite Nat.add_1_r.
      destruct (inner sensors (T idx) (T (S idx)) pending) as [ev p'] eqn:Einner.
      apply inner_spec in Einner as (pre & _ & -> & _ & Hhead).
      cbv zeta. set (nt := min_inf (add_step (T idx)) (head_inf p')).
      assert (Hlow : T idx <= nt).
      { apply min_inf_glb; [apply Hstep|]. destruct p'; [exact I|lra]. }
      assert (Hss : searchsorted_right (t0 :: incs) nt = S (searchsorted_right incs nt)).
      { cbn [searchsorted_right]. rewrite (proj2 (Qle_bool_iff t0 nt)); [reflexivity|].
        exact (Qle_trans _ _ _ (tt_le _ Hsorted 0 idx ltac:(lia) ltac:(cbn; lia)) Hlow). }
      pose proof (ss_lower (t0 :: incs) nt idx Hsorted ltac:(cbn; lia) Hlow) as Hge.
      pose proof (ss_le_len incs nt) as Hlen.
      rewrite Hss in *. set (nidx := searchsorted_right incs nt) in *.
      set (nidx' := if Nat.eqb nidx idx then S nidx else nidx).
      assert (Hn' : Nat.max (S nidx - 1) (S idx) = nidx' /\ (idx < nidx' <= n)%nat)
        by (subst nidx'; destruct (Nat.eqb_spec nidx idx); lia).
      destruct Hn' as [-> Hn'].
      rewrite (nth_error_nth' (t0 :: incs) 0 (n:=nidx')) by (cbn; lia).
      replace (last (batch incs idx nidx') (T idx)) with (T nidx').
      2:{ rewrite batch_last by lia. destruct nidx'; [lia|]. cbn [nth]. f_equal. lia. }
      rewrite map_app, swap_innov by apply events_all_innov. cbn [map swap].
      now rewrite IH by lia.
  Qed.
End Feedback.

Section FeedbackTop.
  Variable add_step : Q -> Q.
  Variable t0 : Q.
  Variable incs : list Q.
  Variable sensors : list (list Q).
  Variable fuel : nat.
  Hypothesis Hstep : forall t, t <= add_step t.
  Hypothesis Hsorted : sorted (t0 :: incs).
  Hypothesis Hne : incs <> [].
  Hypothesis Hfuel : (length incs <= fuel)%nat.

  Local Notation n := (length incs).
  Local Notation tend := (last incs t0).
  Local Notation tr := (fb_run fuel add_step t0 incs sensors).

  Lemma grid_end : nth (length (t0 :: incs) - 1) (t0 :: incs) 0 = tend.
  Proof.
    rewrite <- (last_nth_len (t0 :: incs) t0) by discriminate.
    destruct incs; [congruence|reflexivity].
  Qed.

  Lemma fb_run_ff : map swap tr = ff_run fuel add_step (t0 :: incs) sensors.
  Proof.
    unfold fb_run, ff_run. rewrite (last_nth_len (t0 :: incs) t0), grid_end by discriminate.
    (* `incs` is folded back, as `times` is in ff_run_passes *)
    destruct incs as [|a l] eqn:E; [congruence|]. rewrite <- E in *.
    rewrite <- grid_end.
    replace (length (t0 :: incs) - 1)%nat with n by (cbn; lia).
    apply (fb_is_ff add_step t0 incs sensors Hstep Hsorted fuel 0). lia.
  Qed.

  Lemma grid_len : (2 <= length (t0 :: incs))%nat.
  Proof. destruct incs; [congruence|cbn; lia]. Qed.

  Lemma grid_fuel : (length (t0 :: incs) - 1 <= fuel)%nat.
  Proof. cbn. lia. Qed.

  (* the feedforward theorem `thm` on the grid t0 :: incs *)
  Local Notation on_grid thm :=
    (thm add_step (t0 :: incs) sensors fuel Hsorted grid_len grid_fuel).

  Theorem fb_terminates_oracle : completed tr = true.
  Proof. rewrite <- completed_swap, fb_run_ff. exact (on_grid ff_terminates_oracle). Qed.

  Theorem fb_imu_exactly_once_oracle :
    integrated tr = seq 0 n /\
    (forall a b, In (Integrate a b) tr -> (a < b)%nat /\ (b <= n)%nat) /\
    fb_trajectory_index t0 incs tr = t0 :: incs.
  Proof.
    destruct (on_grid ff_positive_propagate_oracle) as [Hp Hc].
    rewrite <- fb_run_ff in Hp, Hc. cbn [length] in Hp, Hc.
    assert (Hab : forall a b, In (Integrate a b) tr -> (a < b)%nat /\ (b <= n)%nat).
    { intros a b H. apply (in_map swap) in H. cbn [swap] in H.
      destruct (Hp a b) as (? & ? & _); [|lia].
      apply in_flat_map. exists (Propagate a b). split; [assumption|now left]. }
    assert (Hint : integrated tr = seq 0 n).
    { rewrite integrated_swap.
      destruct (chain_seq _ _ _ Hc) as [_ ->]; [intros; now apply Hp|]. f_equal. lia. }
    split; [exact Hint|]. split; [exact Hab|].
    unfold fb_trajectory_index, batch. f_equal.
    rewrite (chunks_by_index 0 incs), Hint; [apply map_nth_seq|].
    intros a b H. apply Hab in H. lia.
  Qed.

  Theorem fb_meas_exactly_once_oracle :
    (forall k s, nth_error sensors k = Some s ->
       sorted (innov_epochs k tr) /\
       (forall x, InQ x (innov_epochs k tr) <-> InQ x s /\ t0 <= x /\ x < tend) /\
       Forall2 Qeq (innov_epochs k tr) (sort_unique (filter (in_range t0 tend) s))) /\
    (forall k, nth_error sensors k = None -> innov_epochs k tr = []).
  Proof.
    destruct (on_grid ff_meas_exactly_once_oracle) as [H1 H2].
    assert (He : forall k, innov_epochs k (ff_run fuel add_step (t0 :: incs) sensors)
                           = innov_epochs k tr).
    { intro k. rewrite <- fb_run_ff. apply flat_map_swap. now intros []. }
    split; [|intros k Hk; rewrite <- He; now apply H2].
    intros k s Hk. destruct (H1 k s Hk) as (A & B & C & _).
    rewrite He in A, B, C. rewrite grid_end in B, C.
    split; [exact A|]. split; [exact B|exact C].
  Qed.

  Theorem fb_innov_sound_oracle : forall k m t, In (Innov k m t) tr ->
    t0 <= m /\ m < tend /\
    (exists s, nth_error sensors k = Some s /\ InQ m s) /\
    exists i, (i < n)%nat /\ t = tmf t0 incs i /\ t <= m /\ m < tmf t0 incs (S i).
  Proof.
    intros k m t H. apply (in_map swap) in H. rewrite fb_run_ff in H.
    destruct (on_grid ff_innov_sound_oracle _ _ _ H) as (A & B & C & i & Hi & -> & D & E).
    rewrite grid_end in B. rewrite Nat.add_1_r in E. cbn [length] in Hi.
    split; [exact A|]. split; [exact B|]. split; [exact C|].
    exists i. split; [lia|]. now split.
  Qed.

  Theorem fb_records_increasing_oracle :
    sorted (record_times tr) /\
    (forall t, In t (record_times tr) -> In t (t0 :: incs) /\ t < tend) /\
    exists r, record_times tr = t0 :: r.
  Proof.
    destruct (on_grid ff_records_oracle) as (A & B & C & _).
    assert (He : record_times (ff_run fuel add_step (t0 :: incs) sensors) = record_times tr)
      by (rewrite <- fb_run_ff; apply flat_map_swap; now intros []).
    rewrite He in A, B, C. rewrite grid_end in B.
    split; [exact A|]. split; [exact B|exact C].
  Qed.

  Theorem fb_no_meas_no_innov_oracle :
    (forall s x, In s sensors -> In x s -> ~ (t0 <= x /\ x < tend)) ->
    forall k m t, ~ In (Innov k m t) tr.
  Proof.
    intros Hnone k m t H.
    apply fb_innov_sound_oracle in H as (H1 & H2 & (s & Hs & y & Hy & He) & _).
    apply (Hnone s y); [now apply nth_error_In with k|assumption|lra].
  Qed.
End FeedbackTop.

Lemma exact_step : forall time_step, 0 <= time_step -> forall t, t <= t + time_step.
Proof. intros. lra. Qed.

Theorem fb_terminates : forall time_step t0 incs sensors fuel,
  0 <= time_step -> sorted (t0 :: incs) -> incs <> [] -> (length incs <= fuel)%nat ->
  completed (fb_run_exact fuel time_step t0 incs sensors) = true.
Proof.
  intros ts t0 incs sensors fuel H.
  exact (fb_terminates_oracle _ t0 incs sensors fuel (exact_step ts H)).
Qed.

Theorem fb_imu_exactly_once : forall time_step t0 incs sensors fuel,
  0 <= time_step -> sorted (t0 :: incs) -> incs <> [] -> (length incs <= fuel)%nat ->
  let tr := fb_run_exact fuel time_step t0 incs sensors in
  integrated tr = seq 0 (length incs) /\
  (forall a b, In (Integrate a b) tr -> (a < b)%nat /\ (b <= length incs)%nat) /\
  fb_trajectory_index t0 incs tr = t0 :: incs.
Proof.
  intros ts t0 incs sensors fuel H.
  exact (fb_imu_exactly_once_oracle _ t0 incs sensors fuel (exact_step ts H)).
Qed.

Theorem fb_meas_exactly_once : forall time_step t0 incs sensors fuel,
  0 <= time_step -> sorted (t0 :: incs) -> incs <> [] -> (length incs <= fuel)%nat ->
  let tr := fb_run_exact fuel time_step t0 incs sensors in
  let tend := last incs t0 in
  (forall k s, nth_error sensors k = Some s ->
     sorted (innov_epochs k tr) /\
     (forall x, InQ x (innov_epochs k tr) <-> InQ x s /\ t0 <= x /\ x < tend) /\
     Forall2 Qeq (innov_epochs k tr) (sort_unique (filter (in_range t0 tend) s))) /\
  (forall k, nth_error sensors k = None -> innov_epochs k tr = []).
Proof.
  intros ts t0 incs sensors fuel H.
  exact (fb_meas_exactly_once_oracle _ t0 incs sensors fuel (exact_step ts H)).
Qed.

Theorem fb_innov_sound : forall time_step t0 incs sensors fuel,
  0 <= time_step -> sorted (t0 :: incs) -> incs <> [] -> (length incs <= fuel)%nat ->
  forall k m t, In (Innov k m t) (fb_run_exact fuel time_step t0 incs sensors) ->
  t0 <= m /\ m < last incs t0 /\
  (exists s, nth_error sensors k = Some s /\ InQ m s) /\
  exists i, (i < length incs)%nat /\ t = tmf t0 incs i /\ t <= m /\ m < tmf t0 incs (S i).
Proof.
  intros ts t0 incs sensors fuel H.
  exact (fb_innov_sound_oracle _ t0 incs sensors fuel (exact_step ts H)).
Qed.

Theorem fb_records_increasing : forall time_step t0 incs sensors fuel,
  0 <= time_step -> sorted (t0 :: incs) -> incs <> [] -> (length incs <= fuel)%nat ->
  let tr := fb_run_exact fuel time_step t0 incs sensors in
  sorted (record_times tr) /\
  (forall t, In t (record_times tr) -> In t (t0 :: incs) /\ t < last incs t0) /\
  exists r, record_times tr = t0 :: r.
Proof.
  intros ts t0 incs sensors fuel H.
  exact (fb_records_increasing_oracle _ t0 incs sensors fuel (exact_step ts H)).
Qed.

(* the feedforward loop without `max(., index + 1)` on the row cursor (the guard
   that pyins commit 7949717 introduced) *)
Fixpoint ff_loop_noguard (fuel : nat) (add_step : Q -> Q) (times : list Q)
         (sensors : list (list Q)) (index : nat) (pending : list Q) : list event :=
  if Nat.ltb (index + 1) (length times) then
    match fuel with
    | O => [OutOfFuel]
    | S fuel' =>
        match nth_error times index, nth_error times (index + 1) with
        | Some time, Some bound =>
            let (ev, pending') := inner sensors time bound pending in
            let next_time := min_inf (add_step time) (head_inf pending') in
            let next_index := (searchsorted_right times next_time - 1)%nat in
            ev ++ Record time :: Propagate index next_index
               :: ff_loop_noguard fuel' add_step times sensors next_index pending'
        | _, _ => [Crash]
        end
    end
  else [].

(* the feedback loop with a single `if measurement_time < increment.name` in place
   of the inner `while`: at most one epoch is processed per iteration.  `pinned`:
   this is the loop of pyins before commit 93d9afe, which introduced the `while` *)
Fixpoint fb_loop_pinned (fuel : nat) (add_step : Q -> Q) (incs : list Q)
         (sensors : list (list Q)) (end_time : Q)
         (itime : Q) (idx : nat) (pending : list Q) : list event :=
  if Qltb itime end_time then
    match fuel with
    | O => [OutOfFuel]
    | S fuel' =>
        match nth_error incs idx with
        | None => [Crash]
        | Some bound =>
            let (ev, pending') :=
              match pending with
              | m :: rest => if Qltb m bound then (epoch_events sensors m itime, rest)
                             else ([], pending)
              | [] => ([], [])
              end in
            let next_time := min_inf (add_step itime) (head_inf pending') in
            let nidx := searchsorted_right incs next_time in
            let nidx' := if Nat.eqb nidx idx then S nidx else nidx in
            let itime' := last (batch incs idx nidx') itime in
            ev ++ Record itime :: Integrate idx nidx'
               :: fb_loop_pinned fuel' add_step incs sensors end_time itime' nidx' pending'
        end
    end
  else [].

Definition fb_run_pinned (fuel : nat) (step t0 : Q) (incs : list Q)
           (sensors : list (list Q)) : list event :=
  fb_loop_pinned fuel (fun t => t + step) incs sensors (last incs t0) t0 0
                 (clip t0 (last incs t0) (merge_times sensors)).

(* the hypothesis `t <= add_step t` of the feedback theorems is necessary: with
   a negative step the cursor moves back, which the `== idx -> += 1` guard does
   not catch *)
Lemma fb_negative_step_refuted : exists t0 incs,
  sorted (t0 :: incs) /\
  integrated (fb_run 4 (fun t => t - 1) t0 incs []) <> seq 0 (length incs).
Proof.
  exists 0, [1; 2; 3]. split; [repeat constructor|].
  vm_compute. discriminate.
Qed.
