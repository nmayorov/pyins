(** C18 (K part): proofs about Model/StateDiff.v.

    Rows are [map cell columns]: facts are proved about the cell functions
    ([row_cell] of a resampled row, [core_cell] of a difference row) and read
    through [get] with [get_map].  A difference cell means [ideal] of the real
    values of its two operands ([dvalR_diff_cell], [cell_is]); [ideal] is [post]
    of the raw difference, and zero, negation and exchange of the operands are
    properties of [post].  [bracket_spec] says all that is used of the bracketing
    knots, in general position and at a knot. *)
From Coq Require Import List QArith Qfield Bool Arith Lia Psatz Permutation.
From Coq Require Import Reals Qreals.
From PV Require Import Base.ListFacts Spec.LibSpecs Gen.Util Model.StateDiff Proofs.To180Proofs.
Import ListNotations.
Open Scope Q_scope.

Lemma Qltb_iff : forall x y, Qltb x y = true <-> x < y.
Proof. intros x y. unfold Qltb. rewrite negb_true_iff. apply Qle_bool_false. Qed.

Lemma Qltb_false_iff : forall x y, Qltb x y = false <-> y <= x.
Proof. intros x y. unfold Qltb. rewrite negb_false_iff. apply Qle_bool_iff. Qed.

(** strictly increasing *)
Fixpoint incr (l : list Q) : Prop :=
  match l with
  | [] => True
  | x :: l' => Forall (Qlt x) l' /\ incr l'
  end.

(** non-decreasing.  Not the [sorted] of SchedProofs.v, which is a notation for
    [StronglySorted Qlt] (strictly increasing, what [incr] is here) *)
Fixpoint sorted (l : list Q) : Prop :=
  match l with
  | [] => True
  | x :: l' => Forall (Qle x) l' /\ sorted l'
  end.

Lemma sorted_filter : forall p l, sorted l -> sorted (filter p l).
Proof.
  induction l as [| x l IH]; simpl; [trivial |].
  intros [H1 H2]. destruct (p x); simpl; [| auto].
  split; [exact (incl_Forall (incl_filter p l) H1) | auto].
Qed.

Lemma incr_sorted : forall l, incr l -> sorted l.
Proof.
  induction l as [| x l IH]; simpl; [trivial |].
  intros [H1 H2]. split; [exact (Forall_impl _ (Qlt_le_weak x) H1) | auto].
Qed.

Lemma increasingb_incr : forall l, increasingb l = true -> incr l.
Proof.
  induction l as [| x l IH]; [simpl; trivial |].
  destruct l as [| y l']; [intros _; split; [constructor | exact I] |].
  intro H. change (Qltb x y && increasingb (y :: l') = true) in H.
  apply andb_true_iff in H. destruct H as [Hxy Hrest]. apply Qltb_iff in Hxy.
  destruct (IH Hrest) as [Hy Hinc]. split; [| split; assumption].
  constructor; [exact Hxy |]. exact (Forall_impl _ (fun z => Qlt_trans x y z Hxy) Hy).
Qed.

Lemma incr_bounds : forall l x d, incr l -> In x l -> hd d l <= x /\ x <= last l d.
Proof.
  induction l as [| y l IH]; intros x d Hinc Hin; [inversion Hin |].
  destruct Hinc as [Hy Hinc]. rewrite Forall_forall in Hy. split.
  - destruct Hin as [<- | Hin]; [apply Qle_refl | apply Qlt_le_weak, Hy, Hin].
  - destruct l as [| z l']; [destruct Hin as [<- | []]; apply Qle_refl |].
    change (x <= last (z :: l') d). destruct Hin as [<- | Hin]; [| apply (IH x d Hinc Hin)].
    apply Qle_trans with z; [apply Qlt_le_weak, Hy; left; reflexivity |].
    apply (IH z d Hinc). left. reflexivity.
Qed.

(** * np.sort as insertion sort *)

Lemma insert_perm : forall x l, Permutation (x :: l) (insert x l).
Proof.
  induction l as [| y l IH]; simpl; [apply Permutation_refl |].
  destruct (Qle_bool x y); [apply Permutation_refl |].
  eapply Permutation_trans; [apply perm_swap |]. apply perm_skip. exact IH.
Qed.

Lemma isort_perm : forall l, Permutation l (isort l).
Proof.
  induction l as [| x l IH]; simpl; [constructor |].
  eapply Permutation_trans; [| apply insert_perm]. apply perm_skip. exact IH.
Qed.

Lemma insert_sorted : forall x l, sorted l -> sorted (insert x l).
Proof.
  induction l as [| y l IH]; simpl; [intros _; split; [constructor | trivial] |].
  intros [H1 H2]. destruct (Qle_bool x y) eqn:E.
  - apply Qle_bool_iff in E. simpl. split; [| split; assumption].
    constructor; [exact E |]. exact (Forall_impl _ (fun z => Qle_trans x y z E) H1).
  - apply Qle_bool_false in E. simpl. split; [| auto].
    apply (Permutation_Forall (insert_perm x l)).
    constructor; [apply Qlt_le_weak; exact E | exact H1].
Qed.

Lemma isort_sorted : forall l, sorted (isort l).
Proof.
  induction l as [| x l IH]; simpl; [trivial |]. apply insert_sorted. exact IH.
Qed.

Lemma isort_id : forall l, sorted l -> isort l = l.
Proof.
  induction l as [| x l IH]; simpl; [reflexivity |].
  intros [H1 H2]. rewrite (IH H2).
  destruct l as [| y l']; [reflexivity |]. simpl.
  inversion H1 as [| ? ? Hxy _]; subst.
  apply Qle_bool_iff in Hxy. rewrite Hxy. reflexivity.
Qed.

Lemma mem_In : forall c l, mem c l = true <-> In c l.
Proof.
  intros c l. unfold mem. rewrite existsb_exists. split.
  - intros [x [Hx E]]. apply Nat.eqb_eq in E. subst. exact Hx.
  - intro H. exists c. split; [exact H | apply Nat.eqb_refl].
Qed.

Lemma index_of_spec : forall c cs, In c cs ->
  (index_of c cs < length cs)%nat /\ nth (index_of c cs) cs 0%nat = c.
Proof.
  induction cs as [| x cs IH]; simpl; [tauto |].
  intro H. destruct (Nat.eqb_spec c x) as [-> | Hne]; [split; [lia | reflexivity] |].
  destruct H as [H | H]; [congruence |]. destruct (IH H). split; [lia | assumption].
Qed.

Lemma get_map : forall (A : Type) (d : A) (g : nat -> A) (C : list nat) (c : nat),
  In c C -> get d C (map g C) c = g c.
Proof.
  intros A d g C c H. unfold get.
  destruct (index_of_spec c C H) as [Hlt Hnth].
  rewrite (nth_indep _ d (g 0%nat)) by (rewrite map_length; exact Hlt).
  rewrite map_nth, Hnth. reflexivity.
Qed.

Lemma map_get_id : forall (A : Type) (d : A) (cs : list nat) (r : list A),
  NoDup cs -> length r = length cs -> map (get d cs r) cs = r.
Proof.
  intros A d. induction cs as [| x cs IH]; intros [| a r] Hnd Hlen; try discriminate;
    [reflexivity |].
  inversion Hnd as [| ? ? Hx Hnd']; subst. injection Hlen as Hlen.
  rewrite <- (IH r Hnd' Hlen) at 2. unfold get. simpl. rewrite Nat.eqb_refl. f_equal.
  apply map_ext_in. intros c Hc.
  destruct (Nat.eqb_spec c x) as [-> | _]; [contradiction | reflexivity].
Qed.

Lemma In_col_inter : forall c c1 c2, In c (col_inter c1 c2) <-> In c c1 /\ In c c2.
Proof. intros c c1 c2. unfold col_inter. rewrite filter_In, mem_In. reflexivity. Qed.

Lemma has_all_incl : forall w cs, has_all w cs = true <-> incl w cs.
Proof.
  intros w cs. unfold has_all. rewrite forallb_forall.
  split; intros H c Hc; apply mem_In, H, Hc.
Qed.

Lemma has_all_col_inter_comm : forall w c1 c2,
  has_all w (col_inter c1 c2) = has_all w (col_inter c2 c1).
Proof.
  intros w c1 c2. apply eq_true_iff_eq. rewrite !has_all_incl.
  split; intros H c Hc; apply In_col_inter, and_comm, In_col_inter, H, Hc.
Qed.

Lemma col_inter_self : forall cs, col_inter cs cs = cs.
Proof. intro cs. apply filter_all_true. intros c Hc. apply mem_In. exact Hc. Qed.

(** the two knots [locate] returns are consecutive, strictly increasing and
    enclose t; a knot equal to t is one of the two *)
Lemma locate_spec : forall rest lo t d,
  rest <> [] -> incr (map fst (lo :: rest)) -> fst lo <= t -> t <= fst (last (lo :: rest) d) ->
  let b := locate t lo rest in
  (exists pre post, lo :: rest = pre ++ fst b :: snd b :: post) /\
  fst (fst b) <= t <= fst (snd b) /\ fst (fst b) < fst (snd b) /\
  forall x, In x (lo :: rest) -> t == fst x -> fst b = x \/ snd b = x.
Proof.
  induction rest as [| hi rest' IH]; intros lo t d Hne Hinc Hlo Hlast; [congruence |].
  simpl in Hinc. destruct Hinc as [Hlo_all [Hhi_all Hinc']].
  assert (Hlh : fst lo < fst hi) by (inversion Hlo_all; assumption).
  simpl locate. destruct (Qle_bool t (fst hi)) eqn:E.
  - apply Qle_bool_iff in E. cbn [fst snd].
    split; [exists [], rest'; reflexivity |]. split; [split; assumption |]. split; [exact Hlh |].
    intros x [<- | [<- | Hx]] Hx'; [left; reflexivity | right; reflexivity | exfalso].
    rewrite Forall_forall in Hhi_all. specialize (Hhi_all _ (in_map fst _ _ Hx)). lra.
  - apply Qle_bool_false in E. destruct rest' as [| h2 r2]; [simpl in Hlast; exfalso; lra |].
    destruct (IH hi t d) as [[pre [post E1]] [H2 [H3 H4]]];
      [discriminate | simpl; split; assumption | lra | exact Hlast |].
    split; [exists (lo :: pre), post; exact (f_equal (cons lo) E1) |].
    split; [exact H2 |]. split; [exact H3 |].
    intros x [<- | Hx] Hx'; [exfalso; lra | exact (H4 x Hx Hx')].
Qed.

Lemma w_hi_at_lo : forall t xlo xhi, xlo < xhi -> t == xlo -> w_hi t xlo xhi == 0.
Proof. intros t xlo xhi Hlt Ht. unfold w_hi. rewrite Ht. field. lra. Qed.

Lemma w_hi_at_hi : forall t xlo xhi, xlo < xhi -> t == xhi -> w_hi t xlo xhi == 1.
Proof. intros t xlo xhi Hlt Ht. unfold w_hi. rewrite Ht. field. lra. Qed.

Lemma lerp_linear : forall t xlo xhi ylo yhi,
  xlo < xhi -> lerp t xlo xhi ylo yhi == ylo + w_hi t xlo xhi * (yhi - ylo).
Proof. intros t xlo xhi ylo yhi Hlt. unfold lerp, w_hi, w_lo. field. lra. Qed.

Lemma w_hi_range : forall t xlo xhi,
  xlo < xhi -> xlo <= t <= xhi -> 0 <= w_hi t xlo xhi <= 1.
Proof.
  intros t xlo xhi Hlt [H1 H2]. unfold w_hi.
  assert (Hd : 0 < xhi - xlo) by lra.
  split; [apply Qle_shift_div_l | apply Qle_shift_div_r]; lra.
Qed.

Lemma first_time_hd : forall t, first_time t = hd 0 (times t).
Proof. intro t. unfold first_time, times. destruct (rows t); reflexivity. Qed.

Lemma last_time_last : forall t, last_time t = last (times t) 0.
Proof.
  intro t. unfold last_time, times.
  induction (rows t) as [| x l IH]; [reflexivity |]. destruct l; [reflexivity | exact IH].
Qed.

Lemma in_span_iff : forall t x,
  in_span t x = true <-> first_time t <= x /\ x <= last_time t.
Proof.
  intros t x. unfold in_span. rewrite andb_true_iff, !Qle_bool_iff. tauto.
Qed.

Lemma knot_in_span : forall t x, incr (times t) -> In x (times t) -> in_span t x = true.
Proof.
  intros t x Hinc Hin. apply in_span_iff. rewrite first_time_hd, last_time_last.
  apply incr_bounds; assumption.
Qed.

Lemma filter_in_span_all : forall s l,
  incr (times s) -> incl l (times s) -> filter (in_span s) l = l.
Proof. intros s l Hs Hl. apply filter_all_true. intros x Hx. apply knot_in_span; auto. Qed.

Lemma times_select : forall C t, times (select C t) = times t.
Proof.
  intros C t. unfold times, select. simpl. rewrite map_map. reflexivity.
Qed.

Lemma in_span_select : forall C t x, in_span (select C t) x = in_span t x.
Proof.
  intros C t x. unfold in_span.
  rewrite !first_time_hd, !last_time_last, times_select. reflexivity.
Qed.

(** * Semantics of result cells over the reals *)

Definition tcomp (k : nat) (a : Q * Q * Q) : Q :=
  match k with
  | 0%nat => fst (fst a)
  | 1%nat => snd (fst a)
  | _ => snd a
  end.

Lemma tcomp_rph_of : forall cs r k, is_rph k = true -> tcomp k (rph_of cs r) = get 0 cs r k.
Proof.
  intros cs r k Hk. destruct k as [| [| [| k]]]; try reflexivity. discriminate.
Qed.

Lemma Q2R_Z : forall z : Z, Q2R (inject_Z z) = IZR z.
Proof. intro z. unfold Q2R. simpl. field. Qed.

Lemma Q2R_half : Q2R (1 # 2) = (/ 2)%R.
Proof. unfold Q2R. simpl. lra. Qed.

Lemma Q2R_zero : Q2R 0 = 0%R.
Proof. exact (Q2R_Z 0). Qed.

Section Semantics.
  (** Euler triple read back from an interpolated rotation, and scipy's
      from_euler -> Slerp -> as_euler composite on one interval *)
  Variable ang : Type.
  Variable slerp : Q * Q * Q -> Q * Q * Q -> Q -> ang.
  (** component k (0 roll, 1 pitch, 2 heading; degrees) of such a triple *)
  Variable comp : nat -> ang -> R.
  (** the rph triples that [as_euler] returns unchanged: roll and heading in
      (-180, 180], |pitch| < 90 *)
  Variable canon : Q * Q * Q -> Prop.
  (** [earth.principal_radii]: rn and rp as functions of (lat, alt) *)
  Variable rn rp : R -> R -> R.

  (** External behaviour of scipy (validated numerically by the harness to 1e-9 deg;
      in binary64 it holds only up to rounding ~1e-14 deg: known finding rph-self-diff-rounding). *)
  Hypothesis slerp_start : forall a b s k,
    canon a -> s == 0 -> comp k (slerp a b s) = Q2R (tcomp k a).
  Hypothesis slerp_end : forall a b s k,
    canon b -> s == 1 -> comp k (slerp a b s) = Q2R (tcomp k b).

  Notation val := (val ang).
  Notation dval := (dval ang).
  Notation interp_cell := (interp_cell ang slerp).
  Notation interp_row := (interp_row ang slerp).
  Notation resample_state := (resample_state ang slerp).
  Notation diff_cell := (diff_cell ang).
  Notation diff_row := (diff_row ang).
  Notation diff_core := (diff_core ang slerp).
  Notation state_diff := (state_diff ang slerp).
  Notation series_diff := (series_diff ang).
  Notation dtable := (dtable ang).
  Notation rtable := (rtable ang).

  Definition valR (v : val) : R :=
    match v with VQ q => Q2R q | VA k a => comp k a end.

  (** [difference.lat *= rn * DEG_TO_RAD; difference.lon *= rp * DEG_TO_RAD;
      difference.alt *= -1] *)
  Definition metres (k : nat) (d mlat malt : R) : R :=
    if Nat.eqb k c_lat then (d * (rn mlat malt * (PI / 180)))%R
    else if Nat.eqb k c_lon then (d * (rp mlat malt * (PI / 180)))%R
    else (d * -1)%R.

  Definition dvalR (d : dval) : R :=
    match d with
    | DQ q => Q2R q
    | DA sg f s => to_180_range_arr_r (Q2R sg * (Q2R f - valR s))
    | DP k d mlat malt => metres k (Q2R d) (Q2R mlat) (Q2R malt)
    end.
  Definition is_angle (d : dval) : bool :=
    match d with DA _ _ _ => true | _ => false end.

  (** what a difference cell of column c is, as a function of the two rows'
      real values *)
  Definition ideal (sg : R) (lla rph : bool) (c : nat) (fv sv : nat -> R) : R :=
    if rph && is_rph c then to_180_range_arr_r (sg * (fv c - sv c))
    else if lla && is_lla c
         then metres c (sg * (fv c - sv c)) ((fv c_lat + sv c_lat) / 2) ((fv c_alt + sv c_alt) / 2)
         else (sg * (fv c - sv c))%R.

  (** [ideal] is [post] of the raw difference [sg * (fv c - sv c)] and of the mean
      latitude and altitude: wrapped for an attitude column, scaled to metres for
      a position column, left alone otherwise *)
  Definition post (lla rph : bool) (c : nat) (d mlat malt : R) : R :=
    if rph && is_rph c then to_180_range_arr_r d
    else if lla && is_lla c then metres c d mlat malt else d.

  Lemma ideal_post : forall sg lla rph c fv sv,
    ideal sg lla rph c fv sv
    = post lla rph c (sg * (fv c - sv c))
           ((fv c_lat + sv c_lat) / 2) ((fv c_alt + sv c_alt) / 2).
  Proof. reflexivity. Qed.

  Definition well_formed (t : table) : Prop :=
    (2 <= length (rows t))%nat /\ incr (times t).
  Definition canon_table (t : table) : Prop :=
    has_all rph_cols (cols t) = true ->
    forall r, In r (rows t) -> canon (rph_of (cols t) (snd r)).

  Lemma wf_table_well_formed : forall t, wf_table t = true -> well_formed t.
  Proof.
    intros t H. unfold wf_table in H. rewrite !andb_true_iff in H.
    destruct H as [[H1 H2] _]. split.
    - apply Nat.leb_le. exact H1.
    - apply increasingb_incr. exact H2.
  Qed.

  Lemma bracket_spec : forall st t, well_formed st -> in_span st t = true ->
    let b := bracket (rows st) t in
    (exists pre post, rows st = pre ++ fst b :: snd b :: post) /\
    fst (fst b) <= t <= fst (snd b) /\ fst (fst b) < fst (snd b) /\
    forall x, In x (rows st) -> t == fst x -> fst b = x \/ snd b = x.
  Proof.
    intros st t [Hlen Hinc] Hspan. apply in_span_iff in Hspan.
    unfold first_time, last_time, times in *.
    destruct (rows st) as [| lo [| hi rest]]; try (simpl in Hlen; lia).
    apply (locate_spec (hi :: rest) lo t (0, [])); [discriminate | exact Hinc | apply Hspan ..].
  Qed.

  (** the cell of column c in [interp_row st t] *)
  Definition row_cell (st : table) (t : Q) (c : nat) : val :=
    interp_cell (cols st) (has_all rph_cols (cols st)) t
                (fst (bracket (rows st) t)) (snd (bracket (rows st) t)) c.

  Lemma interp_row_eq : forall st t, interp_row st t = map (row_cell st t) (cols st).
  Proof. reflexivity. Qed.

  Lemma interp_row_get : forall st t c, In c (cols st) ->
    get (VQ 0) (cols st) (interp_row st t) c = row_cell st t c.
  Proof. intros st t c Hc. rewrite interp_row_eq. apply get_map. exact Hc. Qed.

  Lemma r_rows_resample : forall st ts,
    r_rows (resample_state st ts)
    = map (fun t => (t, interp_row st t)) (filter (in_span st) (isort ts)).
  Proof. reflexivity. Qed.

  Lemma interp_cell_knot : forall cs rph t lo hi x c,
    fst lo < fst hi -> t == fst x -> lo = x \/ hi = x ->
    (rph = true -> canon (rph_of cs (snd x))) ->
    valR (interp_cell cs rph t lo hi c) = Q2R (get 0 cs (snd x) c).
  Proof.
    intros cs rph t lo hi x c Hlt Ht Hx Hcanon.
    assert (Hw : (lo = x /\ w_hi t (fst lo) (fst hi) == 0) \/
                 (hi = x /\ w_hi t (fst lo) (fst hi) == 1)).
    { destruct Hx as [<- | <-]; [left | right]; (split; [reflexivity |]);
        [apply w_hi_at_lo | apply w_hi_at_hi]; assumption. }
    unfold Model.StateDiff.interp_cell. destruct (rph && is_rph c) eqn:Eflag; cbn [valR].
    - apply andb_true_iff in Eflag. destruct Eflag as [Hrph Hc].
      destruct Hw as [[<- Hw] | [<- Hw]]; [rewrite slerp_start | rewrite slerp_end]; auto;
        rewrite tcomp_rph_of by exact Hc; reflexivity.
    - apply Qeq_eqR. rewrite lerp_linear by exact Hlt.
      destruct Hw as [[<- Hw] | [<- Hw]]; rewrite Hw; ring.
  Qed.

  Lemma row_cell_knot : forall st t x c,
    well_formed st -> canon_table st -> In x (rows st) -> t == fst x ->
    valR (row_cell st t c) = Q2R (get 0 (cols st) (snd x) c).
  Proof.
    intros st t x c Hwf Hcan Hin Ht.
    assert (Hspan : in_span st t = true).
    { apply in_span_iff. rewrite Ht. apply in_span_iff, knot_in_span; [apply Hwf |].
      apply in_map. exact Hin. }
    destruct (bracket_spec st t Hwf Hspan) as [_ [_ [Hlt Hx]]].
    apply interp_cell_knot; [exact Hlt | exact Ht | exact (Hx x Hin Ht) |].
    intro Hr. exact (Hcan Hr x Hin).
  Qed.

  Lemma rows_select : forall C t,
    rows (select C t) = map (fun r => (fst r, map (get 0 (cols t) (snd r)) C)) (rows t).
  Proof. reflexivity. Qed.

  Lemma well_formed_select : forall C t, well_formed t -> well_formed (select C t).
  Proof.
    intros C t [H1 H2]. split.
    - rewrite rows_select, map_length. exact H1.
    - rewrite times_select. exact H2.
  Qed.

  Lemma rph_of_select : forall C cs r,
    has_all rph_cols C = true -> rph_of C (map (get 0 cs r) C) = rph_of cs r.
  Proof.
    intros C cs r H. apply has_all_incl in H. unfold rph_of.
    rewrite !get_map; [reflexivity | | |]; apply H; simpl; auto.
  Qed.

  Lemma canon_select : forall C s, incl C (cols s) -> canon_table s -> canon_table (select C s).
  Proof.
    intros C s Hsub Hcan Hr r Hin. cbn [cols select] in Hr |- *.
    rewrite rows_select in Hin. apply in_map_iff in Hin. destruct Hin as [r0 [<- Hin0]].
    cbn [snd]. rewrite rph_of_select by exact Hr.
    apply Hcan; [| exact Hin0].
    apply has_all_incl. apply has_all_incl in Hr. exact (incl_tran Hr Hsub).
  Qed.

  Lemma col_inter_sub_l : forall c1 c2 c, In c (col_inter c1 c2) -> In c c1.
  Proof. intros c1 c2 c H. apply In_col_inter in H. apply H. Qed.

  (** ** The rows of a difference, without [combine] *)

  Definition core_cols (f s : table) : list nat := col_inter (cols f) (cols s).

  (** the cell of column c in the row of [diff_core sign f s] that stems from
      row [r] of [f] *)
  Definition core_cell (sign : Q) (f s : table) (r : Q * list Q) (c : nat) : dval :=
    diff_cell sign (has_all lla_cols (core_cols f s)) (has_all rph_cols (core_cols f s))
              (core_cols f s)
              (map (get 0 (cols f) (snd r)) (core_cols f s))
              (interp_row (select (core_cols f s) s) (fst r)) c.

  Definition core_row (sign : Q) (f s : table) (r : Q * list Q) : Q * list dval :=
    (fst r, map (core_cell sign f s r) (core_cols f s)).

  Lemma diff_core_cols : forall sign f s, d_cols (diff_core sign f s) = core_cols f s.
  Proof. reflexivity. Qed.

  Lemma diff_core_rows : forall sign f s, incr (times f) ->
    d_rows (diff_core sign f s)
    = map (core_row sign f s) (filter (fun r => in_span s (fst r)) (rows f)).
  Proof.
    intros sign f s Hinc. unfold Model.StateDiff.diff_core. cbn [d_rows].
    fold (core_cols f s). set (C := core_cols f s).
    (* the index is sorted already and lies in the span of [select C s] as well *)
    rewrite r_rows_resample, isort_id by (apply sorted_filter, incr_sorted, Hinc).
    rewrite (filter_ext _ _ (in_span_select C s)), filter_idem.
    unfold times. rewrite rows_select, !filter_map_comm. cbn [fst].
    rewrite combine_map_map, map_map. reflexivity.
  Qed.

  Lemma diff_core_index : forall sign f s, incr (times f) ->
    map fst (d_rows (diff_core sign f s)) = filter (in_span s) (times f).
  Proof.
    intros sign f s Hinc. rewrite diff_core_rows by exact Hinc. rewrite map_map.
    unfold times. rewrite filter_map_comm. apply map_ext. intro r. reflexivity.
  Qed.

  Lemma metres_zero : forall k a b, metres k 0 a b = 0%R.
  Proof.
    intros k a b. unfold metres.
    destruct (Nat.eqb k c_lat); [lra |]. destruct (Nat.eqb k c_lon); lra.
  Qed.

  Lemma metres_opp : forall k d a b, metres k (- d) a b = (- metres k d a b)%R.
  Proof.
    intros k d a b. unfold metres.
    destruct (Nat.eqb k c_lat); [lra |]. destruct (Nat.eqb k c_lon); lra.
  Qed.

  (** antisymmetry of a cell in its two operands: exact, except for an angle cell
      equal to 180, which is 180 in both orders *)
  Definition antisymR (angle : bool) (x y : R) : Prop :=
    if angle then (x <> 180%R -> y = (- x)%R) /\ (x = 180%R -> y = 180%R)
    else y = (- x)%R.

  Lemma post_zero : forall lla rph c a b, post lla rph c 0 a b = 0%R.
  Proof.
    intros lla rph c a b. unfold post.
    destruct (rph && is_rph c); [apply to180_arr_of_in_range; lra |].
    destruct (lla && is_lla c); [apply metres_zero | reflexivity].
  Qed.

  Lemma post_opp : forall lla rph c d a b,
    antisymR (rph && is_rph c) (post lla rph c d a b) (post lla rph c (- d) a b).
  Proof.
    intros lla rph c d a b. unfold post, antisymR.
    destruct (rph && is_rph c); [apply to180_arr_neg |].
    destruct (lla && is_lla c); [apply metres_opp | reflexivity].
  Qed.

  Lemma ideal_zero : forall sg lla rph c fv sv, fv c = sv c -> ideal sg lla rph c fv sv = 0%R.
  Proof.
    intros sg lla rph c fv sv E. rewrite ideal_post, E, Rminus_diag_eq, Rmult_0_r by reflexivity.
    apply post_zero.
  Qed.

  Lemma ideal_swap_operands : forall sg lla rph c fv sv,
    antisymR (rph && is_rph c) (ideal sg lla rph c fv sv) (ideal sg lla rph c sv fv).
  Proof.
    intros sg lla rph c fv sv. rewrite !ideal_post.
    replace (sg * (sv c - fv c))%R with (- (sg * (fv c - sv c)))%R by lra.
    rewrite (Rplus_comm (sv c_lat)), (Rplus_comm (sv c_alt)). apply post_opp.
  Qed.

  Lemma ideal_swap_sign : forall sg lla rph c fv sv,
    antisymR (rph && is_rph c) (ideal sg lla rph c fv sv) (ideal (- sg) lla rph c fv sv).
  Proof.
    intros sg lla rph c fv sv. rewrite !ideal_post, Ropp_mult_distr_l_reverse. apply post_opp.
  Qed.

  Lemma ideal_angle_range : forall sg lla rph c fv sv,
    rph && is_rph c = true -> (-180 < ideal sg lla rph c fv sv <= 180)%R.
  Proof.
    intros sg lla rph c fv sv H. unfold ideal. rewrite H. apply to180_arr_range_congruent.
  Qed.

  Lemma diff_cell_is_angle : forall sign lla rph C fr sr c,
    is_angle (diff_cell sign lla rph C fr sr c) = rph && is_rph c.
  Proof.
    intros. unfold Model.StateDiff.diff_cell.
    destruct (rph && is_rph c); [reflexivity |].
    destruct (lla && is_lla c); reflexivity.
  Qed.

  (** the second operand's value as a cell uses it: an attitude cell keeps the
      resampled cell itself, the others take the number out of it *)
  Definition sval (angle : bool) (v : val) : R := if angle then valR v else Q2R (valq v).

  Lemma dvalR_diff_cell : forall sg lla rph C fr sr c,
    dvalR (diff_cell sg lla rph C fr sr c)
    = ideal (Q2R sg) lla rph c (fun c' => Q2R (get 0 C fr c'))
            (fun c' => sval (rph && is_rph c) (get (VQ 0) C sr c')).
  Proof.
    intros. unfold Model.StateDiff.diff_cell, ideal, sval.
    destruct (rph && is_rph c); [reflexivity |].
    destruct (lla && is_lla c); cbn [dvalR];
      rewrite ?Q2R_mult, ?Q2R_minus, ?Q2R_plus, ?Q2R_half; [f_equal; lra | reflexivity].
  Qed.

  (** the second operand's cells that are not Slerp-interpolated are numbers *)
  Definition numeric (rph : bool) (C : list nat) (sr : list val) : Prop :=
    forall c, In c C -> rph && is_rph c = false ->
      Q2R (valq (get (VQ 0) C sr c)) = valR (get (VQ 0) C sr c).

  Lemma interp_row_numeric : forall st t,
    numeric (has_all rph_cols (cols st)) (cols st) (interp_row st t).
  Proof.
    intros st t c Hc Hf. rewrite interp_row_get by exact Hc.
    unfold row_cell, Model.StateDiff.interp_cell. rewrite Hf. reflexivity.
  Qed.

  (** [x] is the cell of column c of a difference over the columns C whose first
      and second operand have the real values [fv] and [sv] *)
  Definition cell_is (x : dval) (sg : R) (C : list nat) (c : nat) (fv sv : nat -> R) : Prop :=
    is_angle x = has_all rph_cols C && is_rph c /\
    dvalR x = ideal sg (has_all lla_cols C) (has_all rph_cols C) c fv sv.

  (** [ideal] looks at the two rows only in column c and, for a position column,
      in lat and alt: all of them columns of C *)
  Lemma diff_cell_is : forall sg C fr sr c fv sv, In c C ->
    (forall c', In c' C -> Q2R (get 0 C fr c') = fv c') ->
    numeric (has_all rph_cols C) C sr ->
    (forall c', In c' C -> valR (get (VQ 0) C sr c') = sv c') ->
    cell_is (diff_cell sg (has_all lla_cols C) (has_all rph_cols C) C fr sr c) (Q2R sg) C c fv sv.
  Proof.
    intros sg C fr sr c fv sv Hc Hf Hnum Hs. split; [apply diff_cell_is_angle |].
    rewrite dvalR_diff_cell. unfold ideal, sval.
    destruct (has_all rph_cols C && is_rph c) eqn:Er;
      [rewrite (Hf c Hc), (Hs c Hc); reflexivity |].
    rewrite (Hnum c Hc Er), (Hf c Hc), (Hs c Hc).
    destruct (has_all lla_cols C && is_lla c) eqn:El; [| reflexivity].
    apply andb_true_iff in El. destruct El as [Hl _]. apply has_all_incl in Hl.
    assert (Hlat : In c_lat C) by (apply Hl; simpl; auto).
    assert (Halt : In c_alt C) by (apply Hl; simpl; auto).
    rewrite (Hnum _ Hlat), (Hnum _ Halt) by apply andb_false_r.
    rewrite (Hf _ Hlat), (Hs _ Hlat), (Hf _ Halt), (Hs _ Halt). reflexivity.
  Qed.

  (** General position: the cell is [ideal] of r's values and the second operand's
      interpolated values at r's time. *)
  Lemma core_cell_is : forall sign f s r c, In c (core_cols f s) ->
    cell_is (core_cell sign f s r c) (Q2R sign) (core_cols f s) c
            (fun c => Q2R (get 0 (cols f) (snd r) c))
            (fun c => valR (get (VQ 0) (core_cols f s)
                                (interp_row (select (core_cols f s) s) (fst r)) c)).
  Proof.
    intros sign f s r c Hc.
    apply diff_cell_is; [exact Hc | | apply (interp_row_numeric (select _ s)) | reflexivity].
    intros c' Hc'. rewrite get_map by exact Hc'. reflexivity.
  Qed.

  (** At a stamp that both operands have, the second operand's values are its own
      row (interpolation at a knot returns the knot). *)
  Lemma core_cell_knot : forall sign f s t rf rs c,
    well_formed s -> canon_table s -> In (t, rs) (rows s) -> In c (core_cols f s) ->
    cell_is (core_cell sign f s (t, rf) c) (Q2R sign) (core_cols f s) c
            (fun c => Q2R (get 0 (cols f) rf c)) (fun c => Q2R (get 0 (cols s) rs c)).
  Proof.
    intros sign f s t rf rs c Hwf Hcan Hin Hc. unfold core_cell. set (C := core_cols f s) in *.
    apply diff_cell_is; [exact Hc | | apply (interp_row_numeric (select C s)) |];
      intros c' Hc'; cbn [fst snd].
    - rewrite get_map by exact Hc'. reflexivity.
    - pose proof (interp_row_get (select C s) t c' Hc') as G. cbn [cols select] in G.
      rewrite G, (row_cell_knot (select C s) t (t, map (get 0 (cols s) rs) C)).
      + cbn [cols select snd]. rewrite get_map by exact Hc'. reflexivity.
      + apply well_formed_select. exact Hwf.
      + apply canon_select; [| exact Hcan]. intros x Hx. apply In_col_inter in Hx. apply Hx.
      + exact (in_map (fun r => (fst r, map (get 0 (cols s) (snd r)) C)) _ _ Hin).
      + reflexivity.
  Qed.

  (** [(sign, first, second)] after the operand swap *)
  Definition operands (a b : table) : Q * table * table :=
    if Qltb (median_dt a) (median_dt b) then (-1, b, a) else (1, a, b).

  Lemma state_diff_operands : forall a b,
    state_diff a b = diff_core (fst (fst (operands a b))) (snd (fst (operands a b))) (snd (operands a b)).
  Proof.
    intros a b. unfold Model.StateDiff.state_diff, operands.
    destruct (Qltb (median_dt a) (median_dt b)); reflexivity.
  Qed.

  Lemma state_diff_swap : forall a b, median_dt a < median_dt b ->
    state_diff a b = diff_core (-1) b a.
  Proof.
    intros a b H. unfold Model.StateDiff.state_diff.
    apply Qltb_iff in H. rewrite H. reflexivity.
  Qed.

  Lemma state_diff_noswap : forall a b, median_dt b <= median_dt a ->
    state_diff a b = diff_core 1 a b.
  Proof.
    intros a b H. unfold Model.StateDiff.state_diff.
    apply Qltb_false_iff in H. rewrite H. reflexivity.
  Qed.

  Definition cell_antisym (x y : dval) : Prop :=
    is_angle x = is_angle y /\ antisymR (is_angle x) (dvalR x) (dvalR y).

  (** same columns in the same order, same stamps, every cell negated (an angle
      cell equal to 180 stays 180) *)
  Definition table_antisym (d1 d2 : dtable) : Prop :=
    d_cols d1 = d_cols d2 /\
    Forall2 (fun r1 r2 => fst r1 = fst r2 /\ Forall2 cell_antisym (snd r1) (snd r2))
            (d_rows d1) (d_rows d2).

  Lemma diff_cell_neg_sign : forall sg sg' lla rph C fr sr c,
    sg' == - sg ->
    cell_antisym (diff_cell sg lla rph C fr sr c) (diff_cell sg' lla rph C fr sr c).
  Proof.
    intros sg sg' lla rph C fr sr c Hs. unfold cell_antisym.
    rewrite !diff_cell_is_angle, !dvalR_diff_cell, (Qeq_eqR _ _ Hs), Q2R_opp.
    split; [reflexivity | apply ideal_swap_sign].
  Qed.

  Lemma diff_core_neg_sign : forall sg sg' f s,
    sg' == - sg -> table_antisym (diff_core sg f s) (diff_core sg' f s).
  Proof.
    intros sg sg' f s Hs. split; [reflexivity |].
    unfold Model.StateDiff.diff_core. cbn [d_rows].
    apply Forall2_map_same. intro p. cbn [fst snd]. split; [reflexivity |].
    unfold Model.StateDiff.diff_row. apply Forall2_map_same. intro c.
    apply diff_cell_neg_sign. exact Hs.
  Qed.

  (** different median sampling intervals: one of the two calls swaps its
      operands, both interpolate the same table on the same stamps *)
  Theorem diff_antisym_swap : forall a b,
    ~ median_dt a == median_dt b -> table_antisym (state_diff a b) (state_diff b a).
  Proof.
    intros a b Hne.
    destruct (Q_dec (median_dt a) (median_dt b)) as [[H | H] | H]; [| | contradiction].
    - rewrite (state_diff_swap a b H), (state_diff_noswap b a (Qlt_le_weak _ _ H)).
      apply diff_core_neg_sign. reflexivity.
    - rewrite (state_diff_noswap a b (Qlt_le_weak _ _ H)), (state_diff_swap b a H).
      apply diff_core_neg_sign. reflexivity.
  Qed.

  Lemma cell_is_swap : forall x y sg C C' c fv sv,
    cell_is x sg C c fv sv -> cell_is y sg C' c sv fv ->
    has_all rph_cols C' = has_all rph_cols C -> has_all lla_cols C' = has_all lla_cols C ->
    cell_antisym x y.
  Proof.
    intros x y sg C C' c fv sv [A1 V1] [A2 V2] Er El. unfold cell_antisym.
    rewrite A1, A2, V1, V2, Er, El. split; [reflexivity | apply ideal_swap_operands].
  Qed.

  Lemma core_row_in : forall sign f s t rf rs,
    incr (times f) -> incr (times s) -> In (t, rf) (rows f) -> In (t, rs) (rows s) ->
    In (core_row sign f s (t, rf)) (d_rows (diff_core sign f s)).
  Proof.
    intros sign f s t rf rs Hf Hs Hin Hx. rewrite diff_core_rows by exact Hf.
    apply in_map. apply filter_In. split; [exact Hin |].
    apply knot_in_span; [exact Hs | exact (in_map fst _ _ Hx)].
  Qed.

  (** equal median sampling intervals: neither call swaps *)
  Lemma state_diff_eqmed : forall a b, median_dt a == median_dt b ->
    state_diff a b = diff_core 1 a b /\ state_diff b a = diff_core 1 b a.
  Proof. intros a b Hm. split; apply state_diff_noswap; rewrite Hm; apply Qle_refl. Qed.

  (** On every stamp that both tables have the two results are antisymmetric
      column by column (the column ORDER of each result is that of its own first
      argument).  Stamps that only one table has appear in only one of the two
      results: recorded finding equal-median-index-mismatch. *)
  Theorem diff_antisym_common_stamp : forall a b t ra rb,
    well_formed a -> well_formed b -> canon_table a -> canon_table b ->
    median_dt a == median_dt b ->
    In (t, ra) (rows a) -> In (t, rb) (rows b) ->
    exists cells1 cells2,
      In (t, cells1) (d_rows (state_diff a b)) /\ In (t, cells2) (d_rows (state_diff b a)) /\
      forall c, In c (cols a) -> In c (cols b) ->
        cell_antisym (get (DQ 0) (d_cols (state_diff a b)) cells1 c)
                     (get (DQ 0) (d_cols (state_diff b a)) cells2 c).
  Proof.
    intros a b t ra rb Ha Hb Hca Hcb Hm Hina Hinb.
    destruct (state_diff_eqmed a b Hm) as [-> ->].
    exists (snd (core_row 1 a b (t, ra))), (snd (core_row 1 b a (t, rb))).
    split; [| split].
    - apply (core_row_in 1 a b t ra rb); assumption || apply Ha || apply Hb.
    - apply (core_row_in 1 b a t rb ra); assumption || apply Ha || apply Hb.
    - intros c Hc1 Hc2. rewrite !diff_core_cols. cbn [snd core_row].
      assert (H1 : In c (core_cols a b)) by (apply In_col_inter; auto).
      assert (H2 : In c (core_cols b a)) by (apply In_col_inter; auto).
      rewrite !get_map by assumption.
      apply (cell_is_swap _ _ _ _ _ _ _ _ (core_cell_knot 1 a b t ra rb c Hb Hcb Hinb H1)
                          (core_cell_knot 1 b a t rb ra c Ha Hca Hina H2));
        apply has_all_col_inter_comm.
  Qed.

  (** equal index: every stamp is common, both results carry exactly that index *)
  Theorem diff_antisym_equal_index : forall a b,
    well_formed a -> well_formed b -> canon_table a -> canon_table b ->
    times a = times b ->
    map fst (d_rows (state_diff a b)) = times a /\
    map fst (d_rows (state_diff b a)) = times a /\
    forall t ra, In (t, ra) (rows a) ->
      exists rb cells1 cells2,
        In (t, rb) (rows b) /\
        In (t, cells1) (d_rows (state_diff a b)) /\ In (t, cells2) (d_rows (state_diff b a)) /\
        forall c, In c (cols a) -> In c (cols b) ->
          cell_antisym (get (DQ 0) (d_cols (state_diff a b)) cells1 c)
                       (get (DQ 0) (d_cols (state_diff b a)) cells2 c).
  Proof.
    intros a b Ha Hb Hca Hcb Et.
    assert (Hm : median_dt a == median_dt b) by (unfold median_dt; rewrite Et; reflexivity).
    destruct (state_diff_eqmed a b Hm) as [Eab Eba].
    split; [| split].
    - rewrite Eab, diff_core_index by apply Ha.
      apply filter_in_span_all; [apply Hb | rewrite Et; apply incl_refl].
    - rewrite Eba, diff_core_index, <- Et by apply Hb.
      apply filter_in_span_all; [apply Ha | apply incl_refl].
    - intros t ra Hin.
      assert (Ht : In t (times b)) by (rewrite <- Et; exact (in_map fst _ _ Hin)).
      apply in_map_iff in Ht. destruct Ht as [[t' rb] [E Hrb]]. simpl in E. subst t'.
      destruct (diff_antisym_common_stamp a b t ra rb Ha Hb Hca Hcb Hm Hin Hrb)
        as [c1 [c2 H]].
      exists rb, c1, c2. split; [exact Hrb | exact H].
  Qed.

  Definition zero_table (d : dtable) (C : list nat) (ts : list Q) : Prop :=
    d_cols d = C /\ map fst (d_rows d) = ts /\
    Forall (fun r => length (snd r) = length C /\ Forall (fun x => dvalR x = 0%R) (snd r))
           (d_rows d).

  (** [b] is a sub-sampling of [a]: same columns, every row of [b] is a row of [a] *)
  Definition subsample (b a : table) : Prop := cols b = cols a /\ incl (rows b) (rows a).

  Lemma diff_core_zero : forall sg f s,
    incr (times f) -> well_formed s -> canon_table s -> subsample f s ->
    zero_table (diff_core sg f s) (cols f) (times f).
  Proof.
    intros sg f s Hf Hs Hcan [Ec Hincl].
    assert (EC : core_cols f s = cols f).
    { unfold core_cols. rewrite Ec. apply col_inter_self. }
    split; [exact EC | split].
    - rewrite diff_core_index by exact Hf.
      apply filter_in_span_all; [apply Hs | apply incl_map; exact Hincl].
    - rewrite diff_core_rows by exact Hf. apply Forall_map, Forall_forall.
      intros [t rf] Hr. apply filter_In in Hr. destruct Hr as [Hr _]. cbn [snd core_row].
      rewrite map_length, Forall_map, Forall_forall. split; [rewrite EC; reflexivity |].
      intros c Hc. destruct (core_cell_knot sg f s t rf rf c Hs Hcan (Hincl _ Hr) Hc) as [_ ->].
      apply ideal_zero. rewrite Ec. reflexivity.
  Qed.

  Theorem diff_self_zero : forall a,
    well_formed a -> canon_table a -> zero_table (state_diff a a) (cols a) (times a).
  Proof.
    intros a Ha Hc. rewrite state_diff_noswap by apply Qle_refl.
    apply diff_core_zero; [apply Ha | exact Ha | exact Hc |].
    split; [reflexivity | apply incl_refl].
  Qed.

  (** [a] the full table, [b] a sub-sampling of it.  The code interpolates the
      full table at the sub-sampling's stamps -- and then the result is zero --
      exactly when it recognises [a] as the denser table: strictly smaller median
      interval for [state_diff a b], smaller or equal for [state_diff b a].
      Outside these hypotheses the statement is FALSE (recorded findings
      subsample-equal-median-nonzero / subsample-smaller-median-nonzero, see
      [subsample_equal_median_witness], [subsample_smaller_median_witness]). *)
  Theorem diff_subsample_zero : forall a b,
    well_formed a -> well_formed b -> canon_table a -> subsample b a ->
    (median_dt a < median_dt b -> zero_table (state_diff a b) (cols b) (times b)) /\
    (median_dt a <= median_dt b -> zero_table (state_diff b a) (cols b) (times b)).
  Proof.
    intros a b Ha Hb Hc Hsub. split; intro Hm.
    - rewrite state_diff_swap by exact Hm. apply diff_core_zero; try assumption. apply Hb.
    - rewrite state_diff_noswap by exact Hm. apply diff_core_zero; try assumption. apply Hb.
  Qed.

  (** Index, columns and cells of a difference of two tables ([sign], [f], [s] are
      the operands after the swap): the columns are the common columns in the order
      of [f]; the index is [f]'s stamps inside the span of [s]; the cell of column
      c is [ideal]: to_180_range(sign (f - s)) for an attitude column (all of
      roll/pitch/heading common), sign (f - s) scaled to metres with the radii at
      the mean latitude and altitude for a position column (all of lat/lon/alt
      common), sign (f - s) otherwise; s is interpolated at the stamp. *)
  Theorem diff_cells : forall a b, incr (times a) -> incr (times b) ->
    let sign := fst (fst (operands a b)) in
    let f := snd (fst (operands a b)) in
    let s := snd (operands a b) in
    let C := col_inter (cols f) (cols s) in
    d_cols (state_diff a b) = C /\
    map fst (d_rows (state_diff a b)) = filter (in_span s) (times f) /\
    forall row, In row (d_rows (state_diff a b)) ->
      exists rf, In (fst row, rf) (rows f) /\ length (snd row) = length C /\
        forall c, In c C ->
          cell_is (get (DQ 0) C (snd row) c) (Q2R sign) C c
                  (fun c => Q2R (get 0 (cols f) rf c))
                  (fun c => valR (get (VQ 0) C (interp_row (select C s) (fst row)) c)).
  Proof.
    intros a b Ha Hb sign f s C.
    assert (Hf : incr (times f)).
    { unfold f, operands. destruct (Qltb (median_dt a) (median_dt b)); assumption. }
    rewrite state_diff_operands. fold sign f s.
    split; [reflexivity |]. split; [apply diff_core_index; exact Hf |].
    intros row Hrow. rewrite diff_core_rows in Hrow by exact Hf.
    apply in_map_iff in Hrow. destruct Hrow as [[t rf] [<- Hr]]. apply filter_In in Hr.
    exists rf. split; [apply Hr |]. split; [apply map_length |].
    intros c Hc. cbn [snd core_row]. fold (core_cols f s) in C. subst C.
    rewrite get_map by exact Hc. apply core_cell_is. exact Hc.
  Qed.

  Lemma ideal_attitude : forall sg lla c fv sv, is_rph c = true ->
    ideal sg lla true c fv sv = to_180_range_arr_r (sg * (fv c - sv c)).
  Proof. intros. unfold ideal. rewrite H. reflexivity. Qed.

  Lemma ideal_north : forall sg rph fv sv,
    ideal sg true rph c_lat fv sv
    = (sg * (fv c_lat - sv c_lat)
       * (rn ((fv c_lat + sv c_lat) / 2) ((fv c_alt + sv c_alt) / 2) * (PI / 180)))%R.
  Proof. intros. unfold ideal. rewrite andb_false_r. reflexivity. Qed.

  Lemma ideal_east : forall sg rph fv sv,
    ideal sg true rph c_lon fv sv
    = (sg * (fv c_lon - sv c_lon)
       * (rp ((fv c_lat + sv c_lat) / 2) ((fv c_alt + sv c_alt) / 2) * (PI / 180)))%R.
  Proof. intros. unfold ideal. rewrite andb_false_r. reflexivity. Qed.

  Lemma ideal_down : forall sg rph fv sv,
    ideal sg true rph c_alt fv sv = (- (sg * (fv c_alt - sv c_alt)))%R.
  Proof. intros. unfold ideal. rewrite andb_false_r. cbn. lra. Qed.

  Lemma ideal_plain : forall sg lla rph c fv sv,
    rph && is_rph c = false -> lla && is_lla c = false ->
    ideal sg lla rph c fv sv = (sg * (fv c - sv c))%R.
  Proof. intros sg lla rph c fv sv H1 H2. unfold ideal. rewrite H1, H2. reflexivity. Qed.

  (** two Series with the same labels *)
  Theorem series_diff_cells : forall cs r1 r2 c, In c cs ->
    cell_is (get (DQ 0) cs (series_diff cs r1 r2) c) 1 cs c
            (fun c => Q2R (get 0 cs r1 c)) (fun c => Q2R (get 0 cs r2 c)).
  Proof.
    intros cs r1 r2 c Hc.
    assert (G : forall c', get (@VQ ang 0) cs (map (@VQ ang) r2) c' = VQ (get 0 cs r2 c')).
    { intro c'. unfold get. apply (map_nth (@VQ ang)). }
    unfold Model.StateDiff.series_diff, Model.StateDiff.diff_row.
    rewrite get_map, <- (Q2R_Z 1) by exact Hc.
    apply diff_cell_is; [exact Hc | reflexivity | |]; intros c' _; rewrite G; reflexivity.
  Qed.

  Theorem series_diff_antisym : forall cs r1 r2 c, In c cs ->
    cell_antisym (get (DQ 0) cs (series_diff cs r1 r2) c)
                 (get (DQ 0) cs (series_diff cs r2 r1) c).
  Proof.
    intros cs r1 r2 c Hc.
    exact (cell_is_swap _ _ _ _ _ _ _ _ (series_diff_cells cs r1 r2 c Hc)
                        (series_diff_cells cs r2 r1 c Hc) eq_refl eq_refl).
  Qed.

  Theorem resample_cols : forall st ts, r_cols (resample_state st ts) = cols st.
  Proof. reflexivity. Qed.

  Lemma resample_index_eq : forall st ts,
    map fst (r_rows (resample_state st ts)) = filter (in_span st) (isort ts).
  Proof.
    intros st ts. rewrite r_rows_resample, map_map. apply map_id.
  Qed.

  (** output sorted; exactly the requested times that lie in the span, with
      multiplicity *)
  Theorem resample_index : forall st ts,
    sorted (map fst (r_rows (resample_state st ts))) /\
    Permutation (filter (in_span st) ts) (map fst (r_rows (resample_state st ts))) /\
    forall t, In t (map fst (r_rows (resample_state st ts))) <->
              In t ts /\ first_time st <= t /\ t <= last_time st.
  Proof.
    intros st ts. rewrite resample_index_eq. split; [| split].
    - apply sorted_filter. apply isort_sorted.
    - apply filter_perm. apply isort_perm.
    - intro t. rewrite filter_In, in_span_iff. split; intros [H1 H2]; split; try exact H2.
      + apply (Permutation_in _ (Permutation_sym (isort_perm ts))). exact H1.
      + apply (Permutation_in _ (isort_perm ts)). exact H1.
  Qed.

  Theorem resample_row : forall st ts t row,
    In (t, row) (r_rows (resample_state st ts)) ->
    row = interp_row st t /\ length row = length (cols st).
  Proof.
    intros st ts t row H. rewrite r_rows_resample in H.
    apply in_map_iff in H. destruct H as [t' [E _]]. inversion E; subst.
    split; [reflexivity | apply map_length].
  Qed.

  (** original rows at original times *)
  Theorem resample_at_knot : forall st ts t0 r0,
    well_formed st -> canon_table st -> In (t0, r0) (rows st) -> In t0 ts ->
    In (t0, interp_row st t0) (r_rows (resample_state st ts)) /\
    (forall c, In c (cols st) ->
       valR (get (VQ 0) (cols st) (interp_row st t0) c) = Q2R (get 0 (cols st) r0 c)) /\
    (NoDup (cols st) -> length r0 = length (cols st) ->
       map valR (interp_row st t0) = map Q2R r0).
  Proof.
    intros st ts t0 r0 Hwf Hcan Hin Hts.
    assert (Hcell : forall c, valR (row_cell st t0 c) = Q2R (get 0 (cols st) r0 c)).
    { intro c. apply (row_cell_knot st t0 (t0, r0) c Hwf Hcan Hin). reflexivity. }
    split; [| split].
    - rewrite r_rows_resample. apply (in_map (fun t => (t, interp_row st t))).
      apply filter_In. split; [apply (Permutation_in _ (isort_perm ts)); exact Hts |].
      apply knot_in_span; [apply Hwf | exact (in_map fst _ _ Hin)].
    - intros c Hc. rewrite interp_row_get by exact Hc. apply Hcell.
    - intros Hnd Hlen. rewrite <- (map_get_id _ 0 (cols st) r0 Hnd Hlen).
      rewrite interp_row_eq, !map_map. apply map_ext. exact Hcell.
  Qed.

  (** linear elsewhere: between two consecutive rows [lo], [hi] of the table with
      [fst lo <= t <= fst hi], every column that is not Slerp-interpolated is the
      straight line through the two rows; attitude (all of roll/pitch/heading
      present) is [slerp] of the two rows at the same parameter in [0, 1] *)
  Theorem resample_between : forall st t,
    well_formed st -> in_span st t = true ->
    exists pre lo hi post,
      rows st = pre ++ lo :: hi :: post /\ fst lo <= t <= fst hi /\ fst lo < fst hi /\
      0 <= w_hi t (fst lo) (fst hi) <= 1 /\
      forall c, In c (cols st) ->
        (has_all rph_cols (cols st) && is_rph c = false ->
           exists q, get (VQ 0) (cols st) (interp_row st t) c = VQ q /\
             q == get 0 (cols st) (snd lo) c
                  + (t - fst lo) / (fst hi - fst lo)
                    * (get 0 (cols st) (snd hi) c - get 0 (cols st) (snd lo) c)) /\
        (has_all rph_cols (cols st) && is_rph c = true ->
           get (VQ 0) (cols st) (interp_row st t) c
           = VA c (slerp (rph_of (cols st) (snd lo)) (rph_of (cols st) (snd hi))
                         (w_hi t (fst lo) (fst hi)))).
  Proof.
    intros st t Hwf Hspan.
    destruct (bracket_spec st t Hwf Hspan) as [[pre [post E]] [Hb [Hlt _]]].
    exists pre, (fst (bracket (rows st) t)), (snd (bracket (rows st) t)), post.
    split; [exact E |]. split; [exact Hb |]. split; [exact Hlt |].
    split; [exact (w_hi_range _ _ _ Hlt Hb) |].
    intros c Hc. rewrite interp_row_get by exact Hc.
    unfold row_cell, Model.StateDiff.interp_cell. split; intro Hflag; rewrite Hflag.
    - eexists. split; [reflexivity | apply lerp_linear; exact Hlt].
    - reflexivity.
  Qed.

  (** ** Perturbation recovered (algebraic part)

      [perturb_pva] adds [dn / rn(lat, alt)], [de / rp(lat, alt)] (in degrees) to
      lat, lon and subtracts [dd] from alt, adds the velocity and angle errors.
      The difference perturbed - original then reports exactly
      [dn * rn(mean) / rn(original)], [de * rp(mean) / rp(original)], [dd], the
      velocity error, and the wrapped angle error.  The ratios of radii are
      1 + O(|d| / R): that first-order closeness is checked numerically only. *)
  Theorem perturb_recovered_partial : forall lat alt dn de dd mlat malt x e,
    rn lat alt <> 0%R -> rp lat alt <> 0%R ->
    metres c_lat (1 * ((lat + dn / rn lat alt * (180 / PI)) - lat)) mlat malt
      = (dn * (rn mlat malt / rn lat alt))%R /\
    metres c_lon (1 * ((x + de / rp lat alt * (180 / PI)) - x)) mlat malt
      = (de * (rp mlat malt / rp lat alt))%R /\
    metres c_alt (1 * ((alt - dd) - alt)) mlat malt = dd /\
    (1 * ((x + e) - x) = e)%R /\
    ((-180 < e <= 180)%R -> to_180_range_arr_r (1 * ((x + e) - x)) = e).
  Proof.
    intros lat alt dn de dd mlat malt x e Hn Hp.
    assert (Hpi : PI <> 0%R) by (apply Rgt_not_eq; apply PI_RGT_0).
    unfold metres. cbn [Nat.eqb c_lat c_lon c_alt].
    repeat split; try (field; auto); try lra.
    intro He. replace (1 * (x + e - x))%R with e by lra. apply to180_arr_of_in_range. exact He.
  Qed.

End Semantics.

(** * Non-vacuity: the scipy hypotheses are satisfiable, the table hypotheses too *)

(** componentwise linear "slerp" on Euler triples: satisfies both endpoint
    hypotheses (it is NOT scipy's; it only shows the hypotheses are consistent) *)
Definition lin3 (a b : Q * Q * Q) (s : Q) : Q * Q * Q :=
  (fst (fst a) + s * (fst (fst b) - fst (fst a)),
   snd (fst a) + s * (snd (fst b) - snd (fst a)),
   snd a + s * (snd b - snd a)).
Definition lin_comp (k : nat) (x : Q * Q * Q) : R := Q2R (tcomp k x).
Definition any_triple (_ : Q * Q * Q) : Prop := True.

Lemma lin3_start : forall a b s k,
  any_triple a -> s == 0 -> lin_comp k (lin3 a b s) = Q2R (tcomp k a).
Proof.
  intros a b s k _ Hs. unfold lin_comp. apply Qeq_eqR.
  destruct k as [| [| k]]; simpl; rewrite Hs; ring.
Qed.

Lemma lin3_end : forall a b s k,
  any_triple b -> s == 1 -> lin_comp k (lin3 a b s) = Q2R (tcomp k b).
Proof.
  intros a b s k _ Hs. unfold lin_comp. apply Qeq_eqR.
  destruct k as [| [| k]]; simpl; rewrite Hs; ring.
Qed.

(** lat lon alt VN roll pitch heading at t = 0..4, and its sub-sampling t = 0, 2, 4 *)
Definition ex_cols : list nat := [3; 4; 5; 6; 0; 1; 2]%nat.
Definition ex_full : table := mkTable ex_cols
  [ (0, [50; 30; 100; 0; 1; 2; 170]);
    (1, [50 + (1 # 1024); 30; 101; 1; 2; 2; 175]);
    (2, [50 + (2 # 1024); 30 + (1 # 1024); 103; 4; 3; 1; 180]);
    (3, [50 + (3 # 1024); 30 + (2 # 1024); 102; 9; 2; 0; -175]);
    (4, [50 + (4 # 1024); 30 + (2 # 1024); 100; 16; 1; -1; -170]) ].
Definition ex_sub : table := mkTable ex_cols
  [ (0, [50; 30; 100; 0; 1; 2; 170]);
    (2, [50 + (2 # 1024); 30 + (1 # 1024); 103; 4; 3; 1; 180]);
    (4, [50 + (4 # 1024); 30 + (2 # 1024); 100; 16; 1; -1; -170]) ].

(** a concrete table with the same columns whose rows are found among the other's *)
Ltac subsample_by_lookup :=
  split; [reflexivity | repeat (apply incl_cons; [simpl; auto 10 |]); apply incl_nil_l].

Lemma ex_tables_ok :
  wf_table ex_full = true /\ wf_table ex_sub = true /\
  subsample ex_sub ex_full /\ median_dt ex_full < median_dt ex_sub /\
  ~ median_dt ex_full == median_dt ex_sub /\
  canon_table any_triple ex_full /\ canon_table any_triple ex_sub /\
  NoDup (cols ex_full).
Proof.
  split; [vm_compute; reflexivity |]. split; [vm_compute; reflexivity |].
  split; [subsample_by_lookup |].
  split; [vm_compute; reflexivity |].
  split; [intro H; vm_compute in H; discriminate |].
  split; [intros _ r _; exact I |]. split; [intros _ r _; exact I |].
  unfold ex_full, ex_cols, cols. repeat constructor; simpl; intuition discriminate.
Qed.

(** * The recorded findings exhibited in the model (the model is faithful there) *)

(** finding subsample-equal-median-nonzero: VN = t^2 at t = 0..6 against the same
    table without t = 4; both medians are 1, nothing is swapped, the sub-sampling
    is interpolated at t = 4: 16 - 17 = -1 *)
Definition f1_full : table := mkTable [6%nat]
  [ (0, [0]); (1, [1]); (2, [4]); (3, [9]); (4, [16]); (5, [25]); (6, [36]) ].
Definition f1_sub : table := mkTable [6%nat]
  [ (0, [0]); (1, [1]); (2, [4]); (3, [9]); (5, [25]); (6, [36]) ].

Lemma subsample_equal_median_witness : forall ang slerp comp rn rp,
  wf_table f1_full = true /\ wf_table f1_sub = true /\ subsample f1_sub f1_full /\
  median_dt f1_full == median_dt f1_sub /\
  exists q, In (4, [DQ q]) (d_rows (state_diff ang slerp f1_full f1_sub)) /\
            dvalR ang comp rn rp (DQ q) = (-1)%R.
Proof.
  intros ang slerp comp rn rp.
  split; [vm_compute; reflexivity |]. split; [vm_compute; reflexivity |].
  split; [subsample_by_lookup |].
  split; [vm_compute; reflexivity |].
  eexists. split; [vm_compute; do 4 right; left; reflexivity |].
  cbn [dvalR]. rewrite <- (Q2R_Z (-1)). apply Qeq_eqR. vm_compute. reflexivity.
Qed.

(** finding subsample-smaller-median-nonzero: irregular sampling, the sub-sampling
    has the SMALLER median interval (1 against 10); the full table is taken as the
    sparser one and the sub-sampling is interpolated at t = 12: 9 - 11 = -2 *)
Definition f2_full : table := mkTable [6%nat]
  [ (0, [0]); (1, [1]); (2, [4]); (12, [9]); (22, [16]); (32, [25]) ].
Definition f2_sub : table := mkTable [6%nat]
  [ (0, [0]); (1, [1]); (2, [4]); (32, [25]) ].

Lemma subsample_smaller_median_witness : forall ang slerp comp rn rp,
  wf_table f2_full = true /\ wf_table f2_sub = true /\ subsample f2_sub f2_full /\
  median_dt f2_sub < median_dt f2_full /\
  (exists q, In (12, [DQ q]) (d_rows (state_diff ang slerp f2_full f2_sub)) /\
             dvalR ang comp rn rp (DQ q) = (-2)%R) /\
  (exists q, In (12, [DQ q]) (d_rows (state_diff ang slerp f2_sub f2_full)) /\
             dvalR ang comp rn rp (DQ q) = 2%R).
Proof.
  intros ang slerp comp rn rp.
  split; [vm_compute; reflexivity |]. split; [vm_compute; reflexivity |].
  split; [subsample_by_lookup |].
  split; [vm_compute; reflexivity |].
  split; eexists; (split; [vm_compute; do 3 right; left; reflexivity |]); cbn [dvalR].
  - rewrite <- (Q2R_Z (-2)). apply Qeq_eqR. vm_compute. reflexivity.
  - rewrite <- (Q2R_Z 2). apply Qeq_eqR. vm_compute. reflexivity.
Qed.

(** finding equal-median-index-mismatch: same rate, offset stamps; neither call
    swaps, each result is indexed by its own first argument *)
Definition f3_a : table := mkTable [6%nat] [ (0, [0]); (1, [1]); (2, [2]); (3, [3]) ].
Definition f3_b : table := mkTable [6%nat]
  [ (1 # 2, [0]); (3 # 2, [1]); (5 # 2, [2]); (7 # 2, [3]) ].

Lemma equal_median_index_mismatch_witness : forall ang slerp,
  wf_table f3_a = true /\ wf_table f3_b = true /\ median_dt f3_a == median_dt f3_b /\
  map fst (d_rows (state_diff ang slerp f3_a f3_b)) = [1; 2; 3] /\
  map fst (d_rows (state_diff ang slerp f3_b f3_a)) = [1 # 2; 3 # 2; 5 # 2].
Proof.
  intros ang slerp. repeat split; vm_compute; reflexivity.
Qed.

(** the theorems applied to the concrete tables (their hypotheses are jointly
    satisfiable on a table with position, velocity and attitude columns) *)
Lemma ex_zero : forall rn rp,
  zero_table _ lin_comp rn rp (state_diff _ lin3 ex_full ex_full) (cols ex_full) (times ex_full) /\
  zero_table _ lin_comp rn rp (state_diff _ lin3 ex_full ex_sub) (cols ex_sub) (times ex_sub) /\
  zero_table _ lin_comp rn rp (state_diff _ lin3 ex_sub ex_full) (cols ex_sub) (times ex_sub) /\
  table_antisym _ lin_comp rn rp (state_diff _ lin3 ex_full ex_sub) (state_diff _ lin3 ex_sub ex_full).
Proof.
  intros rn rp.
  destruct ex_tables_ok as [Wf [Ws [Hsub [Hlt [Hne [Cf [Cs _]]]]]]].
  apply wf_table_well_formed in Wf. apply wf_table_well_formed in Ws.
  pose proof (diff_subsample_zero _ lin3 lin_comp any_triple rn rp lin3_start lin3_end
                ex_full ex_sub Wf Ws Cf Hsub) as [Z1 Z2].
  split; [| split; [| split]].
  - exact (diff_self_zero _ lin3 lin_comp any_triple rn rp lin3_start lin3_end ex_full Wf Cf).
  - exact (Z1 Hlt).
  - exact (Z2 (Qlt_le_weak _ _ Hlt)).
  - apply diff_antisym_swap. exact Hne.
Qed.
