(** C17: attitude representations and rotation primitives are consistent.
    Theorems about the GENERATED definitions (mat_from_rotvec of Gen/NumbaIntegrate.v,
    mat_from_rph and mat_to_rph_of_rph of Gen/Transform.v, phi_to_delta_rph of Gen/C17Gen.v)
    against the closed-form exponential map and the as_euler spec of Spec/LibSpecs.v. *)
From Coq Require Import Reals Lra.
From Coquelicot Require Import Coquelicot.
From PV Require Import Base.RealTac Spec.LibSpecs Spec.LibSpecsFacts.
From PV Require Import Gen.NumbaIntegrate Gen.Transform Gen.C17Gen.
Open Scope R_scope.

(** * Vocabulary used in the statements (3x3 matrices as nine scalars, row-major) *)

(** A^T A = I (six independent equations) *)
Definition orthonormal3 (a00 a01 a02 a10 a11 a12 a20 a21 a22 : R) : Prop :=
  a00*a00 + a10*a10 + a20*a20 = 1 /\ a01*a01 + a11*a11 + a21*a21 = 1 /\
  a02*a02 + a12*a12 + a22*a22 = 1 /\ a00*a01 + a10*a11 + a20*a21 = 0 /\
  a00*a02 + a10*a12 + a20*a22 = 0 /\ a01*a02 + a11*a12 + a21*a22 = 0.

Definition det3 (a00 a01 a02 a10 a11 a12 a20 a21 a22 : R) : R :=
  a00 * (a11*a22 - a12*a21) - a01 * (a10*a22 - a12*a20) + a02 * (a10*a21 - a11*a20).

Definition mat_close (eps a00 a01 a02 a10 a11 a12 a20 a21 a22
                          b00 b01 b02 b10 b11 b12 b20 b21 b22 : R) : Prop :=
  Rabs (a00 - b00) <= eps /\ Rabs (a01 - b01) <= eps /\ Rabs (a02 - b02) <= eps /\
  Rabs (a10 - b10) <= eps /\ Rabs (a11 - b11) <= eps /\ Rabs (a12 - b12) <= eps /\
  Rabs (a20 - b20) <= eps /\ Rabs (a21 - b21) <= eps /\ Rabs (a22 - b22) <= eps.

Definition mat_eq (a00 a01 a02 a10 a11 a12 a20 a21 a22
                   b00 b01 b02 b10 b11 b12 b20 b21 b22 : R) : Prop :=
  a00 = b00 /\ a01 = b01 /\ a02 = b02 /\ a10 = b10 /\ a11 = b11 /\ a12 = b12 /\
  a20 = b20 /\ a21 = b21 /\ a22 = b22.

Section MatRel.
  Variables a00 a01 a02 a10 a11 a12 a20 a21 a22 b00 b01 b02 b10 b11 b12 b20 b21 b22
            c00 c01 c02 c10 c11 c12 c20 c21 c22 eps : R.

  Lemma mat_eq_trans :
    mat_eq a00 a01 a02 a10 a11 a12 a20 a21 a22 b00 b01 b02 b10 b11 b12 b20 b21 b22 ->
    mat_eq b00 b01 b02 b10 b11 b12 b20 b21 b22 c00 c01 c02 c10 c11 c12 c20 c21 c22 ->
    mat_eq a00 a01 a02 a10 a11 a12 a20 a21 a22 c00 c01 c02 c10 c11 c12 c20 c21 c22.
  Proof. intros (-> & -> & -> & -> & -> & -> & -> & -> & ->) H. exact H. Qed.

  Lemma mat_close_eq_l :
    mat_eq a00 a01 a02 a10 a11 a12 a20 a21 a22 b00 b01 b02 b10 b11 b12 b20 b21 b22 ->
    mat_close eps b00 b01 b02 b10 b11 b12 b20 b21 b22 c00 c01 c02 c10 c11 c12 c20 c21 c22 ->
    mat_close eps a00 a01 a02 a10 a11 a12 a20 a21 a22 c00 c01 c02 c10 c11 c12 c20 c21 c22.
  Proof. intros (-> & -> & -> & -> & -> & -> & -> & -> & ->) H. exact H. Qed.

  (* the equation is used from right to left: [p0_is_spec] and its like come in this direction *)
  Lemma mat_close_eq_r :
    mat_eq c00 c01 c02 c10 c11 c12 c20 c21 c22 b00 b01 b02 b10 b11 b12 b20 b21 b22 ->
    mat_close eps a00 a01 a02 a10 a11 a12 a20 a21 a22 b00 b01 b02 b10 b11 b12 b20 b21 b22 ->
    mat_close eps a00 a01 a02 a10 a11 a12 a20 a21 a22 c00 c01 c02 c10 c11 c12 c20 c21 c22.
  Proof. intros (-> & -> & -> & -> & -> & -> & -> & -> & ->) H. exact H. Qed.

  Lemma mat_eq_close : 0 <= eps ->
    mat_eq a00 a01 a02 a10 a11 a12 a20 a21 a22 b00 b01 b02 b10 b11 b12 b20 b21 b22 ->
    mat_close eps a00 a01 a02 a10 a11 a12 a20 a21 a22 b00 b01 b02 b10 b11 b12 b20 b21 b22.
  Proof.
    intros He (-> & -> & -> & -> & -> & -> & -> & -> & ->).
    repeat split; (rewrite Rminus_diag_eq, Rabs_R0 by reflexivity; exact He).
  Qed.
End MatRel.

(** * Rodrigues' formula on its coefficients

    M = c I + k1 [v x] + k2 v v^T.  The two identities that make M the rotation about v by
    the angle whose cosine is c, and the error of M when the coefficients are approximated,
    are polynomial in (c, k1, k2, v): nothing is divided by |v|, and v = 0 is no special case. *)

Lemma rodrigues_rotation c k1 k2 x y z m00 m01 m02 m10 m11 m12 m20 m21 m22 :
  k2 * (x*x + y*y + z*z) = 1 - c -> k1 * k1 = k2 * (1 + c) ->
  mat_eq m00 m01 m02 m10 m11 m12 m20 m21 m22
    (k2*x*x + c) (k2*x*y - k1*z) (k2*x*z + k1*y)
    (k2*y*x + k1*z) (k2*y*y + c) (k2*y*z - k1*x)
    (k2*z*x - k1*y) (k2*z*y + k1*x) (k2*z*z + c) ->
  orthonormal3 m00 m01 m02 m10 m11 m12 m20 m21 m22 /\
  det3 m00 m01 m02 m10 m11 m12 m20 m21 m22 = 1 /\
  (m00 * x + m01 * y + m02 * z = x /\ m10 * x + m11 * y + m12 * z = y /\
   m20 * x + m21 * y + m22 * z = z) /\
  m00 + m11 + m22 = 1 + 2 * c /\
  ((m21 - m12) / 2 = k1 * x /\ (m02 - m20) / 2 = k1 * y /\ (m10 - m01) / 2 = k1 * z).
Proof.
  intros Hc Hk (-> & -> & -> & -> & -> & -> & -> & -> & ->).
  assert (Ec : c = 1 - k2 * (x*x + y*y + z*z)) by lra. subst c.
  unfold orthonormal3, det3. repeat split; first [lra | ring [Hk]].
Qed.

(* Every coordinate of v is at most n = |v| in absolute value, so an error a in k2 moves an
   entry by at most |a| n^2 and an error b in k1 by at most |b| n.  The nine entries are then
   linear in the six products a p q, the three products b w and the error of c. *)
Lemma rodrigues_close eps n x y z c k1 k2 c' k1' k2' :
  0 <= n -> n * n = x*x + y*y + z*z ->
  Rabs ((k2' - k2) * (n * n)) + Rabs (c' - c) <= eps ->
  Rabs ((k2' - k2) * (n * n)) + Rabs ((k1' - k1) * n) <= eps ->
  mat_close eps
    (k2'*x*x + c') (k2'*x*y - k1'*z) (k2'*x*z + k1'*y)
    (k2'*y*x + k1'*z) (k2'*y*y + c') (k2'*y*z - k1'*x)
    (k2'*z*x - k1'*y) (k2'*z*y + k1'*x) (k2'*z*z + c')
    (k2*x*x + c) (k2*x*y - k1*z) (k2*x*z + k1*y)
    (k2*y*x + k1*z) (k2*y*y + c) (k2*y*z - k1*x)
    (k2*z*x - k1*y) (k2*z*y + k1*x) (k2*z*z + c).
Proof.
  intros Hn Hn2. set (a := k2' - k2). set (b := k1' - k1). intros Hd Ho.
  assert (A : forall w, w*w <= n*n -> Rabs w <= n) by (intros w Hw; apply Rabs_le; split; nra).
  assert (Q : forall p q, p*p <= n*n -> q*q <= n*n ->
              - Rabs (a * (n * n)) <= a * p * q <= Rabs (a * (n * n))).
  { intros p q Hp Hq. apply Rabs_le_between. rewrite !Rabs_mult, Rmult_assoc, (Rabs_pos_eq n Hn).
    apply Rmult_le_compat_l; [apply Rabs_pos|].
    apply Rmult_le_compat; auto using Rabs_pos. }
  assert (L : forall w, w*w <= n*n -> - Rabs (b * n) <= b * w <= Rabs (b * n)).
  { intros w Hw. apply Rabs_le_between. rewrite !Rabs_mult, (Rabs_pos_eq n Hn).
    apply Rmult_le_compat_l; [apply Rabs_pos|]. apply A, Hw. }
  assert (Hx : x*x <= n*n) by nra. assert (Hy : y*y <= n*n) by nra. assert (Hz : z*z <= n*n) by nra.
  pose proof (Q x x Hx Hx). pose proof (Q x y Hx Hy). pose proof (Q x z Hx Hz).
  pose proof (Q y y Hy Hy). pose proof (Q y z Hy Hz). pose proof (Q z z Hz Hz).
  pose proof (L x Hx). pose proof (L y Hy). pose proof (L z Hz).
  pose proof (proj1 (Rabs_le_between _ _) (Rle_refl (Rabs (c' - c)))).
  unfold a, b in *. repeat split; apply Rabs_le; lra.
Qed.

(* the coefficients of the closed form satisfy these for every v (at v = 0: k1 = 1, k2 = 1/2) *)
Lemma rv_coeffs x y z :
  rv_k2 x y z * (x*x + y*y + z*z) = 1 - rv_cos x y z /\
  rv_k1 x y z * rv_norm x y z = sin (rv_norm x y z) /\
  rv_k1 x y z * rv_k1 x y z = rv_k2 x y z * (1 + rv_cos x y z).
Proof.
  unfold rv_k1, rv_k2, rv_cos, rv_norm.
  assert (H0 : 0 <= x*x + y*y + z*z) by nra.
  pose proof (sqrt_sqrt _ H0) as Hn. pose proof (sc1 (sqrt (x*x + y*y + z*z))) as Hs.
  set (n := sqrt (x*x + y*y + z*z)) in *. rewrite <- Hn.
  destruct (Req_EM_T n 0) as [E|NE].
  - rewrite E, sin_0, cos_0. lra.
  - repeat split; try (field; exact NE).
    replace (sin n / n * (sin n / n)) with ((1 - cos n * cos n) / (n * n))
      by (rewrite <- Hs; field; exact NE).
    field. exact NE.
Qed.

(** * mat_from_rotvec above the threshold |v|^2 > 1e-6: the closed form *)

Ltac unf_rv_p0 :=
  unfold mat_from_rotvec_m00__p0, mat_from_rotvec_m01__p0, mat_from_rotvec_m02__p0,
    mat_from_rotvec_m10__p0, mat_from_rotvec_m11__p0, mat_from_rotvec_m12__p0,
    mat_from_rotvec_m20__p0, mat_from_rotvec_m21__p0, mat_from_rotvec_m22__p0;
  repeat autounfold with mat_from_rotvec_db.

Ltac unf_rv_p1 :=
  unfold mat_from_rotvec_m00__p1, mat_from_rotvec_m01__p1, mat_from_rotvec_m02__p1,
    mat_from_rotvec_m10__p1, mat_from_rotvec_m11__p1, mat_from_rotvec_m12__p1,
    mat_from_rotvec_m20__p1, mat_from_rotvec_m21__p1, mat_from_rotvec_m22__p1;
  repeat autounfold with mat_from_rotvec_db.

Ltac unf_rv_top :=
  unfold mat_from_rotvec_m00, mat_from_rotvec_m01, mat_from_rotvec_m02,
    mat_from_rotvec_m10, mat_from_rotvec_m11, mat_from_rotvec_m12,
    mat_from_rotvec_m20, mat_from_rotvec_m21, mat_from_rotvec_m22.

Lemma rv_branch_large x y z : x*x + y*y + z*z > 1/1000000 ->
  mat_eq (mat_from_rotvec_m00 x y z) (mat_from_rotvec_m01 x y z) (mat_from_rotvec_m02 x y z)
         (mat_from_rotvec_m10 x y z) (mat_from_rotvec_m11 x y z) (mat_from_rotvec_m12 x y z)
         (mat_from_rotvec_m20 x y z) (mat_from_rotvec_m21 x y z) (mat_from_rotvec_m22 x y z)
         (mat_from_rotvec_m00__p0 x y z) (mat_from_rotvec_m01__p0 x y z) (mat_from_rotvec_m02__p0 x y z)
         (mat_from_rotvec_m10__p0 x y z) (mat_from_rotvec_m11__p0 x y z) (mat_from_rotvec_m12__p0 x y z)
         (mat_from_rotvec_m20__p0 x y z) (mat_from_rotvec_m21__p0 x y z) (mat_from_rotvec_m22__p0 x y z).
Proof.
  intro H. unf_rv_top.
  destruct (Rgt_dec _ _) as [_|N]; [|autounfold with mat_from_rotvec_db in N; contradiction].
  repeat split; reflexivity.
Qed.

Lemma rv_branch_small x y z : x*x + y*y + z*z <= 1/1000000 ->
  mat_eq (mat_from_rotvec_m00 x y z) (mat_from_rotvec_m01 x y z) (mat_from_rotvec_m02 x y z)
         (mat_from_rotvec_m10 x y z) (mat_from_rotvec_m11 x y z) (mat_from_rotvec_m12 x y z)
         (mat_from_rotvec_m20 x y z) (mat_from_rotvec_m21 x y z) (mat_from_rotvec_m22 x y z)
         (mat_from_rotvec_m00__p1 x y z) (mat_from_rotvec_m01__p1 x y z) (mat_from_rotvec_m02__p1 x y z)
         (mat_from_rotvec_m10__p1 x y z) (mat_from_rotvec_m11__p1 x y z) (mat_from_rotvec_m12__p1 x y z)
         (mat_from_rotvec_m20__p1 x y z) (mat_from_rotvec_m21__p1 x y z) (mat_from_rotvec_m22__p1 x y z).
Proof.
  intro H. unf_rv_top.
  destruct (Rgt_dec _ _) as [G|_]; [autounfold with mat_from_rotvec_db in G; lra|].
  repeat split; reflexivity.
Qed.

Lemma p0_is_spec x y z : 0 < x*x + y*y + z*z ->
  mat_eq (mat_from_rotvec_m00__p0 x y z) (mat_from_rotvec_m01__p0 x y z) (mat_from_rotvec_m02__p0 x y z)
         (mat_from_rotvec_m10__p0 x y z) (mat_from_rotvec_m11__p0 x y z) (mat_from_rotvec_m12__p0 x y z)
         (mat_from_rotvec_m20__p0 x y z) (mat_from_rotvec_m21__p0 x y z) (mat_from_rotvec_m22__p0 x y z)
         (rotvec_m00 x y z) (rotvec_m01 x y z) (rotvec_m02 x y z)
         (rotvec_m10 x y z) (rotvec_m11 x y z) (rotvec_m12 x y z)
         (rotvec_m20 x y z) (rotvec_m21 x y z) (rotvec_m22 x y z).
Proof.
  intro Hpos.
  unfold rotvec_m00, rotvec_m01, rotvec_m02, rotvec_m10, rotvec_m11, rotvec_m12,
    rotvec_m20, rotvec_m21, rotvec_m22, rv_k1, rv_k2, rv_cos, rv_norm.
  unf_rv_p0.
  assert (Hn : 0 < sqrt (x*x + y*y + z*z)) by (apply sqrt_lt_R0; lra).
  destruct (Req_EM_T (sqrt (x*x + y*y + z*z)) 0) as [E|_]; [lra|].
  repeat split; (field; split; lra).
Qed.

Lemma rotvec_large_is_expmap x y z : x*x + y*y + z*z > 1/1000000 ->
  mat_eq (mat_from_rotvec_m00 x y z) (mat_from_rotvec_m01 x y z) (mat_from_rotvec_m02 x y z)
         (mat_from_rotvec_m10 x y z) (mat_from_rotvec_m11 x y z) (mat_from_rotvec_m12 x y z)
         (mat_from_rotvec_m20 x y z) (mat_from_rotvec_m21 x y z) (mat_from_rotvec_m22 x y z)
         (rotvec_m00 x y z) (rotvec_m01 x y z) (rotvec_m02 x y z)
         (rotvec_m10 x y z) (rotvec_m11 x y z) (rotvec_m12 x y z)
         (rotvec_m20 x y z) (rotvec_m21 x y z) (rotvec_m22 x y z).
Proof.
  intro H. eapply mat_eq_trans; [apply rv_branch_large, H | apply p0_is_spec; lra].
Qed.

Lemma rotvec_large_is_rotation x y z : x*x + y*y + z*z > 1/1000000 ->
  let n := rv_norm x y z in
  let m00 := mat_from_rotvec_m00 x y z in let m01 := mat_from_rotvec_m01 x y z in
  let m02 := mat_from_rotvec_m02 x y z in let m10 := mat_from_rotvec_m10 x y z in
  let m11 := mat_from_rotvec_m11 x y z in let m12 := mat_from_rotvec_m12 x y z in
  let m20 := mat_from_rotvec_m20 x y z in let m21 := mat_from_rotvec_m21 x y z in
  let m22 := mat_from_rotvec_m22 x y z in
  orthonormal3 m00 m01 m02 m10 m11 m12 m20 m21 m22 /\
  det3 m00 m01 m02 m10 m11 m12 m20 m21 m22 = 1 /\
  (m00 * x + m01 * y + m02 * z = x /\ m10 * x + m11 * y + m12 * z = y /\
   m20 * x + m21 * y + m22 * z = z) /\
  m00 + m11 + m22 = 1 + 2 * cos n /\
  ((m21 - m12) / 2 = sin n / n * x /\ (m02 - m20) / 2 = sin n / n * y /\
   (m10 - m01) / 2 = sin n / n * z).
Proof.
  intro H. cbv zeta. destruct (rv_coeffs x y z) as (K2 & K1 & K).
  assert (Hn : 0 < rv_norm x y z) by (apply sqrt_lt_R0; lra).
  rewrite <- K1.
  replace (rv_k1 x y z * rv_norm x y z / rv_norm x y z) with (rv_k1 x y z) by (field; lra).
  exact (rodrigues_rotation _ _ _ _ _ _ _ _ _ _ _ _ _ _ _ K2 K (rotvec_large_is_expmap x y z H)).
Qed.

(** * mat_from_rotvec at and below the threshold: the Taylor branch is accurate to 1e-20 *)

(* [fact n] as a numeral: [fact_IZR n k eq_refl] rewrites [INR (fact n)], which [lra] cannot read, to [IZR k] *)
Fixpoint zfact (n : nat) : Z :=
  match n with O => 1 | S m => Z.of_nat n * zfact m end%Z.

Lemma fact_IZR n k : zfact n = k -> INR (fact n) = IZR k.
Proof.
  intros <-. induction n as [|n IH]; [reflexivity|].
  rewrite fact_simpl, mult_INR, IH, INR_IZR_INZ, <- mult_IZR. reflexivity.
Qed.

(* The partial sums of the sine and cosine series enclose sin t and cos t alternately
   (sin_bound, cos_bound), so each truncation error is at most the first omitted term:
   t^6/6! for cos, t^7/7! for sin, t^8/8! for 1 - cos, with t <= 1e-3. *)
Lemma taylor_remainders t : 0 <= t <= 1/1000 ->
  Rabs ((1 - t*t/2 + (t*t)*(t*t)/24) - cos t) <= 2/10^21 /\
  Rabs ((1 - t*t/6 + (t*t)*(t*t)/120) * t - sin t) <= 1/10^24 /\
  Rabs ((1/2 - t*t/24 + (t*t)*(t*t)/720) * (t*t) - (1 - cos t)) <= 1/10^27.
Proof.
  intro H. pose proof PI2_1 as Hpi.
  assert (SU : sin t <= sin_approx t 2) by (apply (sin_bound t 0); lra).
  assert (SL : sin_approx t 3 <= sin t) by (apply (sin_bound t 1); lra).
  assert (C : cos_approx t 3 <= cos t <= cos_approx t 4) by (apply (cos_bound t 1); lra).
  unfold sin_approx, sin_term, cos_approx, cos_term in SU, SL, C.
  cbn [sum_f_R0 Nat.mul Nat.add pow] in SU, SL, C.
  rewrite (fact_IZR 1 1), (fact_IZR 3 6), (fact_IZR 5 120) in SU, SL by reflexivity.
  rewrite (fact_IZR 7 5040) in SL by reflexivity.
  rewrite (fact_IZR 0 1), (fact_IZR 2 2), (fact_IZR 4 24), (fact_IZR 6 720), (fact_IZR 8 40320) in C
    by reflexivity.
  assert (P : forall k, 0 <= t ^ k <= (1/1000) ^ k)
    by (split; [apply pow_le; lra | apply pow_incr, H]).
  pose proof (P 6%nat) as P6. pose proof (P 7%nat) as P7. pose proof (P 8%nat) as P8.
  cbn [pow] in P6, P7, P8.
  repeat split; apply Rabs_le; lra.
Qed.

Lemma p1_accurate x y z : x*x + y*y + z*z <= 1/1000000 ->
  mat_close (1/10^20)
    (mat_from_rotvec_m00__p1 x y z) (mat_from_rotvec_m01__p1 x y z) (mat_from_rotvec_m02__p1 x y z)
    (mat_from_rotvec_m10__p1 x y z) (mat_from_rotvec_m11__p1 x y z) (mat_from_rotvec_m12__p1 x y z)
    (mat_from_rotvec_m20__p1 x y z) (mat_from_rotvec_m21__p1 x y z) (mat_from_rotvec_m22__p1 x y z)
    (rotvec_m00 x y z) (rotvec_m01 x y z) (rotvec_m02 x y z)
    (rotvec_m10 x y z) (rotvec_m11 x y z) (rotvec_m12 x y z)
    (rotvec_m20 x y z) (rotvec_m21 x y z) (rotvec_m22 x y z).
Proof.
  intro Hle. destruct (rv_coeffs x y z) as (K2 & K1 & _). unfold rv_cos in *.
  set (n := rv_norm x y z) in *.
  assert (Hn2 : n * n = x*x + y*y + z*z) by (apply sqrt_sqrt; nra).
  assert (Hn : 0 <= n) by apply sqrt_pos.
  assert (Ht : 0 <= n <= 1/1000) by nra.
  destruct (taylor_remainders n Ht) as (T0 & T1 & T2). rewrite Hn2 in *.
  set (u := x*x + y*y + z*z) in *.
  eapply mat_close_eq_l;
    [|apply (rodrigues_close _ n x y z (cos n) (rv_k1 x y z) (rv_k2 x y z)
              (1 - u/2 + u*u/24) (1 - u/6 + u*u/120) (1/2 - u/24 + u*u/720) Hn Hn2)].
  - unf_rv_p1. unfold u. repeat split; field.
  - rewrite Hn2, Rmult_minus_distr_r, K2. lra.
  - rewrite Hn2, !Rmult_minus_distr_r, K2, K1. lra.
Qed.

Lemma rotvec_small_accurate x y z : x*x + y*y + z*z <= 1/1000000 ->
  mat_close (1/10^20)
    (mat_from_rotvec_m00 x y z) (mat_from_rotvec_m01 x y z) (mat_from_rotvec_m02 x y z)
    (mat_from_rotvec_m10 x y z) (mat_from_rotvec_m11 x y z) (mat_from_rotvec_m12 x y z)
    (mat_from_rotvec_m20 x y z) (mat_from_rotvec_m21 x y z) (mat_from_rotvec_m22 x y z)
    (rotvec_m00 x y z) (rotvec_m01 x y z) (rotvec_m02 x y z)
    (rotvec_m10 x y z) (rotvec_m11 x y z) (rotvec_m12 x y z)
    (rotvec_m20 x y z) (rotvec_m21 x y z) (rotvec_m22 x y z).
Proof.
  intro H. eapply mat_close_eq_l; [apply rv_branch_small | apply p1_accurate]; exact H.
Qed.

(** continuity across the branch threshold: wherever both formulas are defined and the
    Taylor branch may be taken (0 < |v|^2 <= 1e-6, in particular AT |v|^2 = 1e-6) the two
    branch formulas agree to 1e-20 *)
Lemma rotvec_branches_agree x y z : 0 < x*x + y*y + z*z <= 1/1000000 ->
  mat_close (1/10^20)
    (mat_from_rotvec_m00__p1 x y z) (mat_from_rotvec_m01__p1 x y z) (mat_from_rotvec_m02__p1 x y z)
    (mat_from_rotvec_m10__p1 x y z) (mat_from_rotvec_m11__p1 x y z) (mat_from_rotvec_m12__p1 x y z)
    (mat_from_rotvec_m20__p1 x y z) (mat_from_rotvec_m21__p1 x y z) (mat_from_rotvec_m22__p1 x y z)
    (mat_from_rotvec_m00__p0 x y z) (mat_from_rotvec_m01__p0 x y z) (mat_from_rotvec_m02__p0 x y z)
    (mat_from_rotvec_m10__p0 x y z) (mat_from_rotvec_m11__p0 x y z) (mat_from_rotvec_m12__p0 x y z)
    (mat_from_rotvec_m20__p0 x y z) (mat_from_rotvec_m21__p0 x y z) (mat_from_rotvec_m22__p0 x y z).
Proof.
  intros [Hpos Hle]. eapply mat_close_eq_r; [apply p0_is_spec, Hpos | apply p1_accurate, Hle].
Qed.

Lemma rotvec_continuous_at_threshold x y z : x*x + y*y + z*z = 1/1000000 ->
  mat_close (1/10^20)
    (mat_from_rotvec_m00 x y z) (mat_from_rotvec_m01 x y z) (mat_from_rotvec_m02 x y z)
    (mat_from_rotvec_m10 x y z) (mat_from_rotvec_m11 x y z) (mat_from_rotvec_m12 x y z)
    (mat_from_rotvec_m20 x y z) (mat_from_rotvec_m21 x y z) (mat_from_rotvec_m22 x y z)
    (mat_from_rotvec_m00__p0 x y z) (mat_from_rotvec_m01__p0 x y z) (mat_from_rotvec_m02__p0 x y z)
    (mat_from_rotvec_m10__p0 x y z) (mat_from_rotvec_m11__p0 x y z) (mat_from_rotvec_m12__p0 x y z)
    (mat_from_rotvec_m20__p0 x y z) (mat_from_rotvec_m21__p0 x y z) (mat_from_rotvec_m22__p0 x y z).
Proof.
  intro H. eapply mat_close_eq_l; [apply rv_branch_small | apply rotvec_branches_agree]; lra.
Qed.

(** * mat_from_rph is a rotation, and mat_to_rph recovers the angles *)

Ltac unf_rph :=
  unfold mat_from_rph_m00, mat_from_rph_m01, mat_from_rph_m02,
    mat_from_rph_m10, mat_from_rph_m11, mat_from_rph_m12,
    mat_from_rph_m20, mat_from_rph_m21, mat_from_rph_m22;
  repeat autounfold with mat_from_rph_db.

Lemma rph_is_proper_rotation roll pitch heading :
  let m00 := mat_from_rph_m00 roll pitch heading in let m01 := mat_from_rph_m01 roll pitch heading in
  let m02 := mat_from_rph_m02 roll pitch heading in let m10 := mat_from_rph_m10 roll pitch heading in
  let m11 := mat_from_rph_m11 roll pitch heading in let m12 := mat_from_rph_m12 roll pitch heading in
  let m20 := mat_from_rph_m20 roll pitch heading in let m21 := mat_from_rph_m21 roll pitch heading in
  let m22 := mat_from_rph_m22 roll pitch heading in
  orthonormal3 m00 m01 m02 m10 m11 m12 m20 m21 m22 /\
  orthonormal3 m00 m10 m20 m01 m11 m21 m02 m12 m22 /\
  det3 m00 m01 m02 m10 m11 m12 m20 m21 m22 = 1.
Proof.
  cbv zeta. unfold orthonormal3, det3. unf_rph.
  set (r := roll * (PI/180)). set (p := pitch * (PI/180)). set (h := heading * (PI/180)).
  repeat split; ring [(s2c r) (s2c p) (s2c h)].
Qed.

(** conventions: image of the body axes in NED *)
Lemma rph_conventions roll pitch heading :
  let r := roll * d2r in let p := pitch * d2r in let h := heading * d2r in
  (* body x axis (nose) -> (north, east, down) *)
  (mat_from_rph_m00 roll pitch heading = cos p * cos h /\
   mat_from_rph_m10 roll pitch heading = cos p * sin h /\
   mat_from_rph_m20 roll pitch heading = - sin p) /\
  (* down components of the body y axis (right wing) and body z axis (belly) *)
  mat_from_rph_m21 roll pitch heading = sin r * cos p /\
  mat_from_rph_m22 roll pitch heading = cos r * cos p.
Proof.
  cbv zeta. unfold d2r. unf_rph. repeat split; ring.
Qed.

Ltac unf_to_rph :=
  unfold mat_to_rph_of_rph_roll, mat_to_rph_of_rph_pitch, mat_to_rph_of_rph_heading,
    euler_roll, euler_pitch, euler_heading;
  repeat autounfold with mat_to_rph_of_rph_db.

Lemma deg_principal a : -180 < a <= 180 -> - PI < a * (PI / 180) <= PI.
Proof. intros [H1 H2]. pose proof PI_RGT_0. split; nra. Qed.

Lemma deg_back a : a * (PI / 180) * (180 / PI) = a.
Proof. field. apply PI_neq0. Qed.

Lemma rad_back a : a * (180 / PI) * (PI / 180) = a.
Proof. field. apply PI_neq0. Qed.

Lemma deg_period a (k : Z) : (a + 360 * IZR k) * (PI / 180) = a * (PI / 180) + 2 * IZR k * PI.
Proof. field. Qed.

Lemma sqrt_kk k s c : 0 < k -> s * s + c * c = 1 -> sqrt (k * s * (k * s) + k * c * (k * c)) = k.
Proof.
  intros Hk H. replace (k * s * (k * s) + k * c * (k * c)) with (k * k) by nra.
  apply sqrt_square. lra.
Qed.

Lemma rph_round_trip_exact roll pitch heading :
  -90 < pitch < 90 ->
  (-180 < roll <= 180 -> mat_to_rph_of_rph_roll roll pitch heading = roll) /\
  mat_to_rph_of_rph_pitch roll pitch heading = pitch /\
  (-180 < heading <= 180 -> mat_to_rph_of_rph_heading roll pitch heading = heading).
Proof.
  intro Hp. pose proof (cos_d2r_pos pitch Hp) as Hc.
  unf_to_rph. split; [|split].
  - intro Hr. rewrite atan2_sin_cos by (try apply deg_principal; assumption). apply deg_back.
  - rewrite sqrt_kk by (try apply sc1; assumption).
    (* bring the two arguments to the form k sin a, k cos a of [atan2_sin_cos], with k = 1 *)
    replace (- - sin (pitch * (PI/180))) with (1 * sin (pitch * (PI/180))) by ring.
    replace (cos (pitch * (PI/180))) with (1 * cos (pitch * (PI/180))) by ring.
    rewrite atan2_sin_cos; [apply deg_back|lra|].
    pose proof PI_RGT_0. destruct Hp. split; nra.
  - intro Hh. rewrite (Rmult_comm (sin _)), (Rmult_comm (cos (heading * _))).
    rewrite atan2_sin_cos by (try apply deg_principal; assumption). apply deg_back.
Qed.

(** the recovered angles depend on roll and heading only through their sine and cosine *)
Lemma to_rph_periodic roll pitch heading (k1 k2 : Z) :
  mat_to_rph_of_rph_roll (roll + 360 * IZR k1) pitch (heading + 360 * IZR k2) =
    mat_to_rph_of_rph_roll roll pitch heading /\
  mat_to_rph_of_rph_pitch (roll + 360 * IZR k1) pitch (heading + 360 * IZR k2) =
    mat_to_rph_of_rph_pitch roll pitch heading /\
  mat_to_rph_of_rph_heading (roll + 360 * IZR k1) pitch (heading + 360 * IZR k2) =
    mat_to_rph_of_rph_heading roll pitch heading.
Proof.
  unf_to_rph. rewrite !deg_period, !sin_period_Z, !cos_period_Z. repeat split; reflexivity.
Qed.

(** for ALL roll and heading (|pitch| < 90): the same angles modulo 360 degrees, delivered
    in (-180, 180] *)
Lemma rph_round_trip roll pitch heading :
  -90 < pitch < 90 ->
  exists k1 k2 : Z,
    mat_to_rph_of_rph_roll roll pitch heading = roll + 360 * IZR k1 /\
    -180 < mat_to_rph_of_rph_roll roll pitch heading <= 180 /\
    mat_to_rph_of_rph_pitch roll pitch heading = pitch /\
    mat_to_rph_of_rph_heading roll pitch heading = heading + 360 * IZR k2 /\
    -180 < mat_to_rph_of_rph_heading roll pitch heading <= 180.
Proof.
  intro Hp. destruct (wrap_180 roll) as [k1 Hk1]. destruct (wrap_180 heading) as [k2 Hk2].
  exists k1, k2.
  destruct (to_rph_periodic roll pitch heading k1 k2) as (P1 & P2 & P3).
  destruct (rph_round_trip_exact (roll + 360 * IZR k1) pitch (heading + 360 * IZR k2) Hp)
    as (R1 & R2 & R3).
  rewrite <- P1, <- P2, <- P3. rewrite (R1 Hk1), R2, (R3 Hk2).
  repeat split; lra.
Qed.

(** for every pitch with cos pitch <> 0 (also |pitch| > 90, where as_euler returns the other
    Euler triple of the same rotation): the recovered angles give back the same matrix *)
Lemma rph_round_trip_matrix roll pitch heading :
  cos (pitch * d2r) <> 0 ->
  let r' := mat_to_rph_of_rph_roll roll pitch heading in
  let p' := mat_to_rph_of_rph_pitch roll pitch heading in
  let h' := mat_to_rph_of_rph_heading roll pitch heading in
  mat_eq (mat_from_rph_m00 r' p' h') (mat_from_rph_m01 r' p' h') (mat_from_rph_m02 r' p' h')
         (mat_from_rph_m10 r' p' h') (mat_from_rph_m11 r' p' h') (mat_from_rph_m12 r' p' h')
         (mat_from_rph_m20 r' p' h') (mat_from_rph_m21 r' p' h') (mat_from_rph_m22 r' p' h')
         (mat_from_rph_m00 roll pitch heading) (mat_from_rph_m01 roll pitch heading)
         (mat_from_rph_m02 roll pitch heading) (mat_from_rph_m10 roll pitch heading)
         (mat_from_rph_m11 roll pitch heading) (mat_from_rph_m12 roll pitch heading)
         (mat_from_rph_m20 roll pitch heading) (mat_from_rph_m21 roll pitch heading)
         (mat_from_rph_m22 roll pitch heading).
Proof.
  unfold d2r. intro Hk. cbv zeta. unf_rph. unf_to_rph. rewrite !rad_back.
  set (r := roll * (PI/180)). set (p := pitch * (PI/180)). set (h := heading * (PI/180)).
  fold p in Hk. set (k := cos p) in *.
  pose proof (sc1 r) as Er. pose proof (sc1 p) as Ep. pose proof (sc1 h) as Eh. fold k in Ep.
  assert (Hkk : 0 < k * k) by nra.
  replace (k * sin r * (k * sin r) + k * cos r * (k * cos r)) with (k * k) by nra.
  rewrite (Rmult_comm (sin h)), (Rmult_comm (cos h)).
  (* With sg = sign k, a = |k|: the recovered roll and heading have (sin, cos) = sg (sin, cos)
     of the given ones, the recovered pitch has (sin, cos) = (sin p, a), and k = sg a.  Each
     entry contains sg twice or not at all. *)
  destruct (sincos_atan2_scaled k (sin r) (cos r) Hk Er) as (Sr & Cr).
  destruct (sincos_atan2_scaled k (sin h) (cos h) Hk Eh) as (Sh & Ch).
  set (a := sqrt (k * k)) in *. set (sg := k / a) in *.
  assert (Ha2 : a * a = k * k) by (apply sqrt_sqrt; lra).
  assert (Ha : 0 < a) by (apply sqrt_lt_R0, Hkk).
  assert (Hsg : sg * sg = 1) by (unfold sg; field_simplify_eq; lra).
  assert (Hka : k = sg * a) by (unfold sg; field; lra).
  destruct (sincos_atan2 (- - sin p) a) as (Sp & Cp); [nra|].
  replace (a * a + - - sin p * - - sin p) with 1 in Sp, Cp by nra. rewrite sqrt_1 in Sp, Cp.
  rewrite Sr, Cr, Sp, Cp, Sh, Ch, Hka. unfold Rdiv. rewrite Rinv_1.
  repeat split; ring [Hsg].
Qed.

(** * _phi_to_delta_rph is the derivative of the Euler angles under C -> Rot(-phi) C *)

Ltac unf_T :=
  unfold phi_to_delta_rph_t00, phi_to_delta_rph_t01, phi_to_delta_rph_t02,
    phi_to_delta_rph_t10, phi_to_delta_rph_t11, phi_to_delta_rph_t12,
    phi_to_delta_rph_t20, phi_to_delta_rph_t21, phi_to_delta_rph_t22;
  repeat autounfold with phi_to_delta_rph_db.

(** the attitude matrix along any differentiable curve of Euler angles (degrees); wr, wp, wh
    are the angle rates in radians *)
Lemma rph_derive_along (r p h : R -> R) (t dr dp dh : R) :
  is_derive r t dr -> is_derive p t dp -> is_derive h t dh ->
  let sr := sin (r t * d2r) in let cr := cos (r t * d2r) in
  let sp := sin (p t * d2r) in let cp := cos (p t * d2r) in
  let sh := sin (h t * d2r) in let ch := cos (h t * d2r) in
  let wr := dr * d2r in let wp := dp * d2r in let wh := dh * d2r in
  is_derive (fun s => mat_from_rph_m00 (r s) (p s) (h s)) t
    (- wp * (ch * sp) - wh * (sh * cp)) /\
  is_derive (fun s => mat_from_rph_m01 (r s) (p s) (h s)) t
    (wr * (ch * sp * cr + sh * sr) + wp * (ch * cp * sr) - wh * (sh * sp * sr + ch * cr)) /\
  is_derive (fun s => mat_from_rph_m02 (r s) (p s) (h s)) t
    (- wr * (ch * sp * sr - sh * cr) + wp * (ch * cp * cr) - wh * (sh * sp * cr - ch * sr)) /\
  is_derive (fun s => mat_from_rph_m10 (r s) (p s) (h s)) t
    (- wp * (sh * sp) + wh * (ch * cp)) /\
  is_derive (fun s => mat_from_rph_m11 (r s) (p s) (h s)) t
    (wr * (sh * sp * cr - ch * sr) + wp * (sh * cp * sr) + wh * (ch * sp * sr - sh * cr)) /\
  is_derive (fun s => mat_from_rph_m12 (r s) (p s) (h s)) t
    (- wr * (sh * sp * sr + ch * cr) + wp * (sh * cp * cr) + wh * (ch * sp * cr + sh * sr)) /\
  is_derive (fun s => mat_from_rph_m20 (r s) (p s) (h s)) t
    (- wp * cp) /\
  is_derive (fun s => mat_from_rph_m21 (r s) (p s) (h s)) t
    (wr * (cp * cr) - wp * (sp * sr)) /\
  is_derive (fun s => mat_from_rph_m22 (r s) (p s) (h s)) t
    (- wr * (cp * sr) - wp * (sp * cr)).
Proof.
  intros Hr Hp Hh. cbv zeta. unfold d2r. unf_rph.
  (* auto_derive leaves [Derive] of the eta-expanded curves *)
  assert (Er : Derive (fun s => r s) t = dr) by exact (is_derive_unique _ _ _ Hr).
  assert (Ep : Derive (fun s => p s) t = dp) by exact (is_derive_unique _ _ _ Hp).
  assert (Eh : Derive (fun s => h s) t = dh) by exact (is_derive_unique _ _ _ Hh).
  assert (Xr : ex_derive r t) by (eexists; exact Hr).
  assert (Xp : ex_derive p t) by (eexists; exact Hp).
  assert (Xh : ex_derive h t) by (eexists; exact Hh).
  split_conj; (auto_derive; [tauto | rewrite ?Er, ?Ep, ?Eh; lra]).
Qed.

Lemma is_derive_line a d (t : R) : is_derive (fun e => a + e * d) t d.
Proof. auto_derive; [exact I | ring]. Qed.

(** Let d = T(rph) phi (degrees; phi in radians).  Moving the Euler angles along d changes the
    attitude matrix, to first order, exactly as the rotation Rot(-eps phi) applied on the left:
      d/d eps C(rph + eps d) at 0  =  - [phi x] C(rph)  =  d/d eps (Rot(-eps phi) C(rph)) at 0. *)
Lemma euler_jacobian roll pitch heading f0 f1 f2 :
  cos (pitch * d2r) <> 0 ->
  let d0 := phi_to_delta_rph_t00 roll pitch heading * f0 + phi_to_delta_rph_t01 roll pitch heading * f1
            + phi_to_delta_rph_t02 roll pitch heading * f2 in
  let d1 := phi_to_delta_rph_t10 roll pitch heading * f0 + phi_to_delta_rph_t11 roll pitch heading * f1
            + phi_to_delta_rph_t12 roll pitch heading * f2 in
  let d2 := phi_to_delta_rph_t20 roll pitch heading * f0 + phi_to_delta_rph_t21 roll pitch heading * f1
            + phi_to_delta_rph_t22 roll pitch heading * f2 in
  let c00 := mat_from_rph_m00 roll pitch heading in let c01 := mat_from_rph_m01 roll pitch heading in
  let c02 := mat_from_rph_m02 roll pitch heading in let c10 := mat_from_rph_m10 roll pitch heading in
  let c11 := mat_from_rph_m11 roll pitch heading in let c12 := mat_from_rph_m12 roll pitch heading in
  let c20 := mat_from_rph_m20 roll pitch heading in let c21 := mat_from_rph_m21 roll pitch heading in
  let c22 := mat_from_rph_m22 roll pitch heading in
  is_derive (fun e => mat_from_rph_m00 (roll + e * d0) (pitch + e * d1) (heading + e * d2)) 0 (f2 * c10 - f1 * c20) /\
  is_derive (fun e => mat_from_rph_m01 (roll + e * d0) (pitch + e * d1) (heading + e * d2)) 0 (f2 * c11 - f1 * c21) /\
  is_derive (fun e => mat_from_rph_m02 (roll + e * d0) (pitch + e * d1) (heading + e * d2)) 0 (f2 * c12 - f1 * c22) /\
  is_derive (fun e => mat_from_rph_m10 (roll + e * d0) (pitch + e * d1) (heading + e * d2)) 0 (f0 * c20 - f2 * c00) /\
  is_derive (fun e => mat_from_rph_m11 (roll + e * d0) (pitch + e * d1) (heading + e * d2)) 0 (f0 * c21 - f2 * c01) /\
  is_derive (fun e => mat_from_rph_m12 (roll + e * d0) (pitch + e * d1) (heading + e * d2)) 0 (f0 * c22 - f2 * c02) /\
  is_derive (fun e => mat_from_rph_m20 (roll + e * d0) (pitch + e * d1) (heading + e * d2)) 0 (f1 * c00 - f0 * c10) /\
  is_derive (fun e => mat_from_rph_m21 (roll + e * d0) (pitch + e * d1) (heading + e * d2)) 0 (f1 * c01 - f0 * c11) /\
  is_derive (fun e => mat_from_rph_m22 (roll + e * d0) (pitch + e * d1) (heading + e * d2)) 0 (f1 * c02 - f0 * c12).
Proof.
  intros Hk d0 d1 d2. cbv zeta.
  destruct (rph_derive_along _ _ _ 0 d0 d1 d2 (is_derive_line roll d0 0) (is_derive_line pitch d1 0)
              (is_derive_line heading d2 0)) as (D00 & D01 & D02 & D10 & D11 & D12 & D20 & D21 & D22).
  cbv beta zeta in *. rewrite !Rmult_0_l, !Rplus_0_r in *. unfold d2r in *.
  set (r := roll * (PI/180)) in *. set (p := pitch * (PI/180)) in *. set (h := heading * (PI/180)) in *.
  (* the angle rates in radians; u carries the one division, by cos p *)
  set (u := (- cos h * f0 - sin h * f1) / cos p).
  assert (Hu : cos p * u = - cos h * f0 - sin h * f1) by (unfold u; field; exact Hk).
  assert (E0 : d0 * (PI / 180) = u).
  { unfold d0, u. unf_T. fold p h. field. repeat split; first [exact Hk | apply PI_neq0]. }
  assert (E1 : d1 * (PI / 180) = sin h * f0 - cos h * f1).
  { unfold d1. unf_T. fold h. field. apply PI_neq0. }
  assert (E2 : d2 * (PI / 180) = u * sin p - f2).
  { unfold d2, u. unf_T. fold p h. field. repeat split; first [exact Hk | apply PI_neq0]. }
  rewrite E0, E1, E2 in *. clearbody u.
  split_conj;
    [evar_last; [exact D00|] | evar_last; [exact D01|] | evar_last; [exact D02|]
    |evar_last; [exact D10|] | evar_last; [exact D11|] | evar_last; [exact D12|]
    |evar_last; [exact D20|] | evar_last; [exact D21|] | evar_last; [exact D22|]];
    unf_rph; fold r p h; ring [Hu (s2c r) (s2c p) (s2c h)].
Qed.

Lemma mul_zero a b : a <> 0 -> a * b = 0 -> b = 0.
Proof. intros Ha H. destruct (Rmult_integral _ _ H); [contradiction|assumption]. Qed.

Lemma sincos_cancel a u : cos a * u = 0 -> sin a * u = 0 -> u = 0.
Proof.
  intros C S. rewrite <- (Rmult_1_l u), <- (sc1 a).
  replace ((sin a * sin a + cos a * cos a) * u) with (sin a * (sin a * u) + cos a * (cos a * u)) by ring.
  rewrite C, S. ring.
Qed.

(** the partial derivatives of C with respect to (roll, pitch, heading) are linearly
    independent when cos pitch <> 0: the Euler-angle change d that reproduces a given
    first-order change of C is unique, so T phi above is THE derivative of the angles *)
Lemma euler_partials_injective roll pitch heading d0 d1 d2 :
  cos (pitch * d2r) <> 0 ->
  is_derive (fun e => mat_from_rph_m00 (roll + e * d0) (pitch + e * d1) (heading + e * d2)) 0 0 ->
  is_derive (fun e => mat_from_rph_m10 (roll + e * d0) (pitch + e * d1) (heading + e * d2)) 0 0 ->
  is_derive (fun e => mat_from_rph_m20 (roll + e * d0) (pitch + e * d1) (heading + e * d2)) 0 0 ->
  is_derive (fun e => mat_from_rph_m21 (roll + e * d0) (pitch + e * d1) (heading + e * d2)) 0 0 ->
  is_derive (fun e => mat_from_rph_m22 (roll + e * d0) (pitch + e * d1) (heading + e * d2)) 0 0 ->
  d0 = 0 /\ d1 = 0 /\ d2 = 0.
Proof.
  intros Hk H00 H10 H20 H21 H22.
  destruct (rph_derive_along _ _ _ 0 d0 d1 d2 (is_derive_line roll d0 0) (is_derive_line pitch d1 0)
              (is_derive_line heading d2 0)) as (D00 & _ & _ & D10 & _ & _ & D20 & D21 & D22).
  cbv beta zeta in *. rewrite !Rmult_0_l, !Rplus_0_r in *.
  assert (U : forall (f : R -> R) l, is_derive f 0 l -> is_derive f 0 0 -> l = 0).
  { intros f l D H. rewrite <- (is_derive_unique _ _ _ D). exact (is_derive_unique _ _ _ H). }
  apply (U _ _ D00) in H00. apply (U _ _ D10) in H10. apply (U _ _ D20) in H20.
  apply (U _ _ D21) in H21. apply (U _ _ D22) in H22.
  assert (Hd : d2r <> 0) by (unfold d2r; pose proof PI_RGT_0; lra).
  set (r := roll * d2r) in *. set (p := pitch * d2r) in *. set (h := heading * d2r) in *.
  (* m20 gives d1; then m21, m22 give (cos r, sin r) d0 and m00, m10 give (cos h, sin h) d2 *)
  assert (Z1 : d1 * d2r = 0) by (apply (mul_zero (cos p)); [exact Hk | lra]).
  rewrite Z1 in *.
  assert (Z0 : d0 * d2r = 0).
  { apply (sincos_cancel r); apply (mul_zero (cos p)); try exact Hk; lra. }
  assert (Z2 : d2 * d2r = 0).
  { apply (sincos_cancel h); apply (mul_zero (cos p)); try exact Hk; lra. }
  repeat split; apply (mul_zero d2r); try exact Hd; lra.
Qed.

(** * The derivative of the exponential map at 0 is the skew matrix
    (so that - [phi x] C above is indeed d/d eps of Rot(-eps phi) C at eps = 0,
    Rot = scipy's from_rotvec as specified in LibSpecs) *)

Section ExpmapLine.
  Variables f0 f1 f2 : R.
  Let N := sqrt (f0*f0 + f1*f1 + f2*f2).
  Hypothesis HN : 0 < N.

  Lemma line_norm e : rv_norm (e*f0) (e*f1) (e*f2) = Rabs e * N.
  Proof.
    unfold rv_norm.
    replace (e*f0*(e*f0) + e*f1*(e*f1) + e*f2*(e*f2)) with (e² * (f0*f0 + f1*f1 + f2*f2))
      by (unfold Rsqr; ring).
    rewrite sqrt_mult; [|apply Rle_0_sqr|nra]. rewrite sqrt_Rsqr_abs. reflexivity.
  Qed.

  Lemma line_cos e : rv_cos (e*f0) (e*f1) (e*f2) = cos (e * N).
  Proof.
    unfold rv_cos. rewrite line_norm. unfold Rabs. destruct (Rcase_abs e); [|reflexivity].
    replace (- e * N) with (- (e * N)) by ring. apply cos_neg.
  Qed.

  Lemma line_k1 e : rv_k1 (e*f0) (e*f1) (e*f2) * e = sin (e * N) / N.
  Proof.
    destruct (rv_coeffs (e*f0) (e*f1) (e*f2)) as (_ & K1 & _). rewrite line_norm in K1.
    apply (Rmult_eq_reg_r N); [|lra]. replace (sin (e * N) / N * N) with (sin (e * N)) by (field; lra).
    unfold Rabs in K1. destruct (Rcase_abs e); [|lra].
    replace (- e * N) with (- (e * N)) in K1 by ring. rewrite sin_neg in K1. lra.
  Qed.

  Lemma line_k2 e : rv_k2 (e*f0) (e*f1) (e*f2) * e * e = (1 - cos (e * N)) / (N * N).
  Proof.
    destruct (rv_coeffs (e*f0) (e*f1) (e*f2)) as (K2 & _). rewrite line_cos in K2.
    assert (HNN : N * N = f0*f0 + f1*f1 + f2*f2) by (apply sqrt_sqrt; nra).
    apply (Rmult_eq_reg_r (N * N)); [|nra].
    replace ((1 - cos (e * N)) / (N * N) * (N * N)) with (1 - cos (e * N)) by (field; lra).
    rewrite HNN, <- K2. ring.
  Qed.

  (* Rodrigues' formula in vector form:
     Rot(e f) c = cos(e N) c + sin(e N)/N (f x c) + (1 - cos(e N))/N^2 (f . c) f *)
  Lemma line_rows e c0 c1 c2 :
    let x := e*f0 in let y := e*f1 in let z := e*f2 in
    let k := (1 - cos (e*N)) / (N*N) in let d := f0*c0 + f1*c1 + f2*c2 in
    rotvec_m00 x y z * c0 + rotvec_m01 x y z * c1 + rotvec_m02 x y z * c2 =
      cos (e*N) * c0 + sin (e*N) / N * (f1*c2 - f2*c1) + k * (d * f0) /\
    rotvec_m10 x y z * c0 + rotvec_m11 x y z * c1 + rotvec_m12 x y z * c2 =
      cos (e*N) * c1 + sin (e*N) / N * (f2*c0 - f0*c2) + k * (d * f1) /\
    rotvec_m20 x y z * c0 + rotvec_m21 x y z * c1 + rotvec_m22 x y z * c2 =
      cos (e*N) * c2 + sin (e*N) / N * (f0*c1 - f1*c0) + k * (d * f2).
  Proof.
    cbv zeta. unfold rotvec_m00, rotvec_m01, rotvec_m02, rotvec_m10, rotvec_m11, rotvec_m12,
      rotvec_m20, rotvec_m21, rotvec_m22.
    rewrite <- (line_k1 e), <- (line_k2 e), (line_cos e). repeat split; ring.
  Qed.

  Lemma line_derive A B C :
    is_derive (fun t => cos (- t * N) * C + sin (- t * N) / N * B
                        + (1 - cos (- t * N)) / (N * N) * A) 0 (- B).
  Proof. auto_derive; [exact I|]. rewrite Ropp_0, Rmult_0_l, sin_0, cos_0. field. lra. Qed.
End ExpmapLine.

(** d/d eps [Rot(-eps phi) c] at 0 = - phi x c for every vector c (a column of C) *)
Lemma platform_rotation_derivative f0 f1 f2 c0 c1 c2 :
  is_derive (fun e => rotvec_m00 (-e*f0) (-e*f1) (-e*f2) * c0 + rotvec_m01 (-e*f0) (-e*f1) (-e*f2) * c1
                      + rotvec_m02 (-e*f0) (-e*f1) (-e*f2) * c2) 0 (f2 * c1 - f1 * c2) /\
  is_derive (fun e => rotvec_m10 (-e*f0) (-e*f1) (-e*f2) * c0 + rotvec_m11 (-e*f0) (-e*f1) (-e*f2) * c1
                      + rotvec_m12 (-e*f0) (-e*f1) (-e*f2) * c2) 0 (f0 * c2 - f2 * c0) /\
  is_derive (fun e => rotvec_m20 (-e*f0) (-e*f1) (-e*f2) * c0 + rotvec_m21 (-e*f0) (-e*f1) (-e*f2) * c1
                      + rotvec_m22 (-e*f0) (-e*f1) (-e*f2) * c2) 0 (f1 * c0 - f0 * c1).
Proof.
  destruct (Req_dec (f0*f0 + f1*f1 + f2*f2) 0) as [Z|NZ].
  - assert (f0 = 0) by nra. assert (f1 = 0) by nra. assert (f2 = 0) by nra. subst f0 f1 f2.
    split_conj;
      (eapply is_derive_ext; [intro t; symmetry; replace (- t * 0) with 0 by ring; reflexivity|]);
      (auto_derive; [exact I|ring]).
  - assert (HN : 0 < sqrt (f0*f0 + f1*f1 + f2*f2)) by (apply sqrt_lt_R0; nra).
    split_conj;
      (eapply is_derive_ext; [intro t; symmetry; apply (line_rows f0 f1 f2 HN (- t) c0 c1 c2)|]);
      (evar_last; [apply (line_derive f0 f1 f2 HN)|ring]).
Qed.
