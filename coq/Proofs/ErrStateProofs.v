(** C05 / C06: error-state coordinates, correction, output transform, measurement models.
    Theorems about the GENERATED definitions of Gen/ErrState.v (traced from
    pyins/error_model.py, measurements.py, sim.perturb_pva, transform.compute_state_difference).

    Conventions established here (and checked numerically by tools/props/C05.py, C06.py):
      - [correct_pva pva x] REMOVES the error x:   state_diff(pva, correct_pva(pva, e x)) = e T_out x + o(e)
      - measurement residual z = predicted - measured and z = H x + v:
                                                    d/de z(correct_pva(pva, e x)) at 0  =  - H x          *)
From Coq Require Import Reals Lra Lia.
From Coquelicot Require Import Coquelicot.
From PV Require Import Base.RealTac Spec.LibSpecs Spec.LibSpecsFacts Spec.Ellipsoid Gen.Util Gen.Transform Gen.ErrState.
From PV Require Import Proofs.To180Proofs Proofs.C16Proofs.
Open Scope R_scope.

(** * Part A: analysis helpers *)

(* after [auto_derive] over abstract functions: replace [Derive (fun x => f x) t] by its value *)
Ltac derive_val H :=
  match type of H with is_derive ?f ?t ?l =>
    replace (Derive (fun x : R => f x) t) with l by (symmetry; apply is_derive_unique; exact H)
  end.

(* equations that Coquelicot leaves typed in the normed module R_NormedModule, for [ring] *)
Ltac eqR := match goal with |- @eq _ ?a ?b => change (@eq R a b) end.

(** ** A.1  wrap180 (util.to_180_range on the pandas path) is the identity on (-180, 180) *)

Lemma wrap180_is_to180 x : wrap180_r x = to_180_range_arr_r x.
Proof. reflexivity. Qed.

Lemma wrap180_id x : -180 < x <= 180 -> wrap180_r x = x.
Proof.
  intro H. rewrite wrap180_is_to180, <- to180_scalar_eq_array. apply to180_of_in_range. exact H.
Qed.

Lemma pos180_proof : 0 < 180. Proof. lra. Qed.
Definition pos180 : posreal := mkposreal 180 pos180_proof.

Lemma wrap180_locally_id (u : R -> R) t :
  continuous u t -> u t = 0 -> locally t (fun s => u s = wrap180_r (u s)).
Proof.
  intros Hc H0.
  assert (Hl : locally t (fun s => ball (u t) pos180 (u s))) by (apply Hc, locally_ball).
  revert Hl. apply filter_imp. intros s Hs.
  change (Rabs (u s + - u t) < 180) in Hs.
  rewrite H0 in Hs. symmetry. apply wrap180_id.
  apply Rabs_def2 in Hs. lra.
Qed.

Lemma is_derive_wrap180 (u : R -> R) t l :
  is_derive u t l -> u t = 0 -> is_derive (fun s => wrap180_r (u s)) t l.
Proof.
  intros Hd H0. apply (is_derive_ext_loc u); [|exact Hd].
  apply wrap180_locally_id; [|exact H0].
  apply (ex_derive_continuous (V := R_NormedModule) u t). exists l. exact Hd.
Qed.

Lemma diff_angle (u v : R -> R) du dv :
  u 0 = v 0 -> is_derive u 0 du -> is_derive v 0 dv -> is_derive (fun e => wrap180_r (u e - v e)) 0 (du - dv).
Proof.
  intros H0 Du Dv. apply (is_derive_wrap180 (fun e => u e - v e)); [|rewrite H0; ring].
  apply (is_derive_minus (V := R_NormedModule)); assumption.
Qed.

(** ** A.2  numpy.arctan2: derivative along a curve off the branch cut *)

Lemma atan2_upper y x : 0 < y -> atan2 y x = PI / 2 - atan (x / y).
Proof.
  intro Hy. unfold atan2.
  destruct (Rlt_dec 0 x) as [Hx|Hx].
  - replace (y / x) with (/ (x / y)) by (field; lra).
    rewrite atan_inv; [reflexivity|]. apply Rdiv_lt_0_compat; lra.
  - destruct (Rlt_dec x 0) as [Hx'|Hx'].
    + destruct (Rle_dec 0 y) as [_|C]; [|lra].
      replace (y / x) with (- / ((- x) / y)) by (field; lra).
      rewrite atan_opp, atan_inv by (apply Rdiv_lt_0_compat; lra).
      replace (- x / y) with (- (x / y)) by (field; lra). rewrite atan_opp. lra.
    + assert (x = 0) by lra. subst x.
      destruct (Rlt_dec 0 y) as [_|C]; [|lra].
      replace (0 / y) with 0 by (field; lra). rewrite atan_0. lra.
Qed.

Lemma atan2_lower y x : y < 0 -> atan2 y x = - (PI / 2) - atan (x / y).
Proof.
  intro Hy. unfold atan2.
  destruct (Rlt_dec 0 x) as [Hx|Hx].
  - replace (y / x) with (- / (x / (- y))) by (field; lra).
    rewrite atan_opp, atan_inv by (apply Rdiv_lt_0_compat; lra).
    replace (x / - y) with (- (x / y)) by (field; lra). rewrite atan_opp. lra.
  - destruct (Rlt_dec x 0) as [Hx'|Hx'].
    + destruct (Rle_dec 0 y) as [C|_]; [lra|].
      replace (y / x) with (/ (x / y)) by (field; lra).
      rewrite atan_inv; [lra|].
      replace (x / y) with ((- x) / (- y)) by (field; lra). apply Rdiv_lt_0_compat; lra.
    + assert (x = 0) by lra. subst x.
      destruct (Rlt_dec 0 y) as [C|_]; [lra|].
      destruct (Rlt_dec y 0) as [_|C]; [|lra].
      replace (0 / y) with 0 by (field; lra). rewrite atan_0. lra.
Qed.

Lemma atan2_right y x : 0 < x -> atan2 y x = atan (y / x).
Proof. intro Hx. unfold atan2. destruct (Rlt_dec 0 x); [reflexivity|lra]. Qed.

(** strictly inside (-pi, pi) is off the branch cut, in the form [is_derive_atan2] asks for *)
Lemma polar_offcut th : - PI < th < PI -> 0 < cos th \/ sin th <> 0.
Proof.
  intros [H1 H2].
  destruct (Rtotal_order th 0) as [Hn|[Hz|Hp]].
  - right. apply Rlt_not_eq. apply sin_lt_0_var; lra.
  - left. subst th. rewrite cos_0. lra.
  - right. apply Rgt_not_eq. apply sin_gt_0; lra.
Qed.

Lemma is_derive_atan_quot (f g : R -> R) t f' g' :
  is_derive f t f' -> is_derive g t g' -> g t <> 0 ->
  is_derive (fun s => atan (f s / g s)) t ((g t * f' - f t * g') / (f t * f t + g t * g t)).
Proof.
  intros Hf Hg Hn.
  assert (Hq : is_derive (fun s => f s / g s) t ((f' * g t - f t * g') / (g t * g t))).
  { auto_derive.
    - repeat split; [exists f'; exact Hf | exists g'; exact Hg | exact Hn].
    - derive_val Hf. derive_val Hg. field. exact Hn. }
  evar_last.
  - apply (is_derive_comp atan (fun s => f s / g s) t _ _ (is_derive_atan _) Hq).
  - unfold scal; simpl; unfold mult; simpl. unfold Rsqr.
    assert (0 < f t * f t + g t * g t) by nra.
    field. repeat split; try exact Hn; apply Rgt_not_eq; nra.
Qed.

Lemma locally_pos (g : R -> R) t : continuous g t -> 0 < g t -> locally t (fun s => 0 < g s).
Proof.
  intros Hc Hp.
  assert (Hl : locally t (fun s => ball (g t) (mkposreal (g t) Hp) (g s))) by (apply Hc, locally_ball).
  revert Hl. apply filter_imp. intros s Hs.
  change (Rabs (g s + - g t) < g t) in Hs. apply Rabs_def2 in Hs. lra.
Qed.

Lemma locally_neg (g : R -> R) t : continuous g t -> g t < 0 -> locally t (fun s => g s < 0).
Proof.
  intros Hc Hn.
  assert (Hl : locally t (fun s => 0 < - g s)).
  { apply (locally_pos (fun s => - g s)); [|lra].
    apply (continuous_opp (V := R_NormedModule) g t). exact Hc. }
  revert Hl. apply filter_imp. intros s Hs. lra.
Qed.

Lemma derive_cont (f : R -> R) t l : is_derive f t l -> continuous f t.
Proof. intro H. apply (ex_derive_continuous (V := R_NormedModule) f t). exists l. exact H. Qed.

(** [0 < g t \/ f t <> 0]: the curve is off the branch cut {x <= 0, y = 0} at t *)
Lemma is_derive_atan2 (f g : R -> R) t f' g' :
  is_derive f t f' -> is_derive g t g' -> (0 < g t \/ f t <> 0) ->
  is_derive (fun s => atan2 (f s) (g s)) t ((g t * f' - f t * g') / (f t * f t + g t * g t)).
Proof.
  intros Hf Hg Hoff.
  destruct (Rlt_dec 0 (g t)) as [Hgp|Hgp].
  - apply (is_derive_ext_loc (fun s => atan (f s / g s))).
    + generalize (locally_pos g t (derive_cont _ _ _ Hg) Hgp). apply filter_imp.
      intros s Hs. symmetry. apply atan2_right. exact Hs.
    + apply is_derive_atan_quot; [exact Hf|exact Hg|lra].
  - assert (Hfn : f t <> 0) by (destruct Hoff; [lra|assumption]).
    destruct (Rtotal_order (f t) 0) as [Hn|[Hz|Hp]]; [| contradiction |].
    + apply (is_derive_ext_loc (fun s => - (PI / 2) - atan (g s / f s))).
      * generalize (locally_neg f t (derive_cont _ _ _ Hf) Hn). apply filter_imp.
        intros s Hs. symmetry. apply atan2_lower. exact Hs.
      * pose proof (is_derive_atan_quot g f t g' f' Hg Hf Hfn) as Hq.
        evar_last.
        -- apply (is_derive_minus (V := R_NormedModule)); [apply is_derive_const | exact Hq].
        -- unfold minus, plus, opp, zero; simpl. field. apply Rgt_not_eq. nra.
    + apply (is_derive_ext_loc (fun s => PI / 2 - atan (g s / f s))).
      * generalize (locally_pos f t (derive_cont _ _ _ Hf) Hp). apply filter_imp.
        intros s Hs. symmetry. apply atan2_upper. exact Hs.
      * pose proof (is_derive_atan_quot g f t g' f' Hg Hf Hfn) as Hq.
        evar_last.
        -- apply (is_derive_minus (V := R_NormedModule)); [apply is_derive_const | exact Hq].
        -- unfold minus, plus, opp, zero; simpl. field. apply Rgt_not_eq. nra.
Qed.

Lemma is_derive_atan2_deg (f g : R -> R) t f' g' l :
  is_derive f t f' -> is_derive g t g' -> (0 < g t \/ f t <> 0) ->
  l = (g t * f' - f t * g') / (f t * f t + g t * g t) * (180 / PI) ->
  is_derive (fun s => atan2 (f s) (g s) * (180 / PI)) t l.
Proof.
  intros Hf Hg Ho ->. pose (a := fun s => atan2 (f s) (g s)).
  assert (Ha : is_derive a t ((g t * f' - f t * g') / (f t * f t + g t * g t)))
    by exact (is_derive_atan2 f g t f' g' Hf Hg Ho).
  change (is_derive (fun s => a s * (180 / PI)) t
    ((g t * f' - f t * g') / (f t * f t + g t * g t) * (180 / PI))).
  auto_derive; [exists ((g t * f' - f t * g') / (f t * f t + g t * g t)); exact Ha|].
  derive_val Ha. ring.
Qed.

(** ** A.3  derivatives at a point of norms, products and differences; the attitude angles in radians *)

Lemma is_derive_norm2 (u v : R -> R) u' v' :
  is_derive u 0 u' -> is_derive v 0 v' -> 0 < u 0 * u 0 + v 0 * v 0 ->
  is_derive (fun e => sqrt (u e * u e + v e * v e)) 0 ((u 0 * u' + v 0 * v') / sqrt (u 0 * u 0 + v 0 * v 0)).
Proof.
  intros Hu Hv Hpos. auto_derive; [repeat split; try (eexists; eassumption); exact Hpos|].
  derive_val Hu. derive_val Hv. field. apply Rgt_not_eq, sqrt_lt_R0, Hpos.
Qed.

Lemma is_derive_e_times (rho : R -> R) l :
  ex_derive rho 0 -> rho 0 = l -> is_derive (fun e => e * rho e) 0 l.
Proof.
  intros Hex H0. auto_derive; [exact Hex|]. rewrite H0. ring.
Qed.

Lemma d2r_in_pi a : -180 < a < 180 -> - PI < a * (PI / 180) < PI.
Proof. intros [H1 H2]. pose proof PI_RGT_0. split; nra. Qed.

(* abbreviations for the six trigonometric values of (roll, pitch, heading) with sin^2 = 1 - cos^2 *)
Ltac trig_abbrev roll pitch heading :=
  set (cr := cos (roll * (PI / 180))) in *; set (sr := sin (roll * (PI / 180))) in *;
  set (cp := cos (pitch * (PI / 180))) in *; set (sp := sin (pitch * (PI / 180))) in *;
  set (ch := cos (heading * (PI / 180))) in *; set (sh := sin (heading * (PI / 180))) in *;
  assert (Hr : sr * sr = 1 - cr * cr) by (pose proof (sc1 (roll * (PI / 180))); unfold sr, cr; lra);
  assert (Hp : sp * sp = 1 - cp * cp) by (pose proof (sc1 (pitch * (PI / 180))); unfold sp, cp; lra);
  assert (Hh : sh * sh = 1 - ch * ch) by (pose proof (sc1 (heading * (PI / 180))); unfold sh, ch; lra).

Lemma is_derive_mult_at_zero (f q : R -> R) l :
  f 0 = 0 -> is_derive f 0 l -> ex_derive q 0 -> is_derive (fun e => f e * q e) 0 (l * q 0).
Proof.
  intros F0 Df Eq. auto_derive; [repeat split; [eexists; exact Df | exact Eq]|].
  derive_val Df. rewrite F0. ring.
Qed.

Lemma locally_between (u : R -> R) lo hi : ex_derive u 0 -> lo < u 0 < hi -> locally 0 (fun e => lo < u e < hi).
Proof.
  intros [l Hu] [H1 H2].
  assert (Hc : continuous u 0) by (apply (derive_cont u 0 l); exact Hu).
  assert (L1 : locally 0 (fun e => 0 < u e - lo)).
  { apply (locally_pos (fun e => u e - lo)); [|lra].
    apply (continuous_minus (V := R_NormedModule) u (fun _ => lo)); [exact Hc | apply continuous_const]. }
  assert (L2 : locally 0 (fun e => 0 < hi - u e)).
  { apply (locally_pos (fun e => hi - u e)); [|lra].
    apply (continuous_minus (V := R_NormedModule) (fun _ => hi) u); [apply continuous_const | exact Hc]. }
  generalize (filter_and _ _ L1 L2). apply filter_imp. intros e [A B]. lra.
Qed.

Lemma is_derive_const_minus (f : R -> R) c t l :
  is_derive f t l -> is_derive (fun e => c - f e) t (- l).
Proof.
  intro H. auto_derive; [exists l; exact H|]. derive_val H. ring.
Qed.

Lemma is_derive_minus_const (f : R -> R) c t l :
  is_derive f t l -> is_derive (fun e => f e - c) t l.
Proof.
  intro H. auto_derive; [exists l; exact H|]. derive_val H. ring.
Qed.

Lemma is_derive_minus_lin (f : R -> R) l x : is_derive f 0 l -> is_derive (fun e => f e - e * x) 0 (l - x).
Proof. intro H. auto_derive; [split_conj; try exact I; eexists; exact H|]. derive_val H. ring. Qed.

(** ** A.4  scipy Rotation.from_rotvec along a ray  e |-> Rot(e * (a, b, c))

    The written specification [rotvec_mij] (Spec/LibSpecs.v) branches on |v| = 0.  Along a ray the
    entries are the smooth closed forms below (Rodrigues with the unit axis), for EVERY e and
    every (a, b, c), including (0,0,0): the factor [/ n] is only ever multiplied by a component
    that vanishes together with n. *)

Definition ray_n (a b c : R) : R := sqrt (a * a + b * b + c * c).
Definition ray_in (a b c : R) : R := / ray_n a b c.
Definition ray_s (a b c e : R) : R := sin (e * ray_n a b c) * ray_in a b c.
Definition ray_v (a b c e : R) : R := (1 - cos (e * ray_n a b c)) * (ray_in a b c * ray_in a b c).
Definition ray_c (a b c e : R) : R := cos (e * ray_n a b c).

Definition ray_m00 a b c e := ray_v a b c e * a * a + ray_c a b c e.
Definition ray_m01 a b c e := ray_v a b c e * a * b - ray_s a b c e * c.
Definition ray_m02 a b c e := ray_v a b c e * a * c + ray_s a b c e * b.
Definition ray_m10 a b c e := ray_v a b c e * b * a + ray_s a b c e * c.
Definition ray_m11 a b c e := ray_v a b c e * b * b + ray_c a b c e.
Definition ray_m12 a b c e := ray_v a b c e * b * c - ray_s a b c e * a.
Definition ray_m20 a b c e := ray_v a b c e * c * a - ray_s a b c e * b.
Definition ray_m21 a b c e := ray_v a b c e * c * b + ray_s a b c e * a.
Definition ray_m22 a b c e := ray_v a b c e * c * c + ray_c a b c e.

Lemma ray_sumsq_nonneg a b c : 0 <= a * a + b * b + c * c.
Proof. nra. Qed.

Lemma ray_n_sq a b c : ray_n a b c * ray_n a b c = a * a + b * b + c * c.
Proof. unfold ray_n. apply sqrt_sqrt. apply ray_sumsq_nonneg. Qed.

Lemma ray_n_nonneg a b c : 0 <= ray_n a b c.
Proof. unfold ray_n. apply sqrt_pos. Qed.

Lemma ray_n_zero a b c : ray_n a b c = 0 -> a = 0 /\ b = 0 /\ c = 0.
Proof.
  intro H. pose proof (ray_n_sq a b c) as Hs. rewrite H in Hs.
  assert (a * a = 0 /\ b * b = 0 /\ c * c = 0) as [Ha [Hb Hc]] by (repeat split; nra).
  repeat split; apply Rsqr_0_uniq; assumption.
Qed.

Lemma rv_norm_ray a b c e : rv_norm (e * a) (e * b) (e * c) = Rabs e * ray_n a b c.
Proof.
  unfold rv_norm, ray_n.
  replace (e * a * (e * a) + e * b * (e * b) + e * c * (e * c))
    with (Rsqr e * (a * a + b * b + c * c)) by (unfold Rsqr; ring).
  rewrite sqrt_mult; [|apply Rle_0_sqr|apply ray_sumsq_nonneg].
  rewrite sqrt_Rsqr_abs. reflexivity.
Qed.

Lemma rv_sumsq_ray a b c e :
  e * a * (e * a) + e * b * (e * b) + e * c * (e * c) = (e * ray_n a b c) * (e * ray_n a b c).
Proof.
  replace (e * ray_n a b c * (e * ray_n a b c)) with (e * e * (ray_n a b c * ray_n a b c)) by ring.
  rewrite ray_n_sq. ring.
Qed.

Lemma sin_abs_mul e n : sin (Rabs e * n) = (if Rcase_abs e then -1 else 1) * sin (e * n).
Proof.
  unfold Rabs. destruct (Rcase_abs e).
  - replace (- e * n) with (- (e * n)) by ring. rewrite sin_neg. ring.
  - ring.
Qed.

Lemma cos_abs_mul e n : cos (Rabs e * n) = cos (e * n).
Proof.
  unfold Rabs. destruct (Rcase_abs e).
  - replace (- e * n) with (- (e * n)) by ring. apply cos_neg.
  - reflexivity.
Qed.

Lemma rv_cos_ray a b c e : rv_cos (e * a) (e * b) (e * c) = ray_c a b c e.
Proof. unfold rv_cos, ray_c. rewrite rv_norm_ray. apply cos_abs_mul. Qed.

Lemma rv_k1_ray a b c e t : (ray_n a b c = 0 -> t = 0) ->
  rv_k1 (e * a) (e * b) (e * c) * (e * t) = ray_s a b c e * t.
Proof.
  intro Ht. unfold rv_k1, ray_s, ray_in. rewrite rv_norm_ray.
  destruct (Req_dec (ray_n a b c) 0) as [Hn|Hn].
  - rewrite (Ht Hn). ring.
  - destruct (Req_dec e 0) as [He|He].
    + subst e. rewrite Rabs_R0, !Rmult_0_l, sin_0.
      destruct (Req_EM_T 0 0) as [_|C]; [ring|contradiction].
    + assert (Habs : Rabs e <> 0) by (apply Rabs_no_R0; exact He).
      destruct (Req_EM_T (Rabs e * ray_n a b c) 0) as [C|_].
      { apply Rmult_integral in C. tauto. }
      rewrite sin_abs_mul. unfold Rabs in *. destruct (Rcase_abs e); field; split; assumption || lra.
Qed.

Lemma rv_k2_ray a b c e s t : (ray_n a b c = 0 -> s = 0) ->
  rv_k2 (e * a) (e * b) (e * c) * (e * s) * (e * t) = ray_v a b c e * s * t.
Proof.
  intro Hs. unfold rv_k2, ray_v, ray_in. rewrite rv_norm_ray, rv_sumsq_ray.
  destruct (Req_dec (ray_n a b c) 0) as [Hn|Hn].
  - rewrite (Hs Hn). ring.
  - destruct (Req_dec e 0) as [He|He].
    + subst e. rewrite Rabs_R0, !Rmult_0_l, cos_0.
      destruct (Req_EM_T 0 0) as [_|C]; [ring|contradiction].
    + assert (Habs : Rabs e <> 0) by (apply Rabs_no_R0; exact He).
      destruct (Req_EM_T (Rabs e * ray_n a b c) 0) as [C|_].
      { apply Rmult_integral in C. tauto. }
      rewrite cos_abs_mul. field. split; assumption.
Qed.

Ltac ray_side := let Hz := fresh "Hz" in intro Hz; apply ray_n_zero in Hz; tauto.

Lemma rotvec_ray a b c e :
  rotvec_m00 (e * a) (e * b) (e * c) = ray_m00 a b c e /\
  rotvec_m01 (e * a) (e * b) (e * c) = ray_m01 a b c e /\
  rotvec_m02 (e * a) (e * b) (e * c) = ray_m02 a b c e /\
  rotvec_m10 (e * a) (e * b) (e * c) = ray_m10 a b c e /\
  rotvec_m11 (e * a) (e * b) (e * c) = ray_m11 a b c e /\
  rotvec_m12 (e * a) (e * b) (e * c) = ray_m12 a b c e /\
  rotvec_m20 (e * a) (e * b) (e * c) = ray_m20 a b c e /\
  rotvec_m21 (e * a) (e * b) (e * c) = ray_m21 a b c e /\
  rotvec_m22 (e * a) (e * b) (e * c) = ray_m22 a b c e.
Proof.
  unfold rotvec_m00, rotvec_m01, rotvec_m02, rotvec_m10, rotvec_m11, rotvec_m12,
    rotvec_m20, rotvec_m21, rotvec_m22,
    ray_m00, ray_m01, ray_m02, ray_m10, ray_m11, ray_m12, ray_m20, ray_m21, ray_m22.
  rewrite rv_cos_ray.
  rewrite (rv_k1_ray a b c e a), (rv_k1_ray a b c e b), (rv_k1_ray a b c e c) by ray_side.
  rewrite (rv_k2_ray a b c e a a), (rv_k2_ray a b c e a b), (rv_k2_ray a b c e a c),
    (rv_k2_ray a b c e b a), (rv_k2_ray a b c e b b), (rv_k2_ray a b c e b c),
    (rv_k2_ray a b c e c a), (rv_k2_ray a b c e c b), (rv_k2_ray a b c e c c) by ray_side.
  repeat split; reflexivity.
Qed.

Lemma ray_s_derive a b c t : (ray_n a b c = 0 -> t = 0) ->
  is_derive (fun e => ray_s a b c e * t) 0 t.
Proof.
  intro Ht. unfold ray_s. auto_derive; [exact I|].
  rewrite !Rmult_0_l, cos_0. unfold ray_in.
  destruct (Req_dec (ray_n a b c) 0) as [Hn|Hn]; [rewrite (Ht Hn); ring | field; exact Hn].
Qed.

Lemma ray_v_derive a b c : is_derive (ray_v a b c) 0 0.
Proof.
  unfold ray_v. auto_derive; [exact I|]. rewrite !Rmult_0_l, sin_0. ring.
Qed.

Lemma ray_c_derive a b c : is_derive (ray_c a b c) 0 0.
Proof.
  unfold ray_c. auto_derive; [exact I|]. rewrite !Rmult_0_l, sin_0. ring.
Qed.

(** * Part B: the output / internal transforms as matrices (C05 a, d) *)

(** Small matrices as functions of two indices; the products of Part B all have inner dimension 9. *)
Definition mat := nat -> nat -> R.
Fixpoint sumN (n : nat) (f : nat -> R) : R := match n with O => 0 | S m => sumN m f + f m end.
Definition mmul (n : nat) (A B : mat) : mat := fun i j => sumN n (fun k => A i k * B k j).
Definition I_ : mat := fun i j => if Nat.eqb i j then 1 else 0.
Definition meq (r c : nat) (A B : mat) : Prop := forall i j, (i < r)%nat -> (j < c)%nat -> A i j = B i j.
Definition mvec (n : nat) (A : mat) (x : nat -> R) : nat -> R := fun i => sumN n (fun k => A i k * x k).

(** Assembly of the GENERATED entries into matrices (pure index bookkeeping). *)
Definition Tout3 (lat lon alt VN VE VD roll pitch heading : R) (i j : nat) : R :=
  match i, j with
  | 0, 0 => to_output3d_t00 lat lon alt VN VE VD roll pitch heading | 0, 1 => to_output3d_t01 lat lon alt VN VE VD roll pitch heading | 0, 2 => to_output3d_t02 lat lon alt VN VE VD roll pitch heading | 0, 3 => to_output3d_t03 lat lon alt VN VE VD roll pitch heading | 0, 4 => to_output3d_t04 lat lon alt VN VE VD roll pitch heading | 0, 5 => to_output3d_t05 lat lon alt VN VE VD roll pitch heading | 0, 6 => to_output3d_t06 lat lon alt VN VE VD roll pitch heading | 0, 7 => to_output3d_t07 lat lon alt VN VE VD roll pitch heading | 0, 8 => to_output3d_t08 lat lon alt VN VE VD roll pitch heading
  | 1, 0 => to_output3d_t10 lat lon alt VN VE VD roll pitch heading | 1, 1 => to_output3d_t11 lat lon alt VN VE VD roll pitch heading | 1, 2 => to_output3d_t12 lat lon alt VN VE VD roll pitch heading | 1, 3 => to_output3d_t13 lat lon alt VN VE VD roll pitch heading | 1, 4 => to_output3d_t14 lat lon alt VN VE VD roll pitch heading | 1, 5 => to_output3d_t15 lat lon alt VN VE VD roll pitch heading | 1, 6 => to_output3d_t16 lat lon alt VN VE VD roll pitch heading | 1, 7 => to_output3d_t17 lat lon alt VN VE VD roll pitch heading | 1, 8 => to_output3d_t18 lat lon alt VN VE VD roll pitch heading
  | 2, 0 => to_output3d_t20 lat lon alt VN VE VD roll pitch heading | 2, 1 => to_output3d_t21 lat lon alt VN VE VD roll pitch heading | 2, 2 => to_output3d_t22 lat lon alt VN VE VD roll pitch heading | 2, 3 => to_output3d_t23 lat lon alt VN VE VD roll pitch heading | 2, 4 => to_output3d_t24 lat lon alt VN VE VD roll pitch heading | 2, 5 => to_output3d_t25 lat lon alt VN VE VD roll pitch heading | 2, 6 => to_output3d_t26 lat lon alt VN VE VD roll pitch heading | 2, 7 => to_output3d_t27 lat lon alt VN VE VD roll pitch heading | 2, 8 => to_output3d_t28 lat lon alt VN VE VD roll pitch heading
  | 3, 0 => to_output3d_t30 lat lon alt VN VE VD roll pitch heading | 3, 1 => to_output3d_t31 lat lon alt VN VE VD roll pitch heading | 3, 2 => to_output3d_t32 lat lon alt VN VE VD roll pitch heading | 3, 3 => to_output3d_t33 lat lon alt VN VE VD roll pitch heading | 3, 4 => to_output3d_t34 lat lon alt VN VE VD roll pitch heading | 3, 5 => to_output3d_t35 lat lon alt VN VE VD roll pitch heading | 3, 6 => to_output3d_t36 lat lon alt VN VE VD roll pitch heading | 3, 7 => to_output3d_t37 lat lon alt VN VE VD roll pitch heading | 3, 8 => to_output3d_t38 lat lon alt VN VE VD roll pitch heading
  | 4, 0 => to_output3d_t40 lat lon alt VN VE VD roll pitch heading | 4, 1 => to_output3d_t41 lat lon alt VN VE VD roll pitch heading | 4, 2 => to_output3d_t42 lat lon alt VN VE VD roll pitch heading | 4, 3 => to_output3d_t43 lat lon alt VN VE VD roll pitch heading | 4, 4 => to_output3d_t44 lat lon alt VN VE VD roll pitch heading | 4, 5 => to_output3d_t45 lat lon alt VN VE VD roll pitch heading | 4, 6 => to_output3d_t46 lat lon alt VN VE VD roll pitch heading | 4, 7 => to_output3d_t47 lat lon alt VN VE VD roll pitch heading | 4, 8 => to_output3d_t48 lat lon alt VN VE VD roll pitch heading
  | 5, 0 => to_output3d_t50 lat lon alt VN VE VD roll pitch heading | 5, 1 => to_output3d_t51 lat lon alt VN VE VD roll pitch heading | 5, 2 => to_output3d_t52 lat lon alt VN VE VD roll pitch heading | 5, 3 => to_output3d_t53 lat lon alt VN VE VD roll pitch heading | 5, 4 => to_output3d_t54 lat lon alt VN VE VD roll pitch heading | 5, 5 => to_output3d_t55 lat lon alt VN VE VD roll pitch heading | 5, 6 => to_output3d_t56 lat lon alt VN VE VD roll pitch heading | 5, 7 => to_output3d_t57 lat lon alt VN VE VD roll pitch heading | 5, 8 => to_output3d_t58 lat lon alt VN VE VD roll pitch heading
  | 6, 0 => to_output3d_t60 lat lon alt VN VE VD roll pitch heading | 6, 1 => to_output3d_t61 lat lon alt VN VE VD roll pitch heading | 6, 2 => to_output3d_t62 lat lon alt VN VE VD roll pitch heading | 6, 3 => to_output3d_t63 lat lon alt VN VE VD roll pitch heading | 6, 4 => to_output3d_t64 lat lon alt VN VE VD roll pitch heading | 6, 5 => to_output3d_t65 lat lon alt VN VE VD roll pitch heading | 6, 6 => to_output3d_t66 lat lon alt VN VE VD roll pitch heading | 6, 7 => to_output3d_t67 lat lon alt VN VE VD roll pitch heading | 6, 8 => to_output3d_t68 lat lon alt VN VE VD roll pitch heading
  | 7, 0 => to_output3d_t70 lat lon alt VN VE VD roll pitch heading | 7, 1 => to_output3d_t71 lat lon alt VN VE VD roll pitch heading | 7, 2 => to_output3d_t72 lat lon alt VN VE VD roll pitch heading | 7, 3 => to_output3d_t73 lat lon alt VN VE VD roll pitch heading | 7, 4 => to_output3d_t74 lat lon alt VN VE VD roll pitch heading | 7, 5 => to_output3d_t75 lat lon alt VN VE VD roll pitch heading | 7, 6 => to_output3d_t76 lat lon alt VN VE VD roll pitch heading | 7, 7 => to_output3d_t77 lat lon alt VN VE VD roll pitch heading | 7, 8 => to_output3d_t78 lat lon alt VN VE VD roll pitch heading
  | 8, 0 => to_output3d_t80 lat lon alt VN VE VD roll pitch heading | 8, 1 => to_output3d_t81 lat lon alt VN VE VD roll pitch heading | 8, 2 => to_output3d_t82 lat lon alt VN VE VD roll pitch heading | 8, 3 => to_output3d_t83 lat lon alt VN VE VD roll pitch heading | 8, 4 => to_output3d_t84 lat lon alt VN VE VD roll pitch heading | 8, 5 => to_output3d_t85 lat lon alt VN VE VD roll pitch heading | 8, 6 => to_output3d_t86 lat lon alt VN VE VD roll pitch heading | 8, 7 => to_output3d_t87 lat lon alt VN VE VD roll pitch heading | 8, 8 => to_output3d_t88 lat lon alt VN VE VD roll pitch heading
  | _, _ => 0%R
  end%nat.

Definition Tout2 (lat lon alt VN VE VD roll pitch heading : R) (i j : nat) : R :=
  match i, j with
  | 0, 0 => to_output2d_t00 lat lon alt VN VE VD roll pitch heading | 0, 1 => to_output2d_t01 lat lon alt VN VE VD roll pitch heading | 0, 2 => to_output2d_t02 lat lon alt VN VE VD roll pitch heading | 0, 3 => to_output2d_t03 lat lon alt VN VE VD roll pitch heading | 0, 4 => to_output2d_t04 lat lon alt VN VE VD roll pitch heading | 0, 5 => to_output2d_t05 lat lon alt VN VE VD roll pitch heading | 0, 6 => to_output2d_t06 lat lon alt VN VE VD roll pitch heading
  | 1, 0 => to_output2d_t10 lat lon alt VN VE VD roll pitch heading | 1, 1 => to_output2d_t11 lat lon alt VN VE VD roll pitch heading | 1, 2 => to_output2d_t12 lat lon alt VN VE VD roll pitch heading | 1, 3 => to_output2d_t13 lat lon alt VN VE VD roll pitch heading | 1, 4 => to_output2d_t14 lat lon alt VN VE VD roll pitch heading | 1, 5 => to_output2d_t15 lat lon alt VN VE VD roll pitch heading | 1, 6 => to_output2d_t16 lat lon alt VN VE VD roll pitch heading
  | 2, 0 => to_output2d_t20 lat lon alt VN VE VD roll pitch heading | 2, 1 => to_output2d_t21 lat lon alt VN VE VD roll pitch heading | 2, 2 => to_output2d_t22 lat lon alt VN VE VD roll pitch heading | 2, 3 => to_output2d_t23 lat lon alt VN VE VD roll pitch heading | 2, 4 => to_output2d_t24 lat lon alt VN VE VD roll pitch heading | 2, 5 => to_output2d_t25 lat lon alt VN VE VD roll pitch heading | 2, 6 => to_output2d_t26 lat lon alt VN VE VD roll pitch heading
  | 3, 0 => to_output2d_t30 lat lon alt VN VE VD roll pitch heading | 3, 1 => to_output2d_t31 lat lon alt VN VE VD roll pitch heading | 3, 2 => to_output2d_t32 lat lon alt VN VE VD roll pitch heading | 3, 3 => to_output2d_t33 lat lon alt VN VE VD roll pitch heading | 3, 4 => to_output2d_t34 lat lon alt VN VE VD roll pitch heading | 3, 5 => to_output2d_t35 lat lon alt VN VE VD roll pitch heading | 3, 6 => to_output2d_t36 lat lon alt VN VE VD roll pitch heading
  | 4, 0 => to_output2d_t40 lat lon alt VN VE VD roll pitch heading | 4, 1 => to_output2d_t41 lat lon alt VN VE VD roll pitch heading | 4, 2 => to_output2d_t42 lat lon alt VN VE VD roll pitch heading | 4, 3 => to_output2d_t43 lat lon alt VN VE VD roll pitch heading | 4, 4 => to_output2d_t44 lat lon alt VN VE VD roll pitch heading | 4, 5 => to_output2d_t45 lat lon alt VN VE VD roll pitch heading | 4, 6 => to_output2d_t46 lat lon alt VN VE VD roll pitch heading
  | 5, 0 => to_output2d_t50 lat lon alt VN VE VD roll pitch heading | 5, 1 => to_output2d_t51 lat lon alt VN VE VD roll pitch heading | 5, 2 => to_output2d_t52 lat lon alt VN VE VD roll pitch heading | 5, 3 => to_output2d_t53 lat lon alt VN VE VD roll pitch heading | 5, 4 => to_output2d_t54 lat lon alt VN VE VD roll pitch heading | 5, 5 => to_output2d_t55 lat lon alt VN VE VD roll pitch heading | 5, 6 => to_output2d_t56 lat lon alt VN VE VD roll pitch heading
  | 6, 0 => to_output2d_t60 lat lon alt VN VE VD roll pitch heading | 6, 1 => to_output2d_t61 lat lon alt VN VE VD roll pitch heading | 6, 2 => to_output2d_t62 lat lon alt VN VE VD roll pitch heading | 6, 3 => to_output2d_t63 lat lon alt VN VE VD roll pitch heading | 6, 4 => to_output2d_t64 lat lon alt VN VE VD roll pitch heading | 6, 5 => to_output2d_t65 lat lon alt VN VE VD roll pitch heading | 6, 6 => to_output2d_t66 lat lon alt VN VE VD roll pitch heading
  | 7, 0 => to_output2d_t70 lat lon alt VN VE VD roll pitch heading | 7, 1 => to_output2d_t71 lat lon alt VN VE VD roll pitch heading | 7, 2 => to_output2d_t72 lat lon alt VN VE VD roll pitch heading | 7, 3 => to_output2d_t73 lat lon alt VN VE VD roll pitch heading | 7, 4 => to_output2d_t74 lat lon alt VN VE VD roll pitch heading | 7, 5 => to_output2d_t75 lat lon alt VN VE VD roll pitch heading | 7, 6 => to_output2d_t76 lat lon alt VN VE VD roll pitch heading
  | 8, 0 => to_output2d_t80 lat lon alt VN VE VD roll pitch heading | 8, 1 => to_output2d_t81 lat lon alt VN VE VD roll pitch heading | 8, 2 => to_output2d_t82 lat lon alt VN VE VD roll pitch heading | 8, 3 => to_output2d_t83 lat lon alt VN VE VD roll pitch heading | 8, 4 => to_output2d_t84 lat lon alt VN VE VD roll pitch heading | 8, 5 => to_output2d_t85 lat lon alt VN VE VD roll pitch heading | 8, 6 => to_output2d_t86 lat lon alt VN VE VD roll pitch heading
  | _, _ => 0%R
  end%nat.

Definition T32 (VN VE : R) (i j : nat) : R :=
  match i, j with
  | 0, 0 => t32_t00 VN VE | 0, 1 => t32_t01 VN VE | 0, 2 => t32_t02 VN VE | 0, 3 => t32_t03 VN VE | 0, 4 => t32_t04 VN VE | 0, 5 => t32_t05 VN VE | 0, 6 => t32_t06 VN VE
  | 1, 0 => t32_t10 VN VE | 1, 1 => t32_t11 VN VE | 1, 2 => t32_t12 VN VE | 1, 3 => t32_t13 VN VE | 1, 4 => t32_t14 VN VE | 1, 5 => t32_t15 VN VE | 1, 6 => t32_t16 VN VE
  | 2, 0 => t32_t20 VN VE | 2, 1 => t32_t21 VN VE | 2, 2 => t32_t22 VN VE | 2, 3 => t32_t23 VN VE | 2, 4 => t32_t24 VN VE | 2, 5 => t32_t25 VN VE | 2, 6 => t32_t26 VN VE
  | 3, 0 => t32_t30 VN VE | 3, 1 => t32_t31 VN VE | 3, 2 => t32_t32 VN VE | 3, 3 => t32_t33 VN VE | 3, 4 => t32_t34 VN VE | 3, 5 => t32_t35 VN VE | 3, 6 => t32_t36 VN VE
  | 4, 0 => t32_t40 VN VE | 4, 1 => t32_t41 VN VE | 4, 2 => t32_t42 VN VE | 4, 3 => t32_t43 VN VE | 4, 4 => t32_t44 VN VE | 4, 5 => t32_t45 VN VE | 4, 6 => t32_t46 VN VE
  | 5, 0 => t32_t50 VN VE | 5, 1 => t32_t51 VN VE | 5, 2 => t32_t52 VN VE | 5, 3 => t32_t53 VN VE | 5, 4 => t32_t54 VN VE | 5, 5 => t32_t55 VN VE | 5, 6 => t32_t56 VN VE
  | 6, 0 => t32_t60 VN VE | 6, 1 => t32_t61 VN VE | 6, 2 => t32_t62 VN VE | 6, 3 => t32_t63 VN VE | 6, 4 => t32_t64 VN VE | 6, 5 => t32_t65 VN VE | 6, 6 => t32_t66 VN VE
  | 7, 0 => t32_t70 VN VE | 7, 1 => t32_t71 VN VE | 7, 2 => t32_t72 VN VE | 7, 3 => t32_t73 VN VE | 7, 4 => t32_t74 VN VE | 7, 5 => t32_t75 VN VE | 7, 6 => t32_t76 VN VE
  | 8, 0 => t32_t80 VN VE | 8, 1 => t32_t81 VN VE | 8, 2 => t32_t82 VN VE | 8, 3 => t32_t83 VN VE | 8, 4 => t32_t84 VN VE | 8, 5 => t32_t85 VN VE | 8, 6 => t32_t86 VN VE
  | _, _ => 0%R
  end%nat.

Definition T23 (i j : nat) : R :=
  match i, j with
  | 0, 0 => t23_t00 | 0, 1 => t23_t01 | 0, 2 => t23_t02 | 0, 3 => t23_t03 | 0, 4 => t23_t04 | 0, 5 => t23_t05 | 0, 6 => t23_t06 | 0, 7 => t23_t07 | 0, 8 => t23_t08
  | 1, 0 => t23_t10 | 1, 1 => t23_t11 | 1, 2 => t23_t12 | 1, 3 => t23_t13 | 1, 4 => t23_t14 | 1, 5 => t23_t15 | 1, 6 => t23_t16 | 1, 7 => t23_t17 | 1, 8 => t23_t18
  | 2, 0 => t23_t20 | 2, 1 => t23_t21 | 2, 2 => t23_t22 | 2, 3 => t23_t23 | 2, 4 => t23_t24 | 2, 5 => t23_t25 | 2, 6 => t23_t26 | 2, 7 => t23_t27 | 2, 8 => t23_t28
  | 3, 0 => t23_t30 | 3, 1 => t23_t31 | 3, 2 => t23_t32 | 3, 3 => t23_t33 | 3, 4 => t23_t34 | 3, 5 => t23_t35 | 3, 6 => t23_t36 | 3, 7 => t23_t37 | 3, 8 => t23_t38
  | 4, 0 => t23_t40 | 4, 1 => t23_t41 | 4, 2 => t23_t42 | 4, 3 => t23_t43 | 4, 4 => t23_t44 | 4, 5 => t23_t45 | 4, 6 => t23_t46 | 4, 7 => t23_t47 | 4, 8 => t23_t48
  | 5, 0 => t23_t50 | 5, 1 => t23_t51 | 5, 2 => t23_t52 | 5, 3 => t23_t53 | 5, 4 => t23_t54 | 5, 5 => t23_t55 | 5, 6 => t23_t56 | 5, 7 => t23_t57 | 5, 8 => t23_t58
  | 6, 0 => t23_t60 | 6, 1 => t23_t61 | 6, 2 => t23_t62 | 6, 3 => t23_t63 | 6, 4 => t23_t64 | 6, 5 => t23_t65 | 6, 6 => t23_t66 | 6, 7 => t23_t67 | 6, 8 => t23_t68
  | _, _ => 0%R
  end%nat.

Definition TintArg3 (lat lon alt VN VE VD roll pitch heading : R) (i j : nat) : R :=
  match i, j with
  | 0, 0 => to_internal3d_arg_a00 lat lon alt VN VE VD roll pitch heading | 0, 1 => to_internal3d_arg_a01 lat lon alt VN VE VD roll pitch heading | 0, 2 => to_internal3d_arg_a02 lat lon alt VN VE VD roll pitch heading | 0, 3 => to_internal3d_arg_a03 lat lon alt VN VE VD roll pitch heading | 0, 4 => to_internal3d_arg_a04 lat lon alt VN VE VD roll pitch heading | 0, 5 => to_internal3d_arg_a05 lat lon alt VN VE VD roll pitch heading | 0, 6 => to_internal3d_arg_a06 lat lon alt VN VE VD roll pitch heading | 0, 7 => to_internal3d_arg_a07 lat lon alt VN VE VD roll pitch heading | 0, 8 => to_internal3d_arg_a08 lat lon alt VN VE VD roll pitch heading
  | 1, 0 => to_internal3d_arg_a10 lat lon alt VN VE VD roll pitch heading | 1, 1 => to_internal3d_arg_a11 lat lon alt VN VE VD roll pitch heading | 1, 2 => to_internal3d_arg_a12 lat lon alt VN VE VD roll pitch heading | 1, 3 => to_internal3d_arg_a13 lat lon alt VN VE VD roll pitch heading | 1, 4 => to_internal3d_arg_a14 lat lon alt VN VE VD roll pitch heading | 1, 5 => to_internal3d_arg_a15 lat lon alt VN VE VD roll pitch heading | 1, 6 => to_internal3d_arg_a16 lat lon alt VN VE VD roll pitch heading | 1, 7 => to_internal3d_arg_a17 lat lon alt VN VE VD roll pitch heading | 1, 8 => to_internal3d_arg_a18 lat lon alt VN VE VD roll pitch heading
  | 2, 0 => to_internal3d_arg_a20 lat lon alt VN VE VD roll pitch heading | 2, 1 => to_internal3d_arg_a21 lat lon alt VN VE VD roll pitch heading | 2, 2 => to_internal3d_arg_a22 lat lon alt VN VE VD roll pitch heading | 2, 3 => to_internal3d_arg_a23 lat lon alt VN VE VD roll pitch heading | 2, 4 => to_internal3d_arg_a24 lat lon alt VN VE VD roll pitch heading | 2, 5 => to_internal3d_arg_a25 lat lon alt VN VE VD roll pitch heading | 2, 6 => to_internal3d_arg_a26 lat lon alt VN VE VD roll pitch heading | 2, 7 => to_internal3d_arg_a27 lat lon alt VN VE VD roll pitch heading | 2, 8 => to_internal3d_arg_a28 lat lon alt VN VE VD roll pitch heading
  | 3, 0 => to_internal3d_arg_a30 lat lon alt VN VE VD roll pitch heading | 3, 1 => to_internal3d_arg_a31 lat lon alt VN VE VD roll pitch heading | 3, 2 => to_internal3d_arg_a32 lat lon alt VN VE VD roll pitch heading | 3, 3 => to_internal3d_arg_a33 lat lon alt VN VE VD roll pitch heading | 3, 4 => to_internal3d_arg_a34 lat lon alt VN VE VD roll pitch heading | 3, 5 => to_internal3d_arg_a35 lat lon alt VN VE VD roll pitch heading | 3, 6 => to_internal3d_arg_a36 lat lon alt VN VE VD roll pitch heading | 3, 7 => to_internal3d_arg_a37 lat lon alt VN VE VD roll pitch heading | 3, 8 => to_internal3d_arg_a38 lat lon alt VN VE VD roll pitch heading
  | 4, 0 => to_internal3d_arg_a40 lat lon alt VN VE VD roll pitch heading | 4, 1 => to_internal3d_arg_a41 lat lon alt VN VE VD roll pitch heading | 4, 2 => to_internal3d_arg_a42 lat lon alt VN VE VD roll pitch heading | 4, 3 => to_internal3d_arg_a43 lat lon alt VN VE VD roll pitch heading | 4, 4 => to_internal3d_arg_a44 lat lon alt VN VE VD roll pitch heading | 4, 5 => to_internal3d_arg_a45 lat lon alt VN VE VD roll pitch heading | 4, 6 => to_internal3d_arg_a46 lat lon alt VN VE VD roll pitch heading | 4, 7 => to_internal3d_arg_a47 lat lon alt VN VE VD roll pitch heading | 4, 8 => to_internal3d_arg_a48 lat lon alt VN VE VD roll pitch heading
  | 5, 0 => to_internal3d_arg_a50 lat lon alt VN VE VD roll pitch heading | 5, 1 => to_internal3d_arg_a51 lat lon alt VN VE VD roll pitch heading | 5, 2 => to_internal3d_arg_a52 lat lon alt VN VE VD roll pitch heading | 5, 3 => to_internal3d_arg_a53 lat lon alt VN VE VD roll pitch heading | 5, 4 => to_internal3d_arg_a54 lat lon alt VN VE VD roll pitch heading | 5, 5 => to_internal3d_arg_a55 lat lon alt VN VE VD roll pitch heading | 5, 6 => to_internal3d_arg_a56 lat lon alt VN VE VD roll pitch heading | 5, 7 => to_internal3d_arg_a57 lat lon alt VN VE VD roll pitch heading | 5, 8 => to_internal3d_arg_a58 lat lon alt VN VE VD roll pitch heading
  | 6, 0 => to_internal3d_arg_a60 lat lon alt VN VE VD roll pitch heading | 6, 1 => to_internal3d_arg_a61 lat lon alt VN VE VD roll pitch heading | 6, 2 => to_internal3d_arg_a62 lat lon alt VN VE VD roll pitch heading | 6, 3 => to_internal3d_arg_a63 lat lon alt VN VE VD roll pitch heading | 6, 4 => to_internal3d_arg_a64 lat lon alt VN VE VD roll pitch heading | 6, 5 => to_internal3d_arg_a65 lat lon alt VN VE VD roll pitch heading | 6, 6 => to_internal3d_arg_a66 lat lon alt VN VE VD roll pitch heading | 6, 7 => to_internal3d_arg_a67 lat lon alt VN VE VD roll pitch heading | 6, 8 => to_internal3d_arg_a68 lat lon alt VN VE VD roll pitch heading
  | 7, 0 => to_internal3d_arg_a70 lat lon alt VN VE VD roll pitch heading | 7, 1 => to_internal3d_arg_a71 lat lon alt VN VE VD roll pitch heading | 7, 2 => to_internal3d_arg_a72 lat lon alt VN VE VD roll pitch heading | 7, 3 => to_internal3d_arg_a73 lat lon alt VN VE VD roll pitch heading | 7, 4 => to_internal3d_arg_a74 lat lon alt VN VE VD roll pitch heading | 7, 5 => to_internal3d_arg_a75 lat lon alt VN VE VD roll pitch heading | 7, 6 => to_internal3d_arg_a76 lat lon alt VN VE VD roll pitch heading | 7, 7 => to_internal3d_arg_a77 lat lon alt VN VE VD roll pitch heading | 7, 8 => to_internal3d_arg_a78 lat lon alt VN VE VD roll pitch heading
  | 8, 0 => to_internal3d_arg_a80 lat lon alt VN VE VD roll pitch heading | 8, 1 => to_internal3d_arg_a81 lat lon alt VN VE VD roll pitch heading | 8, 2 => to_internal3d_arg_a82 lat lon alt VN VE VD roll pitch heading | 8, 3 => to_internal3d_arg_a83 lat lon alt VN VE VD roll pitch heading | 8, 4 => to_internal3d_arg_a84 lat lon alt VN VE VD roll pitch heading | 8, 5 => to_internal3d_arg_a85 lat lon alt VN VE VD roll pitch heading | 8, 6 => to_internal3d_arg_a86 lat lon alt VN VE VD roll pitch heading | 8, 7 => to_internal3d_arg_a87 lat lon alt VN VE VD roll pitch heading | 8, 8 => to_internal3d_arg_a88 lat lon alt VN VE VD roll pitch heading
  | _, _ => 0%R
  end%nat.

Definition TintArg2 (lat lon alt VN VE VD roll pitch heading : R) (i j : nat) : R :=
  match i, j with
  | 0, 0 => to_internal2d_arg_a00 lat lon alt VN VE VD roll pitch heading | 0, 1 => to_internal2d_arg_a01 lat lon alt VN VE VD roll pitch heading | 0, 2 => to_internal2d_arg_a02 lat lon alt VN VE VD roll pitch heading | 0, 3 => to_internal2d_arg_a03 lat lon alt VN VE VD roll pitch heading | 0, 4 => to_internal2d_arg_a04 lat lon alt VN VE VD roll pitch heading | 0, 5 => to_internal2d_arg_a05 lat lon alt VN VE VD roll pitch heading | 0, 6 => to_internal2d_arg_a06 lat lon alt VN VE VD roll pitch heading | 0, 7 => to_internal2d_arg_a07 lat lon alt VN VE VD roll pitch heading | 0, 8 => to_internal2d_arg_a08 lat lon alt VN VE VD roll pitch heading
  | 1, 0 => to_internal2d_arg_a10 lat lon alt VN VE VD roll pitch heading | 1, 1 => to_internal2d_arg_a11 lat lon alt VN VE VD roll pitch heading | 1, 2 => to_internal2d_arg_a12 lat lon alt VN VE VD roll pitch heading | 1, 3 => to_internal2d_arg_a13 lat lon alt VN VE VD roll pitch heading | 1, 4 => to_internal2d_arg_a14 lat lon alt VN VE VD roll pitch heading | 1, 5 => to_internal2d_arg_a15 lat lon alt VN VE VD roll pitch heading | 1, 6 => to_internal2d_arg_a16 lat lon alt VN VE VD roll pitch heading | 1, 7 => to_internal2d_arg_a17 lat lon alt VN VE VD roll pitch heading | 1, 8 => to_internal2d_arg_a18 lat lon alt VN VE VD roll pitch heading
  | 2, 0 => to_internal2d_arg_a20 lat lon alt VN VE VD roll pitch heading | 2, 1 => to_internal2d_arg_a21 lat lon alt VN VE VD roll pitch heading | 2, 2 => to_internal2d_arg_a22 lat lon alt VN VE VD roll pitch heading | 2, 3 => to_internal2d_arg_a23 lat lon alt VN VE VD roll pitch heading | 2, 4 => to_internal2d_arg_a24 lat lon alt VN VE VD roll pitch heading | 2, 5 => to_internal2d_arg_a25 lat lon alt VN VE VD roll pitch heading | 2, 6 => to_internal2d_arg_a26 lat lon alt VN VE VD roll pitch heading | 2, 7 => to_internal2d_arg_a27 lat lon alt VN VE VD roll pitch heading | 2, 8 => to_internal2d_arg_a28 lat lon alt VN VE VD roll pitch heading
  | 3, 0 => to_internal2d_arg_a30 lat lon alt VN VE VD roll pitch heading | 3, 1 => to_internal2d_arg_a31 lat lon alt VN VE VD roll pitch heading | 3, 2 => to_internal2d_arg_a32 lat lon alt VN VE VD roll pitch heading | 3, 3 => to_internal2d_arg_a33 lat lon alt VN VE VD roll pitch heading | 3, 4 => to_internal2d_arg_a34 lat lon alt VN VE VD roll pitch heading | 3, 5 => to_internal2d_arg_a35 lat lon alt VN VE VD roll pitch heading | 3, 6 => to_internal2d_arg_a36 lat lon alt VN VE VD roll pitch heading | 3, 7 => to_internal2d_arg_a37 lat lon alt VN VE VD roll pitch heading | 3, 8 => to_internal2d_arg_a38 lat lon alt VN VE VD roll pitch heading
  | 4, 0 => to_internal2d_arg_a40 lat lon alt VN VE VD roll pitch heading | 4, 1 => to_internal2d_arg_a41 lat lon alt VN VE VD roll pitch heading | 4, 2 => to_internal2d_arg_a42 lat lon alt VN VE VD roll pitch heading | 4, 3 => to_internal2d_arg_a43 lat lon alt VN VE VD roll pitch heading | 4, 4 => to_internal2d_arg_a44 lat lon alt VN VE VD roll pitch heading | 4, 5 => to_internal2d_arg_a45 lat lon alt VN VE VD roll pitch heading | 4, 6 => to_internal2d_arg_a46 lat lon alt VN VE VD roll pitch heading | 4, 7 => to_internal2d_arg_a47 lat lon alt VN VE VD roll pitch heading | 4, 8 => to_internal2d_arg_a48 lat lon alt VN VE VD roll pitch heading
  | 5, 0 => to_internal2d_arg_a50 lat lon alt VN VE VD roll pitch heading | 5, 1 => to_internal2d_arg_a51 lat lon alt VN VE VD roll pitch heading | 5, 2 => to_internal2d_arg_a52 lat lon alt VN VE VD roll pitch heading | 5, 3 => to_internal2d_arg_a53 lat lon alt VN VE VD roll pitch heading | 5, 4 => to_internal2d_arg_a54 lat lon alt VN VE VD roll pitch heading | 5, 5 => to_internal2d_arg_a55 lat lon alt VN VE VD roll pitch heading | 5, 6 => to_internal2d_arg_a56 lat lon alt VN VE VD roll pitch heading | 5, 7 => to_internal2d_arg_a57 lat lon alt VN VE VD roll pitch heading | 5, 8 => to_internal2d_arg_a58 lat lon alt VN VE VD roll pitch heading
  | 6, 0 => to_internal2d_arg_a60 lat lon alt VN VE VD roll pitch heading | 6, 1 => to_internal2d_arg_a61 lat lon alt VN VE VD roll pitch heading | 6, 2 => to_internal2d_arg_a62 lat lon alt VN VE VD roll pitch heading | 6, 3 => to_internal2d_arg_a63 lat lon alt VN VE VD roll pitch heading | 6, 4 => to_internal2d_arg_a64 lat lon alt VN VE VD roll pitch heading | 6, 5 => to_internal2d_arg_a65 lat lon alt VN VE VD roll pitch heading | 6, 6 => to_internal2d_arg_a66 lat lon alt VN VE VD roll pitch heading | 6, 7 => to_internal2d_arg_a67 lat lon alt VN VE VD roll pitch heading | 6, 8 => to_internal2d_arg_a68 lat lon alt VN VE VD roll pitch heading
  | 7, 0 => to_internal2d_arg_a70 lat lon alt VN VE VD roll pitch heading | 7, 1 => to_internal2d_arg_a71 lat lon alt VN VE VD roll pitch heading | 7, 2 => to_internal2d_arg_a72 lat lon alt VN VE VD roll pitch heading | 7, 3 => to_internal2d_arg_a73 lat lon alt VN VE VD roll pitch heading | 7, 4 => to_internal2d_arg_a74 lat lon alt VN VE VD roll pitch heading | 7, 5 => to_internal2d_arg_a75 lat lon alt VN VE VD roll pitch heading | 7, 6 => to_internal2d_arg_a76 lat lon alt VN VE VD roll pitch heading | 7, 7 => to_internal2d_arg_a77 lat lon alt VN VE VD roll pitch heading | 7, 8 => to_internal2d_arg_a78 lat lon alt VN VE VD roll pitch heading
  | 8, 0 => to_internal2d_arg_a80 lat lon alt VN VE VD roll pitch heading | 8, 1 => to_internal2d_arg_a81 lat lon alt VN VE VD roll pitch heading | 8, 2 => to_internal2d_arg_a82 lat lon alt VN VE VD roll pitch heading | 8, 3 => to_internal2d_arg_a83 lat lon alt VN VE VD roll pitch heading | 8, 4 => to_internal2d_arg_a84 lat lon alt VN VE VD roll pitch heading | 8, 5 => to_internal2d_arg_a85 lat lon alt VN VE VD roll pitch heading | 8, 6 => to_internal2d_arg_a86 lat lon alt VN VE VD roll pitch heading | 8, 7 => to_internal2d_arg_a87 lat lon alt VN VE VD roll pitch heading | 8, 8 => to_internal2d_arg_a88 lat lon alt VN VE VD roll pitch heading
  | _, _ => 0%R
  end%nat.

Fixpoint nary (n : nat) : Type := match n with O => R | S k => R -> nary k end.

Definition app81 (f : nary 81) (inv : nat -> nat -> R) : R :=
  (f (inv 0 0) (inv 0 1) (inv 0 2) (inv 0 3) (inv 0 4) (inv 0 5) (inv 0 6) (inv 0 7) (inv 0 8) (inv 1 0) (inv 1 1) (inv 1 2) (inv 1 3) (inv 1 4) (inv 1 5) (inv 1 6) (inv 1 7) (inv 1 8) (inv 2 0) (inv 2 1) (inv 2 2) (inv 2 3) (inv 2 4) (inv 2 5) (inv 2 6) (inv 2 7) (inv 2 8) (inv 3 0) (inv 3 1) (inv 3 2) (inv 3 3) (inv 3 4) (inv 3 5) (inv 3 6) (inv 3 7) (inv 3 8) (inv 4 0) (inv 4 1) (inv 4 2) (inv 4 3) (inv 4 4) (inv 4 5) (inv 4 6) (inv 4 7) (inv 4 8) (inv 5 0) (inv 5 1) (inv 5 2) (inv 5 3) (inv 5 4) (inv 5 5) (inv 5 6) (inv 5 7) (inv 5 8) (inv 6 0) (inv 6 1) (inv 6 2) (inv 6 3) (inv 6 4) (inv 6 5) (inv 6 6) (inv 6 7) (inv 6 8) (inv 7 0) (inv 7 1) (inv 7 2) (inv 7 3) (inv 7 4) (inv 7 5) (inv 7 6) (inv 7 7) (inv 7 8) (inv 8 0) (inv 8 1) (inv 8 2) (inv 8 3) (inv 8 4) (inv 8 5) (inv 8 6) (inv 8 7) (inv 8 8))%nat.

Definition Tint3 (inv : nat -> nat -> R) (i j : nat) : R :=
  match i, j with
  | 0, 0 => app81 to_internal3d_t00 inv | 0, 1 => app81 to_internal3d_t01 inv | 0, 2 => app81 to_internal3d_t02 inv | 0, 3 => app81 to_internal3d_t03 inv | 0, 4 => app81 to_internal3d_t04 inv | 0, 5 => app81 to_internal3d_t05 inv | 0, 6 => app81 to_internal3d_t06 inv | 0, 7 => app81 to_internal3d_t07 inv | 0, 8 => app81 to_internal3d_t08 inv
  | 1, 0 => app81 to_internal3d_t10 inv | 1, 1 => app81 to_internal3d_t11 inv | 1, 2 => app81 to_internal3d_t12 inv | 1, 3 => app81 to_internal3d_t13 inv | 1, 4 => app81 to_internal3d_t14 inv | 1, 5 => app81 to_internal3d_t15 inv | 1, 6 => app81 to_internal3d_t16 inv | 1, 7 => app81 to_internal3d_t17 inv | 1, 8 => app81 to_internal3d_t18 inv
  | 2, 0 => app81 to_internal3d_t20 inv | 2, 1 => app81 to_internal3d_t21 inv | 2, 2 => app81 to_internal3d_t22 inv | 2, 3 => app81 to_internal3d_t23 inv | 2, 4 => app81 to_internal3d_t24 inv | 2, 5 => app81 to_internal3d_t25 inv | 2, 6 => app81 to_internal3d_t26 inv | 2, 7 => app81 to_internal3d_t27 inv | 2, 8 => app81 to_internal3d_t28 inv
  | 3, 0 => app81 to_internal3d_t30 inv | 3, 1 => app81 to_internal3d_t31 inv | 3, 2 => app81 to_internal3d_t32 inv | 3, 3 => app81 to_internal3d_t33 inv | 3, 4 => app81 to_internal3d_t34 inv | 3, 5 => app81 to_internal3d_t35 inv | 3, 6 => app81 to_internal3d_t36 inv | 3, 7 => app81 to_internal3d_t37 inv | 3, 8 => app81 to_internal3d_t38 inv
  | 4, 0 => app81 to_internal3d_t40 inv | 4, 1 => app81 to_internal3d_t41 inv | 4, 2 => app81 to_internal3d_t42 inv | 4, 3 => app81 to_internal3d_t43 inv | 4, 4 => app81 to_internal3d_t44 inv | 4, 5 => app81 to_internal3d_t45 inv | 4, 6 => app81 to_internal3d_t46 inv | 4, 7 => app81 to_internal3d_t47 inv | 4, 8 => app81 to_internal3d_t48 inv
  | 5, 0 => app81 to_internal3d_t50 inv | 5, 1 => app81 to_internal3d_t51 inv | 5, 2 => app81 to_internal3d_t52 inv | 5, 3 => app81 to_internal3d_t53 inv | 5, 4 => app81 to_internal3d_t54 inv | 5, 5 => app81 to_internal3d_t55 inv | 5, 6 => app81 to_internal3d_t56 inv | 5, 7 => app81 to_internal3d_t57 inv | 5, 8 => app81 to_internal3d_t58 inv
  | 6, 0 => app81 to_internal3d_t60 inv | 6, 1 => app81 to_internal3d_t61 inv | 6, 2 => app81 to_internal3d_t62 inv | 6, 3 => app81 to_internal3d_t63 inv | 6, 4 => app81 to_internal3d_t64 inv | 6, 5 => app81 to_internal3d_t65 inv | 6, 6 => app81 to_internal3d_t66 inv | 6, 7 => app81 to_internal3d_t67 inv | 6, 8 => app81 to_internal3d_t68 inv
  | 7, 0 => app81 to_internal3d_t70 inv | 7, 1 => app81 to_internal3d_t71 inv | 7, 2 => app81 to_internal3d_t72 inv | 7, 3 => app81 to_internal3d_t73 inv | 7, 4 => app81 to_internal3d_t74 inv | 7, 5 => app81 to_internal3d_t75 inv | 7, 6 => app81 to_internal3d_t76 inv | 7, 7 => app81 to_internal3d_t77 inv | 7, 8 => app81 to_internal3d_t78 inv
  | 8, 0 => app81 to_internal3d_t80 inv | 8, 1 => app81 to_internal3d_t81 inv | 8, 2 => app81 to_internal3d_t82 inv | 8, 3 => app81 to_internal3d_t83 inv | 8, 4 => app81 to_internal3d_t84 inv | 8, 5 => app81 to_internal3d_t85 inv | 8, 6 => app81 to_internal3d_t86 inv | 8, 7 => app81 to_internal3d_t87 inv | 8, 8 => app81 to_internal3d_t88 inv
  | _, _ => 0%R
  end%nat.

Definition Tint2 (inv : nat -> nat -> R) (i j : nat) : R :=
  match i, j with
  | 0, 0 => app81 to_internal2d_t00 inv | 0, 1 => app81 to_internal2d_t01 inv | 0, 2 => app81 to_internal2d_t02 inv | 0, 3 => app81 to_internal2d_t03 inv | 0, 4 => app81 to_internal2d_t04 inv | 0, 5 => app81 to_internal2d_t05 inv | 0, 6 => app81 to_internal2d_t06 inv | 0, 7 => app81 to_internal2d_t07 inv | 0, 8 => app81 to_internal2d_t08 inv
  | 1, 0 => app81 to_internal2d_t10 inv | 1, 1 => app81 to_internal2d_t11 inv | 1, 2 => app81 to_internal2d_t12 inv | 1, 3 => app81 to_internal2d_t13 inv | 1, 4 => app81 to_internal2d_t14 inv | 1, 5 => app81 to_internal2d_t15 inv | 1, 6 => app81 to_internal2d_t16 inv | 1, 7 => app81 to_internal2d_t17 inv | 1, 8 => app81 to_internal2d_t18 inv
  | 2, 0 => app81 to_internal2d_t20 inv | 2, 1 => app81 to_internal2d_t21 inv | 2, 2 => app81 to_internal2d_t22 inv | 2, 3 => app81 to_internal2d_t23 inv | 2, 4 => app81 to_internal2d_t24 inv | 2, 5 => app81 to_internal2d_t25 inv | 2, 6 => app81 to_internal2d_t26 inv | 2, 7 => app81 to_internal2d_t27 inv | 2, 8 => app81 to_internal2d_t28 inv
  | 3, 0 => app81 to_internal2d_t30 inv | 3, 1 => app81 to_internal2d_t31 inv | 3, 2 => app81 to_internal2d_t32 inv | 3, 3 => app81 to_internal2d_t33 inv | 3, 4 => app81 to_internal2d_t34 inv | 3, 5 => app81 to_internal2d_t35 inv | 3, 6 => app81 to_internal2d_t36 inv | 3, 7 => app81 to_internal2d_t37 inv | 3, 8 => app81 to_internal2d_t38 inv
  | 4, 0 => app81 to_internal2d_t40 inv | 4, 1 => app81 to_internal2d_t41 inv | 4, 2 => app81 to_internal2d_t42 inv | 4, 3 => app81 to_internal2d_t43 inv | 4, 4 => app81 to_internal2d_t44 inv | 4, 5 => app81 to_internal2d_t45 inv | 4, 6 => app81 to_internal2d_t46 inv | 4, 7 => app81 to_internal2d_t47 inv | 4, 8 => app81 to_internal2d_t48 inv
  | 5, 0 => app81 to_internal2d_t50 inv | 5, 1 => app81 to_internal2d_t51 inv | 5, 2 => app81 to_internal2d_t52 inv | 5, 3 => app81 to_internal2d_t53 inv | 5, 4 => app81 to_internal2d_t54 inv | 5, 5 => app81 to_internal2d_t55 inv | 5, 6 => app81 to_internal2d_t56 inv | 5, 7 => app81 to_internal2d_t57 inv | 5, 8 => app81 to_internal2d_t58 inv
  | 6, 0 => app81 to_internal2d_t60 inv | 6, 1 => app81 to_internal2d_t61 inv | 6, 2 => app81 to_internal2d_t62 inv | 6, 3 => app81 to_internal2d_t63 inv | 6, 4 => app81 to_internal2d_t64 inv | 6, 5 => app81 to_internal2d_t65 inv | 6, 6 => app81 to_internal2d_t66 inv | 6, 7 => app81 to_internal2d_t67 inv | 6, 8 => app81 to_internal2d_t68 inv
  | _, _ => 0%R
  end%nat.

Create HintDb errstate_mat.

#[global] Hint Unfold to_output3d_t00 to_output3d_t01 to_output3d_t02 to_output3d_t03 to_output3d_t04 to_output3d_t05 to_output3d_t06 to_output3d_t07 to_output3d_t08 to_output3d_t10 to_output3d_t11 to_output3d_t12 to_output3d_t13 to_output3d_t14 to_output3d_t15 to_output3d_t16 to_output3d_t17 to_output3d_t18 to_output3d_t20 to_output3d_t21 to_output3d_t22 to_output3d_t23 to_output3d_t24 to_output3d_t25 to_output3d_t26 to_output3d_t27 to_output3d_t28 to_output3d_t30 to_output3d_t31 to_output3d_t32 to_output3d_t33 to_output3d_t34 to_output3d_t35 to_output3d_t36 to_output3d_t37 to_output3d_t38 to_output3d_t40 to_output3d_t41 to_output3d_t42 to_output3d_t43 to_output3d_t44 to_output3d_t45 to_output3d_t46 to_output3d_t47 to_output3d_t48 to_output3d_t50 to_output3d_t51 to_output3d_t52 to_output3d_t53 to_output3d_t54 to_output3d_t55 to_output3d_t56 to_output3d_t57 to_output3d_t58 to_output3d_t60 to_output3d_t61 to_output3d_t62 to_output3d_t63 to_output3d_t64 to_output3d_t65 to_output3d_t66 to_output3d_t67 to_output3d_t68 to_output3d_t70 to_output3d_t71 to_output3d_t72 to_output3d_t73 to_output3d_t74 to_output3d_t75 to_output3d_t76 to_output3d_t77 to_output3d_t78 to_output3d_t80 to_output3d_t81 to_output3d_t82 to_output3d_t83 to_output3d_t84 to_output3d_t85 to_output3d_t86 to_output3d_t87 to_output3d_t88 : errstate_mat.

#[global] Hint Unfold to_output2d_t00 to_output2d_t01 to_output2d_t02 to_output2d_t03 to_output2d_t04 to_output2d_t05 to_output2d_t06 to_output2d_t10 to_output2d_t11 to_output2d_t12 to_output2d_t13 to_output2d_t14 to_output2d_t15 to_output2d_t16 to_output2d_t20 to_output2d_t21 to_output2d_t22 to_output2d_t23 to_output2d_t24 to_output2d_t25 to_output2d_t26 to_output2d_t30 to_output2d_t31 to_output2d_t32 to_output2d_t33 to_output2d_t34 to_output2d_t35 to_output2d_t36 to_output2d_t40 to_output2d_t41 to_output2d_t42 to_output2d_t43 to_output2d_t44 to_output2d_t45 to_output2d_t46 to_output2d_t50 to_output2d_t51 to_output2d_t52 to_output2d_t53 to_output2d_t54 to_output2d_t55 to_output2d_t56 to_output2d_t60 to_output2d_t61 to_output2d_t62 to_output2d_t63 to_output2d_t64 to_output2d_t65 to_output2d_t66 to_output2d_t70 to_output2d_t71 to_output2d_t72 to_output2d_t73 to_output2d_t74 to_output2d_t75 to_output2d_t76 to_output2d_t80 to_output2d_t81 to_output2d_t82 to_output2d_t83 to_output2d_t84 to_output2d_t85 to_output2d_t86 : errstate_mat.

#[global] Hint Unfold t32_t00 t32_t01 t32_t02 t32_t03 t32_t04 t32_t05 t32_t06 t32_t10 t32_t11 t32_t12 t32_t13 t32_t14 t32_t15 t32_t16 t32_t20 t32_t21 t32_t22 t32_t23 t32_t24 t32_t25 t32_t26 t32_t30 t32_t31 t32_t32 t32_t33 t32_t34 t32_t35 t32_t36 t32_t40 t32_t41 t32_t42 t32_t43 t32_t44 t32_t45 t32_t46 t32_t50 t32_t51 t32_t52 t32_t53 t32_t54 t32_t55 t32_t56 t32_t60 t32_t61 t32_t62 t32_t63 t32_t64 t32_t65 t32_t66 t32_t70 t32_t71 t32_t72 t32_t73 t32_t74 t32_t75 t32_t76 t32_t80 t32_t81 t32_t82 t32_t83 t32_t84 t32_t85 t32_t86 : errstate_mat.

#[global] Hint Unfold t23_t00 t23_t01 t23_t02 t23_t03 t23_t04 t23_t05 t23_t06 t23_t07 t23_t08 t23_t10 t23_t11 t23_t12 t23_t13 t23_t14 t23_t15 t23_t16 t23_t17 t23_t18 t23_t20 t23_t21 t23_t22 t23_t23 t23_t24 t23_t25 t23_t26 t23_t27 t23_t28 t23_t30 t23_t31 t23_t32 t23_t33 t23_t34 t23_t35 t23_t36 t23_t37 t23_t38 t23_t40 t23_t41 t23_t42 t23_t43 t23_t44 t23_t45 t23_t46 t23_t47 t23_t48 t23_t50 t23_t51 t23_t52 t23_t53 t23_t54 t23_t55 t23_t56 t23_t57 t23_t58 t23_t60 t23_t61 t23_t62 t23_t63 t23_t64 t23_t65 t23_t66 t23_t67 t23_t68 : errstate_mat.

#[global] Hint Unfold to_internal3d_arg_a00 to_internal3d_arg_a01 to_internal3d_arg_a02 to_internal3d_arg_a03 to_internal3d_arg_a04 to_internal3d_arg_a05 to_internal3d_arg_a06 to_internal3d_arg_a07 to_internal3d_arg_a08 to_internal3d_arg_a10 to_internal3d_arg_a11 to_internal3d_arg_a12 to_internal3d_arg_a13 to_internal3d_arg_a14 to_internal3d_arg_a15 to_internal3d_arg_a16 to_internal3d_arg_a17 to_internal3d_arg_a18 to_internal3d_arg_a20 to_internal3d_arg_a21 to_internal3d_arg_a22 to_internal3d_arg_a23 to_internal3d_arg_a24 to_internal3d_arg_a25 to_internal3d_arg_a26 to_internal3d_arg_a27 to_internal3d_arg_a28 to_internal3d_arg_a30 to_internal3d_arg_a31 to_internal3d_arg_a32 to_internal3d_arg_a33 to_internal3d_arg_a34 to_internal3d_arg_a35 to_internal3d_arg_a36 to_internal3d_arg_a37 to_internal3d_arg_a38 to_internal3d_arg_a40 to_internal3d_arg_a41 to_internal3d_arg_a42 to_internal3d_arg_a43 to_internal3d_arg_a44 to_internal3d_arg_a45 to_internal3d_arg_a46 to_internal3d_arg_a47 to_internal3d_arg_a48 to_internal3d_arg_a50 to_internal3d_arg_a51 to_internal3d_arg_a52 to_internal3d_arg_a53 to_internal3d_arg_a54 to_internal3d_arg_a55 to_internal3d_arg_a56 to_internal3d_arg_a57 to_internal3d_arg_a58 to_internal3d_arg_a60 to_internal3d_arg_a61 to_internal3d_arg_a62 to_internal3d_arg_a63 to_internal3d_arg_a64 to_internal3d_arg_a65 to_internal3d_arg_a66 to_internal3d_arg_a67 to_internal3d_arg_a68 to_internal3d_arg_a70 to_internal3d_arg_a71 to_internal3d_arg_a72 to_internal3d_arg_a73 to_internal3d_arg_a74 to_internal3d_arg_a75 to_internal3d_arg_a76 to_internal3d_arg_a77 to_internal3d_arg_a78 to_internal3d_arg_a80 to_internal3d_arg_a81 to_internal3d_arg_a82 to_internal3d_arg_a83 to_internal3d_arg_a84 to_internal3d_arg_a85 to_internal3d_arg_a86 to_internal3d_arg_a87 to_internal3d_arg_a88 : errstate_mat.

#[global] Hint Unfold to_internal2d_arg_a00 to_internal2d_arg_a01 to_internal2d_arg_a02 to_internal2d_arg_a03 to_internal2d_arg_a04 to_internal2d_arg_a05 to_internal2d_arg_a06 to_internal2d_arg_a07 to_internal2d_arg_a08 to_internal2d_arg_a10 to_internal2d_arg_a11 to_internal2d_arg_a12 to_internal2d_arg_a13 to_internal2d_arg_a14 to_internal2d_arg_a15 to_internal2d_arg_a16 to_internal2d_arg_a17 to_internal2d_arg_a18 to_internal2d_arg_a20 to_internal2d_arg_a21 to_internal2d_arg_a22 to_internal2d_arg_a23 to_internal2d_arg_a24 to_internal2d_arg_a25 to_internal2d_arg_a26 to_internal2d_arg_a27 to_internal2d_arg_a28 to_internal2d_arg_a30 to_internal2d_arg_a31 to_internal2d_arg_a32 to_internal2d_arg_a33 to_internal2d_arg_a34 to_internal2d_arg_a35 to_internal2d_arg_a36 to_internal2d_arg_a37 to_internal2d_arg_a38 to_internal2d_arg_a40 to_internal2d_arg_a41 to_internal2d_arg_a42 to_internal2d_arg_a43 to_internal2d_arg_a44 to_internal2d_arg_a45 to_internal2d_arg_a46 to_internal2d_arg_a47 to_internal2d_arg_a48 to_internal2d_arg_a50 to_internal2d_arg_a51 to_internal2d_arg_a52 to_internal2d_arg_a53 to_internal2d_arg_a54 to_internal2d_arg_a55 to_internal2d_arg_a56 to_internal2d_arg_a57 to_internal2d_arg_a58 to_internal2d_arg_a60 to_internal2d_arg_a61 to_internal2d_arg_a62 to_internal2d_arg_a63 to_internal2d_arg_a64 to_internal2d_arg_a65 to_internal2d_arg_a66 to_internal2d_arg_a67 to_internal2d_arg_a68 to_internal2d_arg_a70 to_internal2d_arg_a71 to_internal2d_arg_a72 to_internal2d_arg_a73 to_internal2d_arg_a74 to_internal2d_arg_a75 to_internal2d_arg_a76 to_internal2d_arg_a77 to_internal2d_arg_a78 to_internal2d_arg_a80 to_internal2d_arg_a81 to_internal2d_arg_a82 to_internal2d_arg_a83 to_internal2d_arg_a84 to_internal2d_arg_a85 to_internal2d_arg_a86 to_internal2d_arg_a87 to_internal2d_arg_a88 : errstate_mat.

#[global] Hint Unfold to_internal3d_t00 to_internal3d_t01 to_internal3d_t02 to_internal3d_t03 to_internal3d_t04 to_internal3d_t05 to_internal3d_t06 to_internal3d_t07 to_internal3d_t08 to_internal3d_t10 to_internal3d_t11 to_internal3d_t12 to_internal3d_t13 to_internal3d_t14 to_internal3d_t15 to_internal3d_t16 to_internal3d_t17 to_internal3d_t18 to_internal3d_t20 to_internal3d_t21 to_internal3d_t22 to_internal3d_t23 to_internal3d_t24 to_internal3d_t25 to_internal3d_t26 to_internal3d_t27 to_internal3d_t28 to_internal3d_t30 to_internal3d_t31 to_internal3d_t32 to_internal3d_t33 to_internal3d_t34 to_internal3d_t35 to_internal3d_t36 to_internal3d_t37 to_internal3d_t38 to_internal3d_t40 to_internal3d_t41 to_internal3d_t42 to_internal3d_t43 to_internal3d_t44 to_internal3d_t45 to_internal3d_t46 to_internal3d_t47 to_internal3d_t48 to_internal3d_t50 to_internal3d_t51 to_internal3d_t52 to_internal3d_t53 to_internal3d_t54 to_internal3d_t55 to_internal3d_t56 to_internal3d_t57 to_internal3d_t58 to_internal3d_t60 to_internal3d_t61 to_internal3d_t62 to_internal3d_t63 to_internal3d_t64 to_internal3d_t65 to_internal3d_t66 to_internal3d_t67 to_internal3d_t68 to_internal3d_t70 to_internal3d_t71 to_internal3d_t72 to_internal3d_t73 to_internal3d_t74 to_internal3d_t75 to_internal3d_t76 to_internal3d_t77 to_internal3d_t78 to_internal3d_t80 to_internal3d_t81 to_internal3d_t82 to_internal3d_t83 to_internal3d_t84 to_internal3d_t85 to_internal3d_t86 to_internal3d_t87 to_internal3d_t88 : errstate_mat.

#[global] Hint Unfold to_internal2d_t00 to_internal2d_t01 to_internal2d_t02 to_internal2d_t03 to_internal2d_t04 to_internal2d_t05 to_internal2d_t06 to_internal2d_t07 to_internal2d_t08 to_internal2d_t10 to_internal2d_t11 to_internal2d_t12 to_internal2d_t13 to_internal2d_t14 to_internal2d_t15 to_internal2d_t16 to_internal2d_t17 to_internal2d_t18 to_internal2d_t20 to_internal2d_t21 to_internal2d_t22 to_internal2d_t23 to_internal2d_t24 to_internal2d_t25 to_internal2d_t26 to_internal2d_t27 to_internal2d_t28 to_internal2d_t30 to_internal2d_t31 to_internal2d_t32 to_internal2d_t33 to_internal2d_t34 to_internal2d_t35 to_internal2d_t36 to_internal2d_t37 to_internal2d_t38 to_internal2d_t40 to_internal2d_t41 to_internal2d_t42 to_internal2d_t43 to_internal2d_t44 to_internal2d_t45 to_internal2d_t46 to_internal2d_t47 to_internal2d_t48 to_internal2d_t50 to_internal2d_t51 to_internal2d_t52 to_internal2d_t53 to_internal2d_t54 to_internal2d_t55 to_internal2d_t56 to_internal2d_t57 to_internal2d_t58 to_internal2d_t60 to_internal2d_t61 to_internal2d_t62 to_internal2d_t63 to_internal2d_t64 to_internal2d_t65 to_internal2d_t66 to_internal2d_t67 to_internal2d_t68 : errstate_mat.

(** ** B.1  generic facts about the little matrix product *)

Lemma sumN_ext n f g : (forall k, (k < n)%nat -> f k = g k) -> sumN n f = sumN n g.
Proof.
  induction n as [|n IH]; intro H; simpl; [reflexivity|].
  rewrite IH by (intros k Hk; apply H; lia). rewrite (H n) by lia. reflexivity.
Qed.

Lemma sumN_plus n f g : sumN n (fun k => f k + g k) = sumN n f + sumN n g.
Proof. induction n as [|n IH]; simpl; [ring|]. rewrite IH. ring. Qed.

Lemma sumN_scal_l n c f : sumN n (fun k => c * f k) = c * sumN n f.
Proof. induction n as [|n IH]; simpl; [ring|]. rewrite IH. ring. Qed.

Lemma sumN_scal_r n c f : sumN n (fun k => f k * c) = sumN n f * c.
Proof. induction n as [|n IH]; simpl; [ring|]. rewrite IH. ring. Qed.

Lemma sumN_zero n : sumN n (fun _ => 0) = 0.
Proof. induction n as [|n IH]; simpl; [reflexivity|]. rewrite IH. ring. Qed.

Lemma sumN_swap n m (f : nat -> nat -> R) :
  sumN n (fun k => sumN m (fun l => f k l)) = sumN m (fun l => sumN n (fun k => f k l)).
Proof.
  induction n as [|n IH]; simpl.
  - symmetry. apply sumN_zero.
  - rewrite IH. symmetry. apply sumN_plus.
Qed.

Lemma mmul_assoc n A B C i j : mmul n (mmul n A B) C i j = mmul n A (mmul n B C) i j.
Proof.
  unfold mmul.
  rewrite (sumN_ext n _ (fun k => sumN n (fun l => A i l * B l k * C k j)))
    by (intros k _; symmetry; apply sumN_scal_r).
  rewrite sumN_swap. apply sumN_ext. intros l _.
  rewrite <- sumN_scal_l. apply sumN_ext. intros k _. ring.
Qed.

Lemma mmul_ext n A A' B B' i j :
  (forall k, (k < n)%nat -> A i k = A' i k) -> (forall k, (k < n)%nat -> B k j = B' k j) ->
  mmul n A B i j = mmul n A' B' i j.
Proof.
  intros HA HB. unfold mmul. apply sumN_ext. intros k Hk. rewrite HA, HB by exact Hk. reflexivity.
Qed.

Lemma sumN_delta n i (f : nat -> R) : (i < n)%nat ->
  sumN n (fun k => (if Nat.eqb i k then 1 else 0) * f k) = f i.
Proof.
  induction n as [|n IH]; intro Hi; [lia|]. simpl.
  destruct (Nat.eq_dec i n) as [E|E].
  - subst i. rewrite Nat.eqb_refl.
    rewrite (sumN_ext n _ (fun _ => 0)).
    + rewrite sumN_zero. ring.
    + intros k Hk. replace (Nat.eqb n k) with false; [ring|].
      symmetry. apply Nat.eqb_neq. lia.
  - replace (Nat.eqb i n) with false by (symmetry; apply Nat.eqb_neq; exact E).
    rewrite IH by lia. ring.
Qed.

Lemma mmul_I_l n B i j : (i < n)%nat -> mmul n I_ B i j = B i j.
Proof. intro Hi. unfold mmul, I_. apply (sumN_delta n i (fun k => B k j)). exact Hi. Qed.

Lemma sumN_delta_r n j (f : nat -> R) : (j < n)%nat ->
  sumN n (fun k => f k * (if Nat.eqb k j then 1 else 0)) = f j.
Proof.
  intro Hj. rewrite <- (sumN_delta n j f Hj). apply sumN_ext. intros k _.
  rewrite (Nat.eqb_sym k j). ring.
Qed.

Lemma mmul_unit_col n (A B : mat) i j r : (r < n)%nat -> (forall k, (k < n)%nat -> B k j = I_ k r) ->
  mmul n A B i j = A i r.
Proof.
  intros Hr HB. unfold mmul. rewrite <- (sumN_delta_r n r (fun k => A i k) Hr).
  apply sumN_ext. intros k Hk. rewrite (HB k Hk). reflexivity.
Qed.

Lemma mmul_I_r n A i j : (j < n)%nat -> mmul n A I_ i j = A i j.
Proof. intro Hj. apply mmul_unit_col; [exact Hj | reflexivity]. Qed.

Lemma mvec_ext n (A B : mat) x i : (forall j, (j < n)%nat -> A i j = B i j) -> mvec n A x i = mvec n B x i.
Proof. intro H. apply sumN_ext. intros j Hj. rewrite (H j Hj). reflexivity. Qed.

Lemma mvec_mmul n m (A B : mat) x i : mvec n (mmul m A B) x i = mvec m A (mvec n B x) i.
Proof.
  unfold mvec, mmul.
  rewrite (sumN_ext n _ (fun k => sumN m (fun l => A i l * B l k * x k))) by (intros k _; symmetry; apply sumN_scal_r).
  rewrite sumN_swap. apply sumN_ext. intros l _.
  rewrite <- sumN_scal_l. apply sumN_ext. intros k _. ring.
Qed.

Lemma mvec_I n x i : (i < n)%nat -> mvec n I_ x i = x i.
Proof. intro Hi. unfold mvec, I_. apply (sumN_delta n i x Hi). Qed.

(** index case analysis: [i < 9] becomes the nine numerals *)
Ltac idx i := repeat (destruct i as [|i]; [|try (exfalso; lia)]).

(** ** B.2  the explicit inverse of the output transform *)

(** (d(rph)/d(phi))^-1 up to the factor pi/180 *)
Definition Ninv (roll pitch heading : R) (i j : nat) : R :=
  match i, j with
  | 0%nat, 0%nat => - cos (heading * (PI / 180)) * cos (pitch * (PI / 180))
  | 0%nat, 1%nat => sin (heading * (PI / 180))
  | 1%nat, 0%nat => - sin (heading * (PI / 180)) * cos (pitch * (PI / 180))
  | 1%nat, 1%nat => - cos (heading * (PI / 180))
  | 2%nat, 0%nat => sin (pitch * (PI / 180))
  | 2%nat, 2%nat => -1
  | _, _ => 0
  end.

(** T_inv = [[I 0 0] [0 I -V^x A^-1] [0 0 A^-1]] with A^-1 = Ninv * pi/180 *)
Definition Tinv3 (lat lon alt VN VE VD roll pitch heading : R) (i j : nat) : R :=
  let N := Ninv roll pitch heading in
  let k := PI / 180 in
  match i, j with
  | 0%nat, 0%nat => 1 | 1%nat, 1%nat => 1 | 2%nat, 2%nat => 1
  | 3%nat, 3%nat => 1 | 4%nat, 4%nat => 1 | 5%nat, 5%nat => 1
  | 3%nat, 6%nat => (VD * N 1%nat 0%nat - VE * N 2%nat 0%nat) * k
  | 3%nat, 7%nat => (VD * N 1%nat 1%nat - VE * N 2%nat 1%nat) * k
  | 3%nat, 8%nat => (VD * N 1%nat 2%nat - VE * N 2%nat 2%nat) * k
  | 4%nat, 6%nat => (VN * N 2%nat 0%nat - VD * N 0%nat 0%nat) * k
  | 4%nat, 7%nat => (VN * N 2%nat 1%nat - VD * N 0%nat 1%nat) * k
  | 4%nat, 8%nat => (VN * N 2%nat 2%nat - VD * N 0%nat 2%nat) * k
  | 5%nat, 6%nat => (VE * N 0%nat 0%nat - VN * N 1%nat 0%nat) * k
  | 5%nat, 7%nat => (VE * N 0%nat 1%nat - VN * N 1%nat 1%nat) * k
  | 5%nat, 8%nat => (VE * N 0%nat 2%nat - VN * N 1%nat 2%nat) * k
  | 6%nat, 6%nat => N 0%nat 0%nat * k | 6%nat, 7%nat => N 0%nat 1%nat * k | 6%nat, 8%nat => N 0%nat 2%nat * k
  | 7%nat, 6%nat => N 1%nat 0%nat * k | 7%nat, 7%nat => N 1%nat 1%nat * k | 7%nat, 8%nat => N 1%nat 2%nat * k
  | 8%nat, 6%nat => N 2%nat 0%nat * k | 8%nat, 7%nat => N 2%nat 1%nat * k | 8%nat, 8%nat => N 2%nat 2%nat * k
  | _, _ => 0
  end.

Ltac mat_entry :=
  cbv [mmul mvec sumN Tinv3 Ninv Tout3 Tout2 T32 T23 TintArg3 TintArg2 I_ Nat.eqb];
  autounfold with errstate_mat;
  autounfold with to_output3d_db to_output2d_db to_internal3d_arg_db to_internal2d_arg_db.

Lemma to_output_invertible lat lon alt VN VE VD roll pitch heading :
  cos (pitch * (PI / 180)) <> 0 ->
  meq 9 9 (mmul 9 (Tinv3 lat lon alt VN VE VD roll pitch heading)
                  (Tout3 lat lon alt VN VE VD roll pitch heading)) I_ /\
  meq 9 9 (mmul 9 (Tout3 lat lon alt VN VE VD roll pitch heading)
                  (Tinv3 lat lon alt VN VE VD roll pitch heading)) I_.
Proof.
  intro Hc. pose proof PI_neq0 as Hpi.
  assert (Hh : sin (heading * (PI / 180)) * sin (heading * (PI / 180)) =
               1 - cos (heading * (PI / 180)) * cos (heading * (PI / 180)))
    by (pose proof (sc1 (heading * (PI / 180))); lra).
  assert (Hp : sin (pitch * (PI / 180)) * sin (pitch * (PI / 180)) =
               1 - cos (pitch * (PI / 180)) * cos (pitch * (PI / 180)))
    by (pose proof (sc1 (pitch * (PI / 180))); lra).
  (* the first six columns of both matrices are unit columns, so both products keep them;
     only the three attitude columns are computed, and only they need sin^2 + cos^2 = 1 and cos pitch <> 0 *)
  assert (Co : forall k j, (k < 9)%nat -> (j < 6)%nat -> Tout3 lat lon alt VN VE VD roll pitch heading k j = I_ k j)
    by (intros k j Hk Hj; idx k; idx j; mat_entry; lra).
  assert (Ci : forall k j, (k < 9)%nat -> (j < 6)%nat -> Tinv3 lat lon alt VN VE VD roll pitch heading k j = I_ k j)
    by (intros k j Hk Hj; idx k; idx j; mat_entry; lra).
  split; intros i j Hi Hj; destruct (lt_dec j 6) as [H6|H6].
  1, 3: rewrite (mmul_unit_col 9 _ _ i j j Hj) by (intros k Hk; auto); auto.
  all: assert (j = 6 \/ j = 7 \/ j = 8)%nat as [-> | [-> | ->]] by lia; idx i; mat_entry;
    first [ lra | field_simplify_eq; [ring [Hh Hp] | try split; assumption] ].
Qed.

(** ** B.3  the 2D (no-altitude) transforms *)

(** the error-state indices that the 2D mode keeps: (north, east, VN, VE, roll, pitch, heading) *)
Definition sel7 (i : nat) : nat := match i with 0 => 0 | 1 => 1 | 2 => 3 | 3 => 4 | 4 => 6 | 5 => 7 | _ => 8 end%nat.

(** over an arbitrary matrix M: TRANSFORM_2D_3D M keeps the rows sel7; M _transform_3d_2d keeps the columns sel7
    and adds column 5 (VD) with the weights of row 5 of _transform_3d_2d *)
Lemma T23_selects (M : mat) i j : (i < 7)%nat -> mmul 9 T23 M i j = M (sel7 i) j.
Proof. intro Hi; idx i; cbv [mmul sumN T23 sel7]; autounfold with errstate_mat; lra. Qed.

Lemma T32_mixes (M : mat) VN VE i j : (j < 7)%nat ->
  mmul 9 M (T32 VN VE) i j = M i (sel7 j) + M i 5%nat * T32 VN VE 5%nat j.
Proof. intro Hj; idx j; cbv [mmul sumN T32 sel7]; autounfold with errstate_mat; lra. Qed.

(** transform_to_output in 2D is the 3D matrix times _transform_3d_2d (as the source says) *)
Lemma out2d_is_product lat lon alt VN VE VD roll pitch heading :
  meq 9 7 (Tout2 lat lon alt VN VE VD roll pitch heading)
          (mmul 9 (Tout3 lat lon alt VN VE VD roll pitch heading) (T32 VN VE)).
Proof.
  intros i j Hi Hj; rewrite (T32_mixes _ VN VE i j Hj); idx i; idx j; cbv [sel7]; mat_entry; lra.
Qed.

(** TRANSFORM_2D_3D is a left inverse of _transform_3d_2d for every velocity *)
Lemma t23_t32_identity VN VE : meq 7 7 (mmul 9 T23 (T32 VN VE)) I_.
Proof.
  intros i j Hi Hj; rewrite (T23_selects _ i j Hi); idx i; idx j; cbv [sel7]; mat_entry; ring.
Qed.

(** transform_to_internal returns np.linalg.inv's result (3D), resp. its rows selected by TRANSFORM_2D_3D (2D):
    each generated entry is one of the 81 arguments *)
Lemma internal_of_inv (inv : mat) :
  meq 9 9 (Tint3 inv) inv /\ meq 7 9 (Tint2 inv) (mmul 9 T23 inv).
Proof.
  split; intros i j Hi Hj; [|rewrite (T23_selects inv i j Hi)]; idx i; idx j; reflexivity.
Qed.

Lemma inverse_unique (inv : mat) lat lon alt VN VE VD roll pitch heading :
  cos (pitch * (PI / 180)) <> 0 ->
  meq 9 9 (mmul 9 inv (Tout3 lat lon alt VN VE VD roll pitch heading)) I_ ->
  meq 9 9 inv (Tinv3 lat lon alt VN VE VD roll pitch heading).
Proof.
  intros Hc Hinv i j Hi Hj.
  destruct (to_output_invertible lat lon alt VN VE VD roll pitch heading Hc) as [_ Hr].
  set (To := Tout3 lat lon alt VN VE VD roll pitch heading) in *.
  set (Ti := Tinv3 lat lon alt VN VE VD roll pitch heading) in *.
  rewrite <- (mmul_I_r 9 inv i j Hj).
  rewrite (mmul_ext 9 inv inv I_ (mmul 9 To Ti) i j) by
    (intros k Hk; first [symmetry; apply Hr; assumption | reflexivity]).
  rewrite <- mmul_assoc.
  rewrite (mmul_ext 9 (mmul 9 inv To) I_ Ti Ti i j) by
    (intros k Hk; first [apply Hinv; assumption | reflexivity]).
  apply mmul_I_l. exact Hi.
Qed.

(** C05: in 2D the output-to-internal transform is a LEFT inverse of internal-to-output,
    for any primitive [inv] that inverts the 3D output transform *)
Lemma left_inverse_2d (inv : mat) lat lon alt VN VE VD roll pitch heading :
  meq 9 9 (mmul 9 inv (Tout3 lat lon alt VN VE VD roll pitch heading)) I_ ->
  meq 7 7 (mmul 9 (Tint2 inv) (Tout2 lat lon alt VN VE VD roll pitch heading)) I_.
Proof.
  intros Hinv i j Hi Hj.
  destruct (internal_of_inv inv) as [_ H2].
  pose proof (out2d_is_product lat lon alt VN VE VD roll pitch heading) as Hp.
  set (To := Tout3 lat lon alt VN VE VD roll pitch heading) in *.
  rewrite (mmul_ext 9 (Tint2 inv) (mmul 9 T23 inv) _ (mmul 9 To (T32 VN VE)) i j) by
    (intros k Hk; first [apply H2; [exact Hi|exact Hk] | apply Hp; [exact Hk|exact Hj]]).
  rewrite mmul_assoc.
  rewrite (mmul_ext 9 T23 T23 _ (T32 VN VE) i j);
    [apply t23_t32_identity; assumption | reflexivity |].
  intros k Hk. rewrite <- mmul_assoc.
  rewrite (mmul_ext 9 (mmul 9 inv To) I_ (T32 VN VE) (T32 VN VE) k j) by
    (intros l Hl; first [apply Hinv; assumption | reflexivity]).
  apply mmul_I_l. exact Hk.
Qed.

(** C05 (d): in 2D the [down] and [VD] rows of the output transform are literally zero, and
    correct_pva returns altitude and vertical velocity unchanged, for every pva and every x *)
Lemma rows_2d_zero lat lon alt VN VE VD roll pitch heading :
  (forall j, (j < 7)%nat -> Tout2 lat lon alt VN VE VD roll pitch heading 2 j = 0 /\
                            Tout2 lat lon alt VN VE VD roll pitch heading 5 j = 0) /\
  (forall x0 x1 x2 x3 x4 x5 x6,
     correct2d_alt lat lon alt VN VE VD roll pitch heading x0 x1 x2 x3 x4 x5 x6 = alt /\
     correct2d_VD lat lon alt VN VE VD roll pitch heading x0 x1 x2 x3 x4 x5 x6 = VD).
Proof.
  split.
  - intros j Hj; idx j; mat_entry; split; ring.
  - intros. split; reflexivity.
Qed.

(** * Part C: the attitude matrix and small rotations along curves *)

Definition vec9 (x0 x1 x2 x3 x4 x5 x6 x7 x8 : R) (k : nat) : R :=
  match k with 0%nat => x0 | 1%nat => x1 | 2%nat => x2 | 3%nat => x3 | 4%nat => x4 | 5%nat => x5
             | 6%nat => x6 | 7%nat => x7 | 8%nat => x8 | _ => 0 end.
Definition vec7 (x0 x1 x2 x3 x4 x5 x6 : R) (k : nat) : R :=
  match k with 0%nat => x0 | 1%nat => x1 | 2%nat => x2 | 3%nat => x3 | 4%nat => x4 | 5%nat => x5
             | 6%nat => x6 | _ => 0 end.

(** predicted quantities, written with the GENERATED transform.mat_from_rph / compute_lla_difference *)
Definition Cnb (roll pitch heading : R) (i j : nat) : R :=
  match i, j with
  | 0, 0 => mat_from_rph_m00 roll pitch heading | 0, 1 => mat_from_rph_m01 roll pitch heading | 0, 2 => mat_from_rph_m02 roll pitch heading
  | 1, 0 => mat_from_rph_m10 roll pitch heading | 1, 1 => mat_from_rph_m11 roll pitch heading | 1, 2 => mat_from_rph_m12 roll pitch heading
  | 2, 0 => mat_from_rph_m20 roll pitch heading | 2, 1 => mat_from_rph_m21 roll pitch heading | 2, 2 => mat_from_rph_m22 roll pitch heading
  | _, _ => 0%R
  end%nat.
Definition vec3 (a b c : R) (k : nat) : R := match k with 0%nat => a | 1%nat => b | 2%nat => c | _ => 0 end.
Definition cross3 (a b : nat -> R) (k : nat) : R :=
  match k with
  | 0%nat => a 1%nat * b 2%nat - a 2%nat * b 1%nat
  | 1%nat => a 2%nat * b 0%nat - a 0%nat * b 2%nat
  | 2%nat => a 0%nat * b 1%nat - a 1%nat * b 0%nat
  | _ => 0 end.
(** C_nb^T v *)
Definition mtvec3 (A : mat) (v : nat -> R) (k : nat) : R := A 0%nat k * v 0%nat + A 1%nat k * v 1%nat + A 2%nat k * v 2%nat.
Definition lla_diff (lat1 lon1 alt1 lat2 lon2 alt2 : R) (k : nat) : R :=
  match k with
  | 0%nat => compute_lla_difference_d0 lat1 lon1 alt1 lat2 lon2 alt2
  | 1%nat => compute_lla_difference_d1 lat1 lon1 alt1 lat2 lon2 alt2
  | 2%nat => compute_lla_difference_d2 lat1 lon1 alt1 lat2 lon2 alt2
  | _ => 0 end.

Ltac idx3 i := destruct i as [|[|[|i]]].

Lemma sin2 x : sin x * sin x = 1 - cos x * cos x.
Proof. pose proof (sc1 x). lra. Qed.

Definition skew3 (a b c : R) : mat := fun i j =>
  match i, j with
  | O, 1%nat => - c | O, 2%nat => b | 1%nat, O => c | 1%nat, 2%nat => - a | 2%nat, O => - b | 2%nat, 1%nat => a
  | _, _ => 0
  end.

(** the attitude matrix in terms of the six trigonometric values *)
Definition Rzyx (cr sr cp sp ch sh : R) : mat := fun i j =>
  match i, j with
  | O, O => ch * cp | O, 1%nat => ch * sp * sr - sh * cr | O, 2%nat => ch * sp * cr + sh * sr
  | 1%nat, O => sh * cp | 1%nat, 1%nat => sh * sp * sr + ch * cr | 1%nat, 2%nat => sh * sp * cr - ch * sr
  | 2%nat, O => - sp | 2%nat, 1%nat => cp * sr | 2%nat, 2%nat => cp * cr
  | _, _ => 0
  end.

Ltac unf_Cnb :=
  cbv [Cnb]; unfold mat_from_rph_m00, mat_from_rph_m01, mat_from_rph_m02, mat_from_rph_m10, mat_from_rph_m11,
    mat_from_rph_m12, mat_from_rph_m20, mat_from_rph_m21, mat_from_rph_m22;
  autounfold with mat_from_rph_db.

Lemma Cnb_trig r p h i j :
  Cnb r p h i j = Rzyx (cos (r * (PI / 180))) (sin (r * (PI / 180))) (cos (p * (PI / 180))) (sin (p * (PI / 180)))
                       (cos (h * (PI / 180))) (sin (h * (PI / 180))) i j.
Proof. idx3 i; idx3 j; unf_Cnb; cbv [Rzyx]; ring. Qed.

(** angular velocity (rad per unit) of the attitude when the Euler angles move at rates r' p' h' (degrees) *)
Definition att_rate (cp sp ch sh r' p' h' : R) (k : nat) : R :=
  vec3 (ch * cp * r' - sh * p') (sh * cp * r' + ch * p') (h' - sp * r') k * (PI / 180).

Lemma Cnb_derive (r p h : R -> R) r' p' h' i j :
  is_derive r 0 r' -> is_derive p 0 p' -> is_derive h 0 h' ->
  let w := att_rate (cos (p 0 * (PI / 180))) (sin (p 0 * (PI / 180)))
                    (cos (h 0 * (PI / 180))) (sin (h 0 * (PI / 180))) r' p' h' in
  is_derive (fun e => Cnb (r e) (p e) (h e) i j) 0
    (mmul 3 (skew3 (w 0%nat) (w 1%nat) (w 2%nat)) (Cnb (r 0) (p 0) (h 0)) i j).
Proof.
  intros Hr Hp Hh w. subst w.
  idx3 i; idx3 j; unf_Cnb;
    (auto_derive; [repeat split; eexists; eassumption|]);
    try derive_val Hr; try derive_val Hp; try derive_val Hh;
    cbv [mmul sumN skew3 att_rate vec3];
    ring [(sin2 (p 0 * (PI / 180))) (sin2 (h 0 * (PI / 180)))].
Qed.

(** rows 6-8 of the output transform applied to x: the Euler-angle change (degrees) under the rotation x6..x8 *)
Definition att_corr (cp sp ch sh a b c : R) (k : nat) : R :=
  vec3 ((- (ch * a) - sh * b) / cp) (sh * a - ch * b) ((- (ch * sp * a) - sh * sp * b) / cp - c) k * (180 / PI).

Lemma Tout3_vec lat lon alt VN VE VD roll pitch heading x0 x1 x2 x3 x4 x5 x6 x7 x8 k :
  let A := att_corr (cos (pitch * (PI / 180))) (sin (pitch * (PI / 180)))
                    (cos (heading * (PI / 180))) (sin (heading * (PI / 180))) x6 x7 x8 in
  mvec 9 (Tout3 lat lon alt VN VE VD roll pitch heading) (vec9 x0 x1 x2 x3 x4 x5 x6 x7 x8) k =
  vec9 x0 x1 x2 (x3 - VD * x7 + VE * x8) (x4 + VD * x6 - VN * x8) (x5 - VE * x6 + VN * x7)
       (A 0%nat) (A 1%nat) (A 2%nat) k.
Proof.
  cbv zeta. destruct k as [|[|[|[|[|[|[|[|[|k]]]]]]]]]; mat_entry; cbv [vec9 att_corr vec3]; lra.
Qed.

Lemma att_rate_corr p h a b c k :
  cos (p * (PI / 180)) <> 0 ->
  let A := att_corr (cos (p * (PI / 180))) (sin (p * (PI / 180))) (cos (h * (PI / 180))) (sin (h * (PI / 180))) a b c in
  att_rate (cos (p * (PI / 180))) (sin (p * (PI / 180))) (cos (h * (PI / 180))) (sin (h * (PI / 180)))
    (- A 0%nat) (- A 1%nat) (- A 2%nat) k = vec3 a b c k.
Proof.
  intros Hc A. subst A. pose proof PI_neq0 as Hpi.
  idx3 k; cbv [att_rate att_corr vec3]; field_simplify_eq; try (split; assumption);
    ring [(sin2 (h * (PI / 180)))].
Qed.

Lemma Tout2_vec lat lon alt VN VE VD roll pitch heading x0 x1 x2 x3 x4 x5 x6 k :
  let A := att_corr (cos (pitch * (PI / 180))) (sin (pitch * (PI / 180)))
                    (cos (heading * (PI / 180))) (sin (heading * (PI / 180))) x4 x5 x6 in
  mvec 7 (Tout2 lat lon alt VN VE VD roll pitch heading) (vec7 x0 x1 x2 x3 x4 x5 x6) k =
  vec9 x0 x1 0 (x2 - VD * x5 + VE * x6) (x3 + VD * x4 - VN * x6) 0 (A 0%nat) (A 1%nat) (A 2%nat) k.
Proof.
  cbv zeta. destruct k as [|[|[|[|[|[|[|[|[|k]]]]]]]]]; mat_entry; cbv [vec7 vec9 att_corr vec3]; lra.
Qed.

Definition rotm (x y z : R) : mat := fun i j =>
  match i, j with
  | O, O => rotvec_m00 x y z | O, 1%nat => rotvec_m01 x y z | O, 2%nat => rotvec_m02 x y z
  | 1%nat, O => rotvec_m10 x y z | 1%nat, 1%nat => rotvec_m11 x y z | 1%nat, 2%nat => rotvec_m12 x y z
  | 2%nat, O => rotvec_m20 x y z | 2%nat, 1%nat => rotvec_m21 x y z | 2%nat, 2%nat => rotvec_m22 x y z
  | _, _ => 0
  end.
Definition raym (a b c e : R) : mat := fun i j =>
  match i, j with
  | O, O => ray_m00 a b c e | O, 1%nat => ray_m01 a b c e | O, 2%nat => ray_m02 a b c e
  | 1%nat, O => ray_m10 a b c e | 1%nat, 1%nat => ray_m11 a b c e | 1%nat, 2%nat => ray_m12 a b c e
  | 2%nat, O => ray_m20 a b c e | 2%nat, 1%nat => ray_m21 a b c e | 2%nat, 2%nat => ray_m22 a b c e
  | _, _ => 0
  end.

Lemma rotm_ray a b c e i j : rotm (e * a) (e * b) (e * c) i j = raym a b c e i j.
Proof.
  destruct (rotvec_ray a b c e) as [R00 [R01 [R02 [R10 [R11 [R12 [R20 [R21 R22]]]]]]]].
  idx3 i; idx3 j; cbv [rotm raym]; auto.
Qed.

Ltac unf_ray := cbv [raym]; unfold ray_m00, ray_m01, ray_m02, ray_m10, ray_m11, ray_m12, ray_m20, ray_m21, ray_m22,
  ray_v, ray_s, ray_c.

Lemma rotm_0 a b c i j : rotm (0 * a) (0 * b) (0 * c) i j = if (i <? 3)%nat then I_ i j else 0.
Proof.
  rewrite rotm_ray. idx3 i; idx3 j; cbv [I_ Nat.eqb Nat.ltb Nat.leb]; unf_ray;
    rewrite ?Rmult_0_l, ?sin_0, ?cos_0; ring.
Qed.

Lemma rotm_derive a b c i j : is_derive (fun e => rotm (e * a) (e * b) (e * c) i j) 0 (skew3 a b c i j).
Proof.
  apply (is_derive_ext _ _ _ _ (fun e => eq_sym (rotm_ray a b c e i j))).
  idx3 i; idx3 j; cbv [skew3]; unf_ray; (auto_derive; [exact I|]);
    rewrite ?Rmult_0_l, ?sin_0, ?cos_0; unfold ray_in;
    (destruct (Req_dec (ray_n a b c) 0) as [Hn|Hn];
     [ destruct (ray_n_zero _ _ _ Hn) as [-> [-> ->]]; ring | field; exact Hn ]).
Qed.

Lemma rotm0_mmul a b c (X : mat) i j : (i < 3)%nat -> mmul 3 (rotm (0 * a) (0 * b) (0 * c)) X i j = X i j.
Proof.
  intro Hi. rewrite <- (mmul_I_l 3 X i j Hi). apply mmul_ext; [|reflexivity].
  intros k _. rewrite rotm_0. apply Nat.ltb_lt in Hi. rewrite Hi. reflexivity.
Qed.

(** product rule for a sum of three products, spelled as [sumN 3] unfolds *)
Lemma dot3_derive (u0 u1 u2 v0 v1 v2 : R -> R) a0 a1 a2 b0 b1 b2 :
  is_derive u0 0 a0 -> is_derive u1 0 a1 -> is_derive u2 0 a2 ->
  is_derive v0 0 b0 -> is_derive v1 0 b1 -> is_derive v2 0 b2 ->
  is_derive (fun e => 0 + u0 e * v0 e + u1 e * v1 e + u2 e * v2 e) 0
    (0 + a0 * v0 0 + a1 * v1 0 + a2 * v2 0 + (0 + u0 0 * b0 + u1 0 * b1 + u2 0 * b2)).
Proof.
  intros U0 U1 U2 V0 V1 V2.
  auto_derive; [repeat split; eexists; eassumption|].
  derive_val U0. derive_val U1. derive_val U2. derive_val V0. derive_val V1. derive_val V2. ring.
Qed.

(** e |-> Rot(e (a,b,c)) C_nb(r e, p e, h e): the derivative at 0 is skew((a,b,c) + w) C_nb, w the attitude rate *)
Lemma RotC_derive (r p h : R -> R) r' p' h' a b c i j :
  is_derive r 0 r' -> is_derive p 0 p' -> is_derive h 0 h' ->
  let w := att_rate (cos (p 0 * (PI / 180))) (sin (p 0 * (PI / 180)))
                    (cos (h 0 * (PI / 180))) (sin (h 0 * (PI / 180))) r' p' h' in
  is_derive (fun e => mmul 3 (rotm (e * a) (e * b) (e * c)) (Cnb (r e) (p e) (h e)) i j) 0
    (mmul 3 (skew3 (a + w 0%nat) (b + w 1%nat) (c + w 2%nat)) (Cnb (r 0) (p 0) (h 0)) i j).
Proof.
  intros Hr Hp Hh w. unfold mmul at 1. cbv [sumN]. evar_last.
  - apply (dot3_derive (fun e => rotm (e * a) (e * b) (e * c) i 0%nat) (fun e => rotm (e * a) (e * b) (e * c) i 1%nat)
             (fun e => rotm (e * a) (e * b) (e * c) i 2%nat)
             (fun e => Cnb (r e) (p e) (h e) 0%nat j) (fun e => Cnb (r e) (p e) (h e) 1%nat j)
             (fun e => Cnb (r e) (p e) (h e) 2%nat j));
      [apply rotm_derive | apply rotm_derive | apply rotm_derive
      | exact (Cnb_derive r p h r' p' h' _ j Hr Hp Hh) | exact (Cnb_derive r p h r' p' h' _ j Hr Hp Hh)
      | exact (Cnb_derive r p h r' p' h' _ j Hr Hp Hh)].
  - cbv zeta. fold w. rewrite !rotm_0.
    idx3 i; cbv [mmul sumN skew3 I_ Nat.eqb Nat.ltb Nat.leb]; ring.
Qed.

(** e |-> Rot(e (a,b,c)) u(e) for a vector curve u: derivative (a,b,c) x u(0) + u'(0) *)
Lemma RotV_derive (u0 u1 u2 : R -> R) d0 d1 d2 a b c i : (i < 3)%nat ->
  is_derive u0 0 d0 -> is_derive u1 0 d1 -> is_derive u2 0 d2 ->
  is_derive (fun e => mvec 3 (rotm (e * a) (e * b) (e * c)) (vec3 (u0 e) (u1 e) (u2 e)) i) 0
    (mvec 3 (skew3 a b c) (vec3 (u0 0) (u1 0) (u2 0)) i + vec3 d0 d1 d2 i).
Proof.
  intros Hi U0 U1 U2. cbv [mvec sumN vec3]. evar_last.
  - apply (dot3_derive (fun e => rotm (e * a) (e * b) (e * c) i 0%nat) (fun e => rotm (e * a) (e * b) (e * c) i 1%nat)
             (fun e => rotm (e * a) (e * b) (e * c) i 2%nat) u0 u1 u2);
      [apply rotm_derive | apply rotm_derive | apply rotm_derive | exact U0 | exact U1 | exact U2].
  - rewrite !rotm_0. idx i; cbv [skew3 I_ Nat.eqb Nat.ltb Nat.leb]; ring.
Qed.
Lemma rotm0_mvec a b c v i : (i < 3)%nat -> mvec 3 (rotm (0 * a) (0 * b) (0 * c)) v i = v i.
Proof.
  intro Hi. rewrite <- (mvec_I 3 v i Hi). apply mvec_ext. intros j _. rewrite rotm_0.
  apply Nat.ltb_lt in Hi. rewrite Hi. reflexivity.
Qed.


(** a function of the nine entries of a 3x3 matrix (transform.mat_to_rph reads a matrix this way) *)
Definition of_mat (f : R -> R -> R -> R -> R -> R -> R -> R -> R -> R) (M : mat) : R :=
  (f (M 0 0) (M 0 1) (M 0 2) (M 1 0) (M 1 1) (M 1 2) (M 2 0) (M 2 1) (M 2 2))%nat.

(** mat_to_rph inverts mat_from_rph on the principal range *)
Lemma euler_Cnb r p h : -180 < r < 180 -> -90 < p < 90 -> -180 < h < 180 ->
  of_mat euler_roll (Cnb r p h) = r /\ of_mat euler_pitch (Cnb r p h) = p /\ of_mat euler_heading (Cnb r p h) = h.
Proof.
  intros Rr Rp Rh. pose proof (cos_d2r_pos p Rp) as Hcp. pose proof PI_neq0 as Hpi.
  unfold of_mat, euler_roll, euler_pitch, euler_heading. rewrite !Cnb_trig. cbv [Rzyx].
  trig_abbrev r p h. split_conj.
  - unfold cp, sr, cr. rewrite atan2_sin_cos; [field; exact Hpi | exact Hcp | pose proof (d2r_in_pi r Rr); lra].
  - replace (cp * sr * (cp * sr) + cp * cr * (cp * cr)) with (cp * cp) by (ring [Hr]).
    rewrite (sqrt_square cp) by lra. replace (- - sp) with (1 * sp) by ring. replace cp with (1 * cp) at 1 by ring.
    unfold sp, cp. rewrite atan2_sin_cos; [field; exact Hpi | lra | pose proof (d2r_in_pi p ltac:(lra)); lra].
  - replace (sh * cp) with (cp * sh) by ring. replace (ch * cp) with (cp * ch) by ring.
    unfold cp, sh, ch. rewrite atan2_sin_cos; [field; exact Hpi | exact Hcp | pose proof (d2r_in_pi h Rh); lra].
Qed.

(** the Euler angles of Rot(e phi) C_nb(r e, p e, h e): the rates of the base attitude minus rows 6-8 of T_out phi *)
Section EulerCurve.
Variables (r p h : R -> R) (r' p' h' a b c : R).
Hypothesis Dr : is_derive r 0 r'.
Hypothesis Dp : is_derive p 0 p'.
Hypothesis Dh : is_derive h 0 h'.
Hypothesis Rr : -180 < r 0 < 180.
Hypothesis Rp : -90 < p 0 < 90.
Hypothesis Rh : -180 < h 0 < 180.

Let M (e : R) : mat := mmul 3 (rotm (e * a) (e * b) (e * c)) (Cnb (r e) (p e) (h e)).
Let A := att_corr (cos (p 0 * (PI / 180))) (sin (p 0 * (PI / 180)))
                  (cos (h 0 * (PI / 180))) (sin (h 0 * (PI / 180))) a b c.

Ltac at0 := cbv beta; unfold M; rewrite !rotm0_mmul by lia; cbv [mmul sumN skew3]; rewrite !Cnb_trig;
  cbv [Rzyx att_rate att_corr vec3]; pose proof (cos_d2r_pos (p 0) Rp) as Hcp; trig_abbrev (r 0) (p 0) (h 0).

Lemma roll_curve : is_derive (fun e => of_mat euler_roll (M e)) 0 (r' - A 0%nat).
Proof.
  unfold of_mat, euler_roll. eapply is_derive_atan2_deg.
  - exact (RotC_derive r p h r' p' h' a b c 2 1 Dr Dp Dh).
  - exact (RotC_derive r p h r' p' h' a b c 2 2 Dr Dp Dh).
  - destruct (polar_offcut _ (d2r_in_pi (r 0) Rr)) as [Hc|Hs]; at0; [left|right]; nra.
  - unfold A. at0. pose proof PI_neq0 as Hpi.
    match goal with |- _ = _ / ?D * _ => replace D with (cp * cp) by (ring [Hr]) end.
    field_simplify_eq; [ring [Hr Hp Hh] | split; [assumption | lra]].
Qed.

Lemma heading_curve : is_derive (fun e => of_mat euler_heading (M e)) 0 (h' - A 2%nat).
Proof.
  unfold of_mat, euler_heading. eapply is_derive_atan2_deg.
  - exact (RotC_derive r p h r' p' h' a b c 1 0 Dr Dp Dh).
  - exact (RotC_derive r p h r' p' h' a b c 0 0 Dr Dp Dh).
  - destruct (polar_offcut _ (d2r_in_pi (h 0) Rh)) as [Hc|Hs]; at0; [left|right]; nra.
  - unfold A. at0. pose proof PI_neq0 as Hpi.
    match goal with |- _ = _ / ?D * _ => replace D with (cp * cp) by (ring [Hh]) end.
    field_simplify_eq; [ring [Hr Hp Hh] | split; [assumption | lra]].
Qed.

Lemma pitch_curve : is_derive (fun e => of_mat euler_pitch (M e)) 0 (p' - A 1%nat).
Proof.
  unfold of_mat, euler_pitch.
  assert (Hn : 0 < M 0 2%nat 1%nat * M 0 2%nat 1%nat + M 0 2%nat 2%nat * M 0 2%nat 2%nat).
  { at0. replace (cp * sr * (cp * sr) + cp * cr * (cp * cr)) with (cp * cp) by (ring [Hr]). nra. }
  eapply is_derive_atan2_deg.
  - apply (is_derive_opp (fun e => M e 2%nat 0%nat)). exact (RotC_derive r p h r' p' h' a b c 2 0 Dr Dp Dh).
  - apply (is_derive_norm2 (fun e => M e 2%nat 1%nat) (fun e => M e 2%nat 2%nat));
      [exact (RotC_derive r p h r' p' h' a b c 2 1 Dr Dp Dh) | exact (RotC_derive r p h r' p' h' a b c 2 2 Dr Dp Dh) | exact Hn].
  - left. apply sqrt_lt_R0. exact Hn.
  - clear Hn. unfold A, opp; simpl. at0. pose proof PI_neq0 as Hpi.
    replace (cp * sr * (cp * sr) + cp * cr * (cp * cr)) with (cp * cp) by (ring [Hr]).
    rewrite (sqrt_square cp) by lra.
    match goal with |- _ = _ / ?D * _ => replace D with 1 by (ring [Hp]) end.
    field_simplify_eq; [ring [Hr Hp Hh] | split; [assumption | lra]].
Qed.
End EulerCurve.

(** * Part D: geodesy of the generated position arithmetic, independent of how the source spells it

    Every generated function that moves a position by metres (perturb_lla inside correct_pva, perturb_pva, the
    position simulator) or differences two positions in metres (compute_lla_difference inside Position,
    compute_state_difference) is first CHARACTERISED in terms of the specification radii of Spec/Ellipsoid.v
    (proved by canonicalisation + field, so a respelling of the source does not matter); the analysis below
    only uses these characterisations. *)
Definition Rm (l : R) : R := R_meridian A_ E2_ (l * (PI / 180)).
Definition Rt (l : R) : R := R_transverse A_ E2_ (l * (PI / 180)).
(** degrees of latitude / longitude per metre north / east at (lat, alt) *)
Definition KN (lat alt : R) : R := / (Rm lat + alt) * (180 / PI).
Definition KE (lat alt : R) : R := / ((Rt lat + alt) * cos (lat * (PI / 180))) * (180 / PI).
(** metres north / east per degree at (latm, altm) *)
Definition QN (latm altm : R) : R := (Rm latm + altm) * (PI / 180).
Definition QE (latm altm : R) : R :=
  (Rt latm + altm) * sqrt (1 - sin (latm * (PI / 180)) * sin (latm * (PI / 180))) * (PI / 180).

Lemma KN_QN lat alt : -6000000 < alt -> KN lat alt * QN lat alt = 1.
Proof.
  intro Ha. unfold KN, QN, Rm. pose proof (R_meridian_ge (lat * (PI / 180))). pose proof PI_neq0.
  field. split; lra.
Qed.

Lemma KE_QE lat alt : -90 < lat < 90 -> -6000000 < alt -> KE lat alt * QE lat alt = 1.
Proof.
  intros Hl Ha. unfold KE, QE, Rt. pose proof (R_transverse_ge (lat * (PI / 180))). pose proof PI_neq0.
  pose proof (cos_d2r_pos lat Hl).
  rewrite (sqrt_1msin2 (lat * (PI / 180))) by lra. field. repeat split; lra.
Qed.

Lemma QN_ex_derive (l a : R -> R) t : ex_derive l t -> ex_derive a t -> ex_derive (fun e => QN (l e) (a e)) t.
Proof.
  intros Hl Ha. unfold QN, Rm.
  assert (Hm : ex_derive (fun e => R_meridian A_ E2_ (l e * (PI / 180))) t).
  { apply (R_meridian_ex_derive (fun e => l e * (PI / 180))). auto_derive. exact Hl. }
  set (m := fun e => R_meridian A_ E2_ (l e * (PI / 180))) in *.
  change (ex_derive (fun e => (m e + a e) * (PI / 180)) t). auto_derive. repeat split; assumption.
Qed.

Lemma QE_ex_derive (l a : R -> R) t : -90 < l t < 90 ->
  ex_derive l t -> ex_derive a t -> ex_derive (fun e => QE (l e) (a e)) t.
Proof.
  intros Hr Hl Ha. unfold QE, Rt.
  assert (Hm : ex_derive (fun e => R_transverse A_ E2_ (l e * (PI / 180))) t).
  { apply (R_transverse_ex_derive (fun e => l e * (PI / 180))). auto_derive. exact Hl. }
  set (m := fun e => R_transverse A_ E2_ (l e * (PI / 180))) in *.
  change (ex_derive (fun e => (m e + a e) *
            sqrt (1 - sin (l e * (PI / 180)) * sin (l e * (PI / 180))) * (PI / 180)) t).
  pose proof (cos_d2r_pos (l t) Hr) as Hc. pose proof (sc1 (l t * (PI / 180))) as Hsc.
  auto_derive. repeat split; try assumption. nra.
Qed.

(* the characterisation proofs: unfold everything generated, canonicalise, field *)
Ltac geo_field lat :=
  unfold KN, KE, QN, QE, Rm, Rt, R_meridian, R_transverse, W2, A_, E2_; canon;
  rewrite ?(sqrt_1msin2 (lat * (PI / 180))) by (apply cos_d2r_nonneg; lra);
  let phi := fresh "phi" in set (phi := lat * (PI / 180)) in *; with_q phi;
  match goal with q := sqrt _ |- _ => radii_facts q;
    split_conj; first [ ring | field; radii_side q ] end.

Lemma correct3d_lla_char lat lon alt VN VE VD roll pitch heading x0 x1 x2 x3 x4 x5 x6 x7 x8 :
  -90 < lat < 90 -> -6000000 < alt ->
  correct3d_lat lat lon alt VN VE VD roll pitch heading x0 x1 x2 x3 x4 x5 x6 x7 x8 = lat - x0 * KN lat alt /\
  correct3d_lon lat lon alt VN VE VD roll pitch heading x0 x1 x2 x3 x4 x5 x6 x7 x8 = lon - x1 * KE lat alt /\
  correct3d_alt lat lon alt VN VE VD roll pitch heading x0 x1 x2 x3 x4 x5 x6 x7 x8 = alt + x2.
Proof.
  intros Hlat Halt. pose proof (cos_d2r_pos lat Hlat) as Hc.
  unfold correct3d_lat, correct3d_lon, correct3d_alt. repeat autounfold with correct3d_db. geo_field lat.
Qed.

Lemma correct2d_lla_char lat lon alt VN VE VD roll pitch heading x0 x1 x2 x3 x4 x5 x6 :
  -90 < lat < 90 -> -6000000 < alt ->
  correct2d_lat lat lon alt VN VE VD roll pitch heading x0 x1 x2 x3 x4 x5 x6 = lat - x0 * KN lat alt /\
  correct2d_lon lat lon alt VN VE VD roll pitch heading x0 x1 x2 x3 x4 x5 x6 = lon - x1 * KE lat alt /\
  correct2d_alt lat lon alt VN VE VD roll pitch heading x0 x1 x2 x3 x4 x5 x6 = alt.
Proof.
  intros Hlat Halt. pose proof (cos_d2r_pos lat Hlat) as Hc.
  unfold correct2d_lat, correct2d_lon, correct2d_alt. repeat autounfold with correct2d_db. geo_field lat.
Qed.

Lemma perturb_pva_lla_char lat lon alt VN VE VD roll pitch heading e0 e1 e2 e3 e4 e5 e6 e7 e8 :
  -90 < lat < 90 -> -6000000 < alt ->
  perturb_pva_lat lat lon alt VN VE VD roll pitch heading e0 e1 e2 e3 e4 e5 e6 e7 e8 = lat + e0 * KN lat alt /\
  perturb_pva_lon lat lon alt VN VE VD roll pitch heading e0 e1 e2 e3 e4 e5 e6 e7 e8 = lon + e1 * KE lat alt /\
  perturb_pva_alt lat lon alt VN VE VD roll pitch heading e0 e1 e2 e3 e4 e5 e6 e7 e8 = alt - e2.
Proof.
  intros Hlat Halt. pose proof (cos_d2r_pos lat Hlat) as Hc.
  unfold perturb_pva_lat, perturb_pva_lon, perturb_pva_alt. repeat autounfold with perturb_pva_db. geo_field lat.
Qed.

Lemma sim_pos_char lat lon alt VN VE VD roll pitch heading s n0 n1 n2 :
  -90 < lat < 90 -> -6000000 < alt ->
  sim_pos_lat lat lon alt VN VE VD roll pitch heading s n0 n1 n2 = lat + s * n0 * KN lat alt /\
  sim_pos_lon lat lon alt VN VE VD roll pitch heading s n0 n1 n2 = lon + s * n1 * KE lat alt /\
  sim_pos_alt lat lon alt VN VE VD roll pitch heading s n0 n1 n2 = alt - s * n2.
Proof.
  intros Hlat Halt. pose proof (cos_d2r_pos lat Hlat) as Hc.
  unfold sim_pos_lat, sim_pos_lon, sim_pos_alt. repeat autounfold with sim_pos_db. geo_field lat.
Qed.

(** compute_state_difference, position rows: degrees times the metres-per-degree at the mid point *)
Lemma state_diff_ned_char lat1 lon1 alt1 VN1 VE1 VD1 roll1 pitch1 heading1
                          lat2 lon2 alt2 VN2 VE2 VD2 roll2 pitch2 heading2 :
  state_diff_north lat1 lon1 alt1 VN1 VE1 VD1 roll1 pitch1 heading1 lat2 lon2 alt2 VN2 VE2 VD2 roll2 pitch2 heading2
    = (lat1 - lat2) * QN (1 / 2 * (lat1 + lat2)) (1 / 2 * (alt1 + alt2)) /\
  state_diff_east lat1 lon1 alt1 VN1 VE1 VD1 roll1 pitch1 heading1 lat2 lon2 alt2 VN2 VE2 VD2 roll2 pitch2 heading2
    = (lon1 - lon2) * QE (1 / 2 * (lat1 + lat2)) (1 / 2 * (alt1 + alt2)) /\
  state_diff_down lat1 lon1 alt1 VN1 VE1 VD1 roll1 pitch1 heading1 lat2 lon2 alt2 VN2 VE2 VD2 roll2 pitch2 heading2
    = alt2 - alt1.
Proof.
  unfold state_diff_north, state_diff_east, state_diff_down. repeat autounfold with state_diff_db.
  unfold QN, QE, Rm, Rt, R_meridian, R_transverse, W2, A_, E2_.
  canon_angle (1 / 2 * (lat1 + lat2) * (PI / 180)). canon.
  set (phim := 1 / 2 * (lat1 + lat2) * (PI / 180)). with_q phim.
  split; [|split]; [field; lra | field; lra | ring].
Qed.

(** compute_lla_difference (as used by Position), same form *)
Lemma lla_diff_char lat1 lon1 alt1 lat2 lon2 alt2 :
  compute_lla_difference_d0 lat1 lon1 alt1 lat2 lon2 alt2 = (lat1 - lat2) * QN (1 / 2 * (lat1 + lat2)) (1 / 2 * (alt1 + alt2)) /\
  compute_lla_difference_d1 lat1 lon1 alt1 lat2 lon2 alt2 = (lon1 - lon2) * QE (1 / 2 * (lat1 + lat2)) (1 / 2 * (alt1 + alt2)) /\
  compute_lla_difference_d2 lat1 lon1 alt1 lat2 lon2 alt2 = alt2 - alt1.
Proof.
  destruct (lla_difference_char lat1 lon1 alt1 lat2 lon2 alt2) as [H0 [H1 H2]]. cbv zeta in *.
  rewrite H0, H1, H2. unfold QN, QE, Rm, Rt. split_conj; ring.
Qed.

Lemma KN_ex_derive (l a : R -> R) t : ex_derive l t -> ex_derive a t -> -6000000 < a t ->
  ex_derive (fun e => KN (l e) (a e)) t.
Proof.
  intros Hl Ha Hr. unfold KN, Rm.
  assert (Hm : ex_derive (fun e => R_meridian A_ E2_ (l e * (PI / 180))) t).
  { apply (R_meridian_ex_derive (fun e => l e * (PI / 180))). auto_derive. exact Hl. }
  pose proof (R_meridian_ge (l t * (PI / 180))) as Hge.
  set (m := fun e => R_meridian A_ E2_ (l e * (PI / 180))) in *.
  change (ex_derive (fun e => / (m e + a e) * (180 / PI)) t). auto_derive.
  repeat split; try assumption. unfold m. lra.
Qed.

Lemma KE_ex_derive (l a : R -> R) t : ex_derive l t -> ex_derive a t -> -90 < l t < 90 -> -6000000 < a t ->
  ex_derive (fun e => KE (l e) (a e)) t.
Proof.
  intros Hl Ha Hlr Hr. unfold KE, Rt.
  assert (Hm : ex_derive (fun e => R_transverse A_ E2_ (l e * (PI / 180))) t).
  { apply (R_transverse_ex_derive (fun e => l e * (PI / 180))). auto_derive. exact Hl. }
  pose proof (R_transverse_ge (l t * (PI / 180))) as Hge. pose proof (cos_d2r_pos (l t) Hlr) as Hc.
  set (m := fun e => R_transverse A_ E2_ (l e * (PI / 180))) in *.
  change (ex_derive (fun e => / ((m e + a e) * cos (l e * (PI / 180))) * (180 / PI)) t). auto_derive.
  repeat split; try assumption. unfold m. apply Rgt_not_eq. apply Rmult_lt_0_compat; lra.
Qed.

(** a quantity that, where the position is in range, is [u] moved by [e x] metres, [K] degrees per metre *)
Lemma shift_curve (F u la al : R -> R) (K : R -> R -> R) u' x :
  (forall e, -90 < la e < 90 -> -6000000 < al e -> F e = u e - e * x * K (la e) (al e)) ->
  ex_derive la 0 -> ex_derive al 0 -> -90 < la 0 < 90 -> -6000000 < al 0 ->
  ex_derive (fun e => K (la e) (al e)) 0 -> is_derive u 0 u' ->
  is_derive F 0 (u' - x * K (la 0) (al 0)).
Proof.
  intros HF Dl Da Rl Ra DK Du.
  apply (is_derive_ext_loc (fun e => u e - e * (x * K (la e) (al e)))).
  - assert (Hloc : locally 0 (fun e => -90 < la e < 90 /\ -6000000 < al e < al 0 + 1))
      by (apply filter_and; apply locally_between; try assumption; lra).
    revert Hloc. apply filter_imp. intros e [B1 [B2 _]]. rewrite HF by assumption. eqR. ring.
  - evar_last.
    + apply (is_derive_minus (V := R_NormedModule)); [exact Du|]. apply is_derive_e_times; [|reflexivity].
      set (k := fun e => K (la e) (al e)) in *. change (ex_derive (fun e => x * k e) 0). auto_derive. exact DK.
    + unfold minus, plus, opp; simpl. ring.
Qed.

Lemma ex_derive_mid (u v : R -> R) : ex_derive u 0 -> ex_derive v 0 -> ex_derive (fun e => 1 / 2 * (u e + v e)) 0.
Proof. intros Hu Hv. auto_derive. split_conj; try exact I; assumption. Qed.

(** two positions that coincide at e = 0, differenced in metres with the radii at their mid point *)
Lemma north_curve (l1 l2 a1 a2 : R -> R) d1 d2 lat alt :
  l1 0 = lat -> l2 0 = lat -> a1 0 = alt -> a2 0 = alt ->
  is_derive l1 0 d1 -> is_derive l2 0 d2 -> ex_derive a1 0 -> ex_derive a2 0 ->
  is_derive (fun e => (l1 e - l2 e) * QN (1 / 2 * (l1 e + l2 e)) (1 / 2 * (a1 e + a2 e))) 0 ((d1 - d2) * QN lat alt).
Proof.
  intros L1 L2 A1 A2 D1 D2 E1 E2. evar_last.
  - apply (is_derive_mult_at_zero (fun e => l1 e - l2 e) (fun e => QN (1 / 2 * (l1 e + l2 e)) (1 / 2 * (a1 e + a2 e)))).
    + rewrite L1, L2. ring.
    + apply (is_derive_minus (V := R_NormedModule)); eassumption.
    + apply QN_ex_derive; apply ex_derive_mid; try assumption; eexists; eassumption.
  - cbv beta. rewrite L1, L2, A1, A2. unfold minus, plus, opp; simpl.
    replace (1 / 2 * (lat + lat)) with lat by field. replace (1 / 2 * (alt + alt)) with alt by field. ring.
Qed.

Lemma east_curve (o1 o2 l1 l2 a1 a2 : R -> R) d1 d2 lat alt : -90 < lat < 90 ->
  o1 0 = o2 0 -> l1 0 = lat -> l2 0 = lat -> a1 0 = alt -> a2 0 = alt ->
  is_derive o1 0 d1 -> is_derive o2 0 d2 -> ex_derive l1 0 -> ex_derive l2 0 -> ex_derive a1 0 -> ex_derive a2 0 ->
  is_derive (fun e => (o1 e - o2 e) * QE (1 / 2 * (l1 e + l2 e)) (1 / 2 * (a1 e + a2 e))) 0 ((d1 - d2) * QE lat alt).
Proof.
  intros Hl O L1 L2 A1 A2 D1 D2 F1 F2 E1 E2. evar_last.
  - apply (is_derive_mult_at_zero (fun e => o1 e - o2 e) (fun e => QE (1 / 2 * (l1 e + l2 e)) (1 / 2 * (a1 e + a2 e)))).
    + rewrite O. ring.
    + apply (is_derive_minus (V := R_NormedModule)); eassumption.
    + apply (QE_ex_derive (fun e => 1 / 2 * (l1 e + l2 e))); try (apply ex_derive_mid; assumption).
      rewrite L1, L2. lra.
  - cbv beta. rewrite L1, L2, A1, A2. unfold minus, plus, opp; simpl.
    replace (1 / 2 * (lat + lat)) with lat by field. replace (1 / 2 * (alt + alt)) with alt by field. ring.
Qed.

(** * Part E: correct_pva, perturb_pva and compute_state_difference along paths (C05 b, c) *)

(** a component [f] of correct_pva (3D: 9 states, 2D: 7 states) along the ray  e |-> e * x *)
Definition along3 (f : R -> R -> R -> R -> R -> R -> R -> R -> R -> R -> R -> R -> R -> R -> R -> R -> R -> R -> R)
  (lat lon alt VN VE VD roll pitch heading x0 x1 x2 x3 x4 x5 x6 x7 x8 e : R) : R :=
  f lat lon alt VN VE VD roll pitch heading (e * x0) (e * x1) (e * x2) (e * x3) (e * x4) (e * x5)
    (e * x6) (e * x7) (e * x8).
Definition along2 (f : R -> R -> R -> R -> R -> R -> R -> R -> R -> R -> R -> R -> R -> R -> R -> R -> R)
  (lat lon alt VN VE VD roll pitch heading x0 x1 x2 x3 x4 x5 x6 e : R) : R :=
  f lat lon alt VN VE VD roll pitch heading (e * x0) (e * x1) (e * x2) (e * x3) (e * x4) (e * x5) (e * x6).

(** component [d] of compute_state_difference(pva, correct_pva(pva, e * x)) *)
Definition diff_after_correct3
  (d : R -> R -> R -> R -> R -> R -> R -> R -> R -> R -> R -> R -> R -> R -> R -> R -> R -> R -> R)
  (lat lon alt VN VE VD roll pitch heading x0 x1 x2 x3 x4 x5 x6 x7 x8 e : R) : R :=
  d lat lon alt VN VE VD roll pitch heading
    (along3 correct3d_lat lat lon alt VN VE VD roll pitch heading x0 x1 x2 x3 x4 x5 x6 x7 x8 e)
    (along3 correct3d_lon lat lon alt VN VE VD roll pitch heading x0 x1 x2 x3 x4 x5 x6 x7 x8 e)
    (along3 correct3d_alt lat lon alt VN VE VD roll pitch heading x0 x1 x2 x3 x4 x5 x6 x7 x8 e)
    (along3 correct3d_VN lat lon alt VN VE VD roll pitch heading x0 x1 x2 x3 x4 x5 x6 x7 x8 e)
    (along3 correct3d_VE lat lon alt VN VE VD roll pitch heading x0 x1 x2 x3 x4 x5 x6 x7 x8 e)
    (along3 correct3d_VD lat lon alt VN VE VD roll pitch heading x0 x1 x2 x3 x4 x5 x6 x7 x8 e)
    (along3 correct3d_roll lat lon alt VN VE VD roll pitch heading x0 x1 x2 x3 x4 x5 x6 x7 x8 e)
    (along3 correct3d_pitch lat lon alt VN VE VD roll pitch heading x0 x1 x2 x3 x4 x5 x6 x7 x8 e)
    (along3 correct3d_heading lat lon alt VN VE VD roll pitch heading x0 x1 x2 x3 x4 x5 x6 x7 x8 e).
Definition diff_after_correct2
  (d : R -> R -> R -> R -> R -> R -> R -> R -> R -> R -> R -> R -> R -> R -> R -> R -> R -> R -> R)
  (lat lon alt VN VE VD roll pitch heading x0 x1 x2 x3 x4 x5 x6 e : R) : R :=
  d lat lon alt VN VE VD roll pitch heading
    (along2 correct2d_lat lat lon alt VN VE VD roll pitch heading x0 x1 x2 x3 x4 x5 x6 e)
    (along2 correct2d_lon lat lon alt VN VE VD roll pitch heading x0 x1 x2 x3 x4 x5 x6 e)
    (along2 correct2d_alt lat lon alt VN VE VD roll pitch heading x0 x1 x2 x3 x4 x5 x6 e)
    (along2 correct2d_VN lat lon alt VN VE VD roll pitch heading x0 x1 x2 x3 x4 x5 x6 e)
    (along2 correct2d_VE lat lon alt VN VE VD roll pitch heading x0 x1 x2 x3 x4 x5 x6 e)
    (along2 correct2d_VD lat lon alt VN VE VD roll pitch heading x0 x1 x2 x3 x4 x5 x6 e)
    (along2 correct2d_roll lat lon alt VN VE VD roll pitch heading x0 x1 x2 x3 x4 x5 x6 e)
    (along2 correct2d_pitch lat lon alt VN VE VD roll pitch heading x0 x1 x2 x3 x4 x5 x6 e)
    (along2 correct2d_heading lat lon alt VN VE VD roll pitch heading x0 x1 x2 x3 x4 x5 x6 e).

(** correct_pva, attitude and velocity: C_nb' = Rot(phi) C_nb read back as angles, V' = Rot(phi) (V - dV);
    in 2D the down component of dV is VE phi_0 - VN phi_1 *)
Ltac att_eq := unfold correct3d_roll, correct3d_pitch, correct3d_heading, correct2d_roll, correct2d_pitch, correct2d_heading;
  autounfold with correct3d_db correct2d_db; cbv [of_mat mmul sumN rotm]; unf_Cnb; f_equal; lra.

Lemma correct3d_att_eq lat lon alt VN VE VD roll pitch heading x0 x1 x2 x3 x4 x5 x6 x7 x8 :
  let M := mmul 3 (rotm x6 x7 x8) (Cnb roll pitch heading) in
  correct3d_roll lat lon alt VN VE VD roll pitch heading x0 x1 x2 x3 x4 x5 x6 x7 x8 = of_mat euler_roll M /\
  correct3d_pitch lat lon alt VN VE VD roll pitch heading x0 x1 x2 x3 x4 x5 x6 x7 x8 = of_mat euler_pitch M /\
  correct3d_heading lat lon alt VN VE VD roll pitch heading x0 x1 x2 x3 x4 x5 x6 x7 x8 = of_mat euler_heading M.
Proof. cbv zeta. split; [|split]; att_eq. Qed.

Lemma correct2d_att_eq lat lon alt VN VE VD roll pitch heading x0 x1 x2 x3 x4 x5 x6 :
  let M := mmul 3 (rotm x4 x5 x6) (Cnb roll pitch heading) in
  correct2d_roll lat lon alt VN VE VD roll pitch heading x0 x1 x2 x3 x4 x5 x6 = of_mat euler_roll M /\
  correct2d_pitch lat lon alt VN VE VD roll pitch heading x0 x1 x2 x3 x4 x5 x6 = of_mat euler_pitch M /\
  correct2d_heading lat lon alt VN VE VD roll pitch heading x0 x1 x2 x3 x4 x5 x6 = of_mat euler_heading M.
Proof. cbv zeta. split; [|split]; att_eq. Qed.

Lemma correct3d_V_eq lat lon alt VN VE VD roll pitch heading x0 x1 x2 x3 x4 x5 x6 x7 x8 k : (k < 3)%nat ->
  vec3 (correct3d_VN lat lon alt VN VE VD roll pitch heading x0 x1 x2 x3 x4 x5 x6 x7 x8)
       (correct3d_VE lat lon alt VN VE VD roll pitch heading x0 x1 x2 x3 x4 x5 x6 x7 x8)
       (correct3d_VD lat lon alt VN VE VD roll pitch heading x0 x1 x2 x3 x4 x5 x6 x7 x8) k
  = mvec 3 (rotm x6 x7 x8) (vec3 (VN - x3) (VE - x4) (VD - x5)) k.
Proof. intro Hk. idx k; cbv [vec3 mvec sumN rotm]; unfold correct3d_VN, correct3d_VE, correct3d_VD; ring. Qed.

Lemma correct2d_V_eq lat lon alt VN VE VD roll pitch heading x0 x1 x2 x3 x4 x5 x6 k : (k < 2)%nat ->
  vec3 (correct2d_VN lat lon alt VN VE VD roll pitch heading x0 x1 x2 x3 x4 x5 x6)
       (correct2d_VE lat lon alt VN VE VD roll pitch heading x0 x1 x2 x3 x4 x5 x6) 0 k
  = mvec 3 (rotm x4 x5 x6) (vec3 (VN - x2) (VE - x3) (VD - (VE * x4 - VN * x5))) k.
Proof. intro Hk. idx k; cbv [vec3 mvec sumN rotm]; unfold correct2d_VN, correct2d_VE; ring. Qed.

Definition ap99 (f : nary 18) (s v : nat -> R) : R :=
  (f (s 0) (s 1) (s 2) (s 3) (s 4) (s 5) (s 6) (s 7) (s 8) (v 0) (v 1) (v 2) (v 3) (v 4) (v 5) (v 6) (v 7) (v 8))%nat.
Definition ap97 (f : nary 16) (s v : nat -> R) : R :=
  (f (s 0) (s 1) (s 2) (s 3) (s 4) (s 5) (s 6) (s 7) (s 8) (v 0) (v 1) (v 2) (v 3) (v 4) (v 5) (v 6))%nat.

Definition corr3 (k : nat) : nary 18 :=
  match k with 0 => correct3d_lat | 1 => correct3d_lon | 2 => correct3d_alt | 3 => correct3d_VN | 4 => correct3d_VE
             | 5 => correct3d_VD | 6 => correct3d_roll | 7 => correct3d_pitch | _ => correct3d_heading end%nat.
Definition corr2 (k : nat) : nary 16 :=
  match k with 0 => correct2d_lat | 1 => correct2d_lon | 2 => correct2d_alt | 3 => correct2d_VN | 4 => correct2d_VE
             | 5 => correct2d_VD | 6 => correct2d_roll | 7 => correct2d_pitch | _ => correct2d_heading end%nat.
(** native units (degrees, metres up) of the nine state components per unit of the output-space error *)
Definition unit9 (lat alt : R) (k : nat) : R :=
  match k with 0 => KN lat alt | 1 => KE lat alt | 2 => (-1)%R | _ => 1%R end%nat.

(** correct_pva along a path: the state follows the curves B (value b0, derivative db at 0), the correction is e x.
    Each corrected component starts at b0 and moves at  db - T_out(b0) x  (in its native unit). *)
Section CorrectedPath.
Variables (B : nat -> R -> R) (b0 db : nat -> R).
Hypothesis HB : forall k, (k < 9)%nat -> B k 0 = b0 k.
Hypothesis DB : forall k, (k < 9)%nat -> is_derive (B k) 0 (db k).
Hypothesis Hlat : -90 < b0 0%nat < 90.
Hypothesis Halt : -6000000 < b0 2%nat.
Hypothesis Hroll : -180 < b0 6%nat < 180.
Hypothesis Hpitch : -90 < b0 7%nat < 90.
Hypothesis Hheading : -180 < b0 8%nat < 180.

Let EB k (Hk : (k < 9)%nat) : ex_derive (B k) 0 := ex_intro _ (db k) (DB k Hk).
Let U := unit9 (b0 0%nat) (b0 2%nat).

Section Mode3.
Variables x0 x1 x2 x3 x4 x5 x6 x7 x8 : R.
Let x := vec9 x0 x1 x2 x3 x4 x5 x6 x7 x8.
Let C (k : nat) (e : R) : R := ap99 (corr3 k) (fun j => B j e) (fun j => e * x j).
Let Tx := mvec 9 (Tout3 (b0 0) (b0 1) (b0 2) (b0 3) (b0 4) (b0 5) (b0 6) (b0 7) (b0 8))%nat x.

Lemma corrected3_at0 k : (k < 9)%nat -> C k 0 = b0 k.
Proof.
  intro Hk.
  assert (HV : forall i, (i < 3)%nat -> vec3 (C 3%nat 0) (C 4%nat 0) (C 5%nat 0) i = b0 (3 + i)%nat).
  { intros i Hi. unfold C, ap99, x. cbv [corr3 vec9]. rewrite correct3d_V_eq, rotm0_mvec by exact Hi.
    idx i; cbv [vec3 Nat.add]; rewrite HB by lia; ring. }
  destruct (euler_Cnb (B 6%nat 0) (B 7%nat 0) (B 8%nat 0)) as [E6 [E7 E8]]; rewrite ?HB by lia; try assumption.
  unfold of_mat in E6, E7, E8.
  idx k; [| | | exact (HV 0%nat ltac:(lia)) | exact (HV 1%nat ltac:(lia)) | exact (HV 2%nat ltac:(lia)) | | |];
    unfold C, ap99, x; cbv [corr3 vec9].
  - unfold correct3d_lat, Rdiv. rewrite HB by lia. ring.
  - unfold correct3d_lon, Rdiv. rewrite HB by lia. ring.
  - unfold correct3d_alt. rewrite HB by lia. ring.
  - rewrite (proj1 (correct3d_att_eq _ _ _ _ _ _ _ _ _ _ _ _ _ _ _ _ _ _)). unfold of_mat.
    rewrite !rotm0_mmul by lia. rewrite E6. apply HB; lia.
  - rewrite (proj1 (proj2 (correct3d_att_eq _ _ _ _ _ _ _ _ _ _ _ _ _ _ _ _ _ _))). unfold of_mat.
    rewrite !rotm0_mmul by lia. rewrite E7. apply HB; lia.
  - rewrite (proj2 (proj2 (correct3d_att_eq _ _ _ _ _ _ _ _ _ _ _ _ _ _ _ _ _ _))). unfold of_mat.
    rewrite !rotm0_mmul by lia. rewrite E8. apply HB; lia.
Qed.

Lemma corrected3_V i : (i < 3)%nat ->
  is_derive (fun e => vec3 (C 3%nat e) (C 4%nat e) (C 5%nat e) i) 0 (db (3 + i)%nat - Tx (3 + i)%nat).
Proof.
  intro Hi.
  apply (is_derive_ext (fun e => mvec 3 (rotm (e * x6) (e * x7) (e * x8))
           (vec3 (B 3%nat e - e * x3) (B 4%nat e - e * x4) (B 5%nat e - e * x5)) i)).
  { intro e. symmetry. apply correct3d_V_eq. exact Hi. }
  evar_last; [apply (RotV_derive (fun e => B 3%nat e - e * x3) (fun e => B 4%nat e - e * x4) (fun e => B 5%nat e - e * x5)
                        (db 3%nat - x3) (db 4%nat - x4) (db 5%nat - x5) x6 x7 x8 i Hi); apply is_derive_minus_lin, DB; lia|].
  unfold Tx, x. rewrite Tout3_vec, !HB by lia. idx i; cbv [mvec sumN skew3 vec3 vec9 Nat.add]; ring.
Qed.

Lemma corrected3_att i : (i < 3)%nat ->
  is_derive (fun e => vec3 (C 6%nat e) (C 7%nat e) (C 8%nat e) i) 0 (db (6 + i)%nat - Tx (6 + i)%nat).
Proof.
  intro Hi.
  assert (Rr : -180 < B 6%nat 0 < 180) by (rewrite HB by lia; exact Hroll).
  assert (Rp : -90 < B 7%nat 0 < 90) by (rewrite HB by lia; exact Hpitch).
  assert (Rh : -180 < B 8%nat 0 < 180) by (rewrite HB by lia; exact Hheading).
  unfold Tx, x. rewrite Tout3_vec. rewrite <- !HB by lia. idx i; cbv [vec3 vec9 Nat.add]; unfold C, ap99, x; cbv [corr3 vec9].
  - apply (is_derive_ext _ _ _ _ (fun e => eq_sym (proj1 (correct3d_att_eq _ _ _ _ _ _ _ _ _ _ _ _ _ _ _ _ _ _)))).
    apply (roll_curve (B 6%nat) (B 7%nat) (B 8%nat) (db 6%nat) (db 7%nat) (db 8%nat)); auto.
  - apply (is_derive_ext _ _ _ _ (fun e => eq_sym (proj1 (proj2 (correct3d_att_eq _ _ _ _ _ _ _ _ _ _ _ _ _ _ _ _ _ _))))).
    apply (pitch_curve (B 6%nat) (B 7%nat) (B 8%nat) (db 6%nat) (db 7%nat) (db 8%nat)); auto.
  - apply (is_derive_ext _ _ _ _ (fun e => eq_sym (proj2 (proj2 (correct3d_att_eq _ _ _ _ _ _ _ _ _ _ _ _ _ _ _ _ _ _))))).
    apply (heading_curve (B 6%nat) (B 7%nat) (B 8%nat) (db 6%nat) (db 7%nat) (db 8%nat)); auto.
Qed.

Lemma corrected3_derive k : (k < 9)%nat -> is_derive (C k) 0 (db k - U k * Tx k).
Proof.
  intro Hk.
  assert (Rl : -90 < B 0%nat 0 < 90) by (rewrite HB by lia; exact Hlat).
  assert (Ra : -6000000 < B 2%nat 0) by (rewrite HB by lia; exact Halt).
  idx k; cbv [U unit9]; rewrite ?Rmult_1_l;
    [| | | exact (corrected3_V 0%nat ltac:(lia)) | exact (corrected3_V 1%nat ltac:(lia)) | exact (corrected3_V 2%nat ltac:(lia))
     | exact (corrected3_att 0%nat ltac:(lia)) | exact (corrected3_att 1%nat ltac:(lia)) | exact (corrected3_att 2%nat ltac:(lia))];
    unfold Tx, x; rewrite Tout3_vec; cbv [vec9]; unfold C, ap99, x; cbv [corr3 vec9].
  - evar_last.
    + refine (shift_curve _ (B 0%nat) (B 0%nat) (B 2%nat) KN (db 0%nat) x0 _ (EB 0%nat ltac:(lia)) (EB 2%nat ltac:(lia)) Rl Ra _ (DB 0%nat ltac:(lia))).
      * intros e H1 H2. exact (proj1 (correct3d_lla_char _ _ _ _ _ _ _ _ _ _ _ _ _ _ _ _ _ _ H1 H2)).
      * apply KN_ex_derive; [apply EB; lia | apply EB; lia | exact Ra].
    + rewrite (HB 0%nat), (HB 2%nat) by lia. ring.
  - evar_last.
    + refine (shift_curve _ (B 1%nat) (B 0%nat) (B 2%nat) KE (db 1%nat) x1 _ (EB 0%nat ltac:(lia)) (EB 2%nat ltac:(lia)) Rl Ra _ (DB 1%nat ltac:(lia))).
      * intros e H1 H2. exact (proj1 (proj2 (correct3d_lla_char _ _ _ _ _ _ _ _ _ _ _ _ _ _ _ _ _ _ H1 H2))).
      * apply KE_ex_derive; [apply EB; lia | apply EB; lia | exact Rl | exact Ra].
    + rewrite (HB 0%nat), (HB 2%nat) by lia. ring.
  - unfold correct3d_alt. auto_derive; [split_conj; try exact I; exact (EB 2%nat ltac:(lia))|]. derive_val (DB 2%nat ltac:(lia)). ring.
Qed.
End Mode3.

Section Mode2.
Variables x0 x1 x2 x3 x4 x5 x6 : R.
Let x := vec7 x0 x1 x2 x3 x4 x5 x6.
Let C (k : nat) (e : R) : R := ap97 (corr2 k) (fun j => B j e) (fun j => e * x j).
Let Tx := mvec 7 (Tout2 (b0 0) (b0 1) (b0 2) (b0 3) (b0 4) (b0 5) (b0 6) (b0 7) (b0 8))%nat x.

Lemma corrected2_at0 k : (k < 9)%nat -> C k 0 = b0 k.
Proof.
  intro Hk.
  assert (HV : forall i, (i < 2)%nat -> vec3 (C 3%nat 0) (C 4%nat 0) 0 i = b0 (3 + i)%nat).
  { intros i Hi. unfold C, ap97, x. cbv [corr2 vec7]. rewrite correct2d_V_eq, rotm0_mvec by lia.
    idx i; cbv [vec3 Nat.add]; rewrite HB by lia; ring. }
  destruct (euler_Cnb (B 6%nat 0) (B 7%nat 0) (B 8%nat 0)) as [E6 [E7 E8]]; rewrite ?HB by lia; try assumption.
  unfold of_mat in E6, E7, E8.
  idx k; [| | | exact (HV 0%nat ltac:(lia)) | exact (HV 1%nat ltac:(lia)) | | | |];
    unfold C, ap97, x; cbv [corr2 vec7].
  - unfold correct2d_lat, Rdiv. rewrite HB by lia. ring.
  - unfold correct2d_lon, Rdiv. rewrite HB by lia. ring.
  - apply HB; lia.
  - apply HB; lia.
  - rewrite (proj1 (correct2d_att_eq _ _ _ _ _ _ _ _ _ _ _ _ _ _ _ _)). unfold of_mat.
    rewrite !rotm0_mmul by lia. rewrite E6. apply HB; lia.
  - rewrite (proj1 (proj2 (correct2d_att_eq _ _ _ _ _ _ _ _ _ _ _ _ _ _ _ _))). unfold of_mat.
    rewrite !rotm0_mmul by lia. rewrite E7. apply HB; lia.
  - rewrite (proj2 (proj2 (correct2d_att_eq _ _ _ _ _ _ _ _ _ _ _ _ _ _ _ _))). unfold of_mat.
    rewrite !rotm0_mmul by lia. rewrite E8. apply HB; lia.
Qed.

Lemma corrected2_V i : (i < 2)%nat ->
  is_derive (fun e => vec3 (C 3%nat e) (C 4%nat e) 0 i) 0 (db (3 + i)%nat - Tx (3 + i)%nat).
Proof.
  intro Hi.
  pose (w := fun e => B 5%nat e - (B 4%nat e * (e * x4) - B 3%nat e * (e * x5))).
  assert (Dw : is_derive w 0 (db 5%nat - (b0 4%nat * x4 - b0 3%nat * x5))).
  { unfold w. auto_derive; [split_conj; try exact I; apply EB; lia|].
    derive_val (DB 3%nat ltac:(lia)). derive_val (DB 4%nat ltac:(lia)). derive_val (DB 5%nat ltac:(lia)). rewrite !HB by lia. ring. }
  apply (is_derive_ext (fun e => mvec 3 (rotm (e * x4) (e * x5) (e * x6))
           (vec3 (B 3%nat e - e * x2) (B 4%nat e - e * x3) (w e)) i)).
  { intro e. symmetry. apply correct2d_V_eq. exact Hi. }
  evar_last; [apply (RotV_derive (fun e => B 3%nat e - e * x2) (fun e => B 4%nat e - e * x3) w
                        (db 3%nat - x2) (db 4%nat - x3) (db 5%nat - (b0 4%nat * x4 - b0 3%nat * x5)) x4 x5 x6 i ltac:(lia));
               [apply is_derive_minus_lin, DB; lia | apply is_derive_minus_lin, DB; lia | exact Dw]|].
  unfold Tx, x, w. rewrite Tout2_vec, !HB by lia. idx i; cbv [mvec sumN skew3 vec3 vec9 Nat.add]; ring.
Qed.

Lemma corrected2_att i : (i < 3)%nat ->
  is_derive (fun e => vec3 (C 6%nat e) (C 7%nat e) (C 8%nat e) i) 0 (db (6 + i)%nat - Tx (6 + i)%nat).
Proof.
  intro Hi.
  assert (Rr : -180 < B 6%nat 0 < 180) by (rewrite HB by lia; exact Hroll).
  assert (Rp : -90 < B 7%nat 0 < 90) by (rewrite HB by lia; exact Hpitch).
  assert (Rh : -180 < B 8%nat 0 < 180) by (rewrite HB by lia; exact Hheading).
  unfold Tx, x. rewrite Tout2_vec. rewrite <- !HB by lia. idx i; cbv [vec3 vec9 Nat.add]; unfold C, ap97, x; cbv [corr2 vec7].
  - apply (is_derive_ext _ _ _ _ (fun e => eq_sym (proj1 (correct2d_att_eq _ _ _ _ _ _ _ _ _ _ _ _ _ _ _ _)))).
    apply (roll_curve (B 6%nat) (B 7%nat) (B 8%nat) (db 6%nat) (db 7%nat) (db 8%nat)); auto.
  - apply (is_derive_ext _ _ _ _ (fun e => eq_sym (proj1 (proj2 (correct2d_att_eq _ _ _ _ _ _ _ _ _ _ _ _ _ _ _ _))))).
    apply (pitch_curve (B 6%nat) (B 7%nat) (B 8%nat) (db 6%nat) (db 7%nat) (db 8%nat)); auto.
  - apply (is_derive_ext _ _ _ _ (fun e => eq_sym (proj2 (proj2 (correct2d_att_eq _ _ _ _ _ _ _ _ _ _ _ _ _ _ _ _))))).
    apply (heading_curve (B 6%nat) (B 7%nat) (B 8%nat) (db 6%nat) (db 7%nat) (db 8%nat)); auto.
Qed.

Lemma corrected2_derive k : (k < 9)%nat -> is_derive (C k) 0 (db k - U k * Tx k).
Proof.
  intro Hk.
  assert (Rl : -90 < B 0%nat 0 < 90) by (rewrite HB by lia; exact Hlat).
  assert (Ra : -6000000 < B 2%nat 0) by (rewrite HB by lia; exact Halt).
  idx k; cbv [U unit9]; rewrite ?Rmult_1_l;
    [| | | exact (corrected2_V 0%nat ltac:(lia)) | exact (corrected2_V 1%nat ltac:(lia)) |
     | exact (corrected2_att 0%nat ltac:(lia)) | exact (corrected2_att 1%nat ltac:(lia)) | exact (corrected2_att 2%nat ltac:(lia))];
    unfold Tx, x; rewrite Tout2_vec; cbv [vec9]; unfold C, ap97, x; cbv [corr2 vec7].
  - evar_last.
    + refine (shift_curve _ (B 0%nat) (B 0%nat) (B 2%nat) KN (db 0%nat) x0 _ (EB 0%nat ltac:(lia)) (EB 2%nat ltac:(lia)) Rl Ra _ (DB 0%nat ltac:(lia))).
      * intros e H1 H2. exact (proj1 (correct2d_lla_char _ _ _ _ _ _ _ _ _ _ _ _ _ _ _ _ H1 H2)).
      * apply KN_ex_derive; [apply EB; lia | apply EB; lia | exact Ra].
    + rewrite (HB 0%nat), (HB 2%nat) by lia. ring.
  - evar_last.
    + refine (shift_curve _ (B 1%nat) (B 0%nat) (B 2%nat) KE (db 1%nat) x1 _ (EB 0%nat ltac:(lia)) (EB 2%nat ltac:(lia)) Rl Ra _ (DB 1%nat ltac:(lia))).
      * intros e H1 H2. exact (proj1 (proj2 (correct2d_lla_char _ _ _ _ _ _ _ _ _ _ _ _ _ _ _ _ H1 H2))).
      * apply KE_ex_derive; [apply EB; lia | apply EB; lia | exact Rl | exact Ra].
    + rewrite (HB 0%nat), (HB 2%nat) by lia. ring.
  - unfold correct2d_alt. replace (db 2%nat - -1 * 0) with (db 2%nat) by ring. apply DB; lia.
  - unfold correct2d_VD. replace (db 5%nat - 0) with (db 5%nat) by ring. apply DB; lia.
Qed.
End Mode2.
End CorrectedPath.

Definition pert (k : nat) : nary 18 :=
  match k with 0 => perturb_pva_lat | 1 => perturb_pva_lon | 2 => perturb_pva_alt | 3 => perturb_pva_VN | 4 => perturb_pva_VE
             | 5 => perturb_pva_VD | 6 => perturb_pva_roll | 7 => perturb_pva_pitch | _ => perturb_pva_heading end%nat.
Definition sdiff (k : nat) : nary 18 :=
  match k with 0 => state_diff_north | 1 => state_diff_east | 2 => state_diff_down | 3 => state_diff_VN | 4 => state_diff_VE
             | 5 => state_diff_VD | 6 => state_diff_roll | 7 => state_diff_pitch | _ => state_diff_heading end%nat.
(** output-space units per native unit *)
Definition scale9 (lat alt : R) (k : nat) : R :=
  match k with 0 => QN lat alt | 1 => QE lat alt | 2 => (-1)%R | _ => 1%R end%nat.

Lemma unit_scale lat alt k : -90 < lat < 90 -> -6000000 < alt -> unit9 lat alt k * scale9 lat alt k = 1.
Proof.
  intros Hl Ha. destruct k as [|[|[|k]]]; cbv [unit9 scale9]; [apply KN_QN | apply KE_QE | ring | ring]; assumption.
Qed.

(** sim.perturb_pva(s, e E): starts at s and moves at E, in native units *)
Lemma perturbed_path (s E : nat -> R) k : (k < 9)%nat -> -90 < s 0%nat < 90 -> -6000000 < s 2%nat ->
  ap99 (pert k) s (fun j => 0 * E j) = s k /\
  is_derive (fun e => ap99 (pert k) s (fun j => e * E j)) 0 (unit9 (s 0%nat) (s 2%nat) k * E k).
Proof.
  intros Hk Hl Ha. idx k; unfold ap99; cbv [pert unit9].
  - split; [unfold perturb_pva_lat, Rdiv; ring|].
    apply (is_derive_ext (fun e => s 0%nat + e * E 0%nat * KN (s 0%nat) (s 2%nat)));
      [intro e; symmetry; exact (proj1 (perturb_pva_lla_char _ _ _ _ _ _ _ _ _ _ _ _ _ _ _ _ _ _ Hl Ha)) | auto_derive; [exact I | ring]].
  - split; [unfold perturb_pva_lon, Rdiv; ring|].
    apply (is_derive_ext (fun e => s 1%nat + e * E 1%nat * KE (s 0%nat) (s 2%nat)));
      [intro e; symmetry; exact (proj1 (proj2 (perturb_pva_lla_char _ _ _ _ _ _ _ _ _ _ _ _ _ _ _ _ _ _ Hl Ha))) | auto_derive; [exact I | ring]].
  - unfold perturb_pva_alt. split; [ring | auto_derive; [exact I | ring]].
  - unfold perturb_pva_VN. split; [ring | auto_derive; [exact I | ring]].
  - unfold perturb_pva_VE. split; [ring | auto_derive; [exact I | ring]].
  - unfold perturb_pva_VD. split; [ring | auto_derive; [exact I | ring]].
  - unfold perturb_pva_roll. split; [ring | auto_derive; [exact I | ring]].
  - unfold perturb_pva_pitch. split; [ring | auto_derive; [exact I | ring]].
  - unfold perturb_pva_heading. split; [ring | auto_derive; [exact I | ring]].
Qed.

(** compute_state_difference of two paths that start at the same state: the difference of the rates, in output units *)
Section DiffPath.
Variables (S1 S2 : nat -> R -> R) (s0 d1 d2 : nat -> R).
Hypothesis H1 : forall k, (k < 9)%nat -> S1 k 0 = s0 k.
Hypothesis H2 : forall k, (k < 9)%nat -> S2 k 0 = s0 k.
Hypothesis D1 : forall k, (k < 9)%nat -> is_derive (S1 k) 0 (d1 k).
Hypothesis D2 : forall k, (k < 9)%nat -> is_derive (S2 k) 0 (d2 k).
Hypothesis Hlat : -90 < s0 0%nat < 90.

Lemma state_diff_path k : (k < 9)%nat ->
  is_derive (fun e => ap99 (sdiff k) (fun j => S1 j e) (fun j => S2 j e)) 0
    ((d1 k - d2 k) * scale9 (s0 0%nat) (s0 2%nat) k).
Proof.
  assert (E1 : forall j, (j < 9)%nat -> ex_derive (S1 j) 0) by (intros j Hj; eexists; apply D1, Hj).
  assert (E2 : forall j, (j < 9)%nat -> ex_derive (S2 j) 0) by (intros j Hj; eexists; apply D2, Hj).
  intro Hk. idx k; unfold ap99; cbv [sdiff scale9].
  - apply (is_derive_ext _ _ _ _ (fun e => eq_sym (proj1 (state_diff_ned_char _ _ _ _ _ _ _ _ _ _ _ _ _ _ _ _ _ _)))).
    apply north_curve; auto with arith.
  - apply (is_derive_ext _ _ _ _ (fun e => eq_sym (proj1 (proj2 (state_diff_ned_char _ _ _ _ _ _ _ _ _ _ _ _ _ _ _ _ _ _))))).
    apply east_curve; auto with arith. rewrite H1, H2 by lia. reflexivity.
  - unfold state_diff_down. auto_derive; [split; [apply E1; lia | split; [apply E2; lia | exact I]]|].
    derive_val (D1 2%nat ltac:(lia)). derive_val (D2 2%nat ltac:(lia)). ring.
  - unfold state_diff_VN. rewrite Rmult_1_r. apply (is_derive_minus (V := R_NormedModule)); [apply D1 | apply D2]; lia.
  - unfold state_diff_VE. rewrite Rmult_1_r. apply (is_derive_minus (V := R_NormedModule)); [apply D1 | apply D2]; lia.
  - unfold state_diff_VD. rewrite Rmult_1_r. apply (is_derive_minus (V := R_NormedModule)); [apply D1 | apply D2]; lia.
  - unfold state_diff_roll. rewrite Rmult_1_r. apply diff_angle; [rewrite H1, H2 by lia; reflexivity | apply D1; lia | apply D2; lia].
  - unfold state_diff_pitch. rewrite Rmult_1_r. apply diff_angle; [rewrite H1, H2 by lia; reflexivity | apply D1; lia | apply D2; lia].
  - unfold state_diff_heading. rewrite Rmult_1_r. apply diff_angle; [rewrite H1, H2 by lia; reflexivity | apply D1; lia | apply D2; lia].
Qed.
End DiffPath.

Definition still (s : nat -> R) : nat -> R -> R := fun k _ => s k.
Lemma still_derive s k : is_derive (still s k) 0 0.
Proof. exact (@is_derive_const R_AbsRing R_NormedModule (s k) 0). Qed.

(* the nine instances of a statement indexed by k < 9 *)
Ltac nine H :=
  split_conj; [exact (H 0%nat ltac:(lia)) | exact (H 1%nat ltac:(lia)) | exact (H 2%nat ltac:(lia))
          | exact (H 3%nat ltac:(lia)) | exact (H 4%nat ltac:(lia)) | exact (H 5%nat ltac:(lia))
          | exact (H 6%nat ltac:(lia)) | exact (H 7%nat ltac:(lia)) | exact (H 8%nat ltac:(lia))].

Section Correct3D.
Variables lat lon alt VN VE VD roll pitch heading : R.
Variables x0 x1 x2 x3 x4 x5 x6 x7 x8 : R.
Hypothesis Hroll : -180 < roll < 180.
Hypothesis Hpitch : -90 < pitch < 90.
Hypothesis Hheading : -180 < heading < 180.

Let s := vec9 lat lon alt VN VE VD roll pitch heading.
Let T := Tout3 lat lon alt VN VE VD roll pitch heading.
Let x := vec9 x0 x1 x2 x3 x4 x5 x6 x7 x8.
Let A3 (f : R -> R -> R -> R -> R -> R -> R -> R -> R -> R -> R -> R -> R -> R -> R -> R -> R -> R -> R) :=
  along3 f lat lon alt VN VE VD roll pitch heading x0 x1 x2 x3 x4 x5 x6 x7 x8.

(** latitude / longitude are affine in x0 / x1, so the derivative along the ray is the increment itself *)
Lemma corr3_lat : is_derive (A3 correct3d_lat) 0
  (correct3d_lat lat lon alt VN VE VD roll pitch heading x0 x1 x2 x3 x4 x5 x6 x7 x8 - lat).
Proof.
  unfold A3, along3, correct3d_lat. auto_derive; [exact I|]. unfold Rdiv. ring.
Qed.

Lemma corr3_lon : is_derive (A3 correct3d_lon) 0
  (correct3d_lon lat lon alt VN VE VD roll pitch heading x0 x1 x2 x3 x4 x5 x6 x7 x8 - lon).
Proof.
  unfold A3, along3, correct3d_lon. auto_derive; [exact I|]. unfold Rdiv. ring.
Qed.

(** correct_pva(pva, 0) = pva  (attitude: for angles in the principal range) *)
Lemma corr3_at0 :
  A3 correct3d_lat 0 = lat /\ A3 correct3d_lon 0 = lon /\ A3 correct3d_alt 0 = alt /\
  A3 correct3d_VN 0 = VN /\ A3 correct3d_VE 0 = VE /\ A3 correct3d_VD 0 = VD /\
  A3 correct3d_roll 0 = roll /\ A3 correct3d_pitch 0 = pitch /\ A3 correct3d_heading 0 = heading.
Proof.
  pose proof (corrected3_at0 (still s) s (fun _ _ => eq_refl) Hroll Hpitch Hheading x0 x1 x2 x3 x4 x5 x6 x7 x8) as H.
  nine H.
Qed.

Lemma corr3_V i : (i < 3)%nat ->
  is_derive (fun e => vec3 (A3 correct3d_VN e) (A3 correct3d_VE e) (A3 correct3d_VD e) i) 0 (- mvec 9 T x (3 + i)).
Proof.
  intro Hi. evar_last.
  - exact (corrected3_V (still s) s (fun _ => 0) (fun _ _ => eq_refl) (fun k _ => still_derive s k) x0 x1 x2 x3 x4 x5 x6 x7 x8 i Hi).
  - cbv beta. unfold T, x, s. cbv [vec9]. ring.
Qed.

Lemma corr3_att i : (i < 3)%nat ->
  is_derive (fun e => vec3 (A3 correct3d_roll e) (A3 correct3d_pitch e) (A3 correct3d_heading e) i) 0 (- mvec 9 T x (6 + i)).
Proof.
  intro Hi. evar_last.
  - exact (corrected3_att (still s) s (fun _ => 0) (fun _ _ => eq_refl) (fun k _ => still_derive s k) Hroll Hpitch Hheading
             x0 x1 x2 x3 x4 x5 x6 x7 x8 i Hi).
  - cbv beta. unfold T, x, s. cbv [vec9]. ring.
Qed.

Lemma corr3_VN : is_derive (A3 correct3d_VN) 0 (- mvec 9 T x 3).
Proof. exact (corr3_V 0%nat ltac:(lia)). Qed.
Lemma corr3_VE : is_derive (A3 correct3d_VE) 0 (- mvec 9 T x 4).
Proof. exact (corr3_V 1%nat ltac:(lia)). Qed.
Lemma corr3_VD : is_derive (A3 correct3d_VD) 0 (- mvec 9 T x 5).
Proof. exact (corr3_V 2%nat ltac:(lia)). Qed.
End Correct3D.

Section Correct2D.
Variables lat lon alt VN VE VD roll pitch heading : R.
Variables x0 x1 x2 x3 x4 x5 x6 : R.
Hypothesis Hroll : -180 < roll < 180.
Hypothesis Hpitch : -90 < pitch < 90.
Hypothesis Hheading : -180 < heading < 180.

Let s := vec9 lat lon alt VN VE VD roll pitch heading.
Let T := Tout2 lat lon alt VN VE VD roll pitch heading.
Let x := vec7 x0 x1 x2 x3 x4 x5 x6.
Let A2 (f : R -> R -> R -> R -> R -> R -> R -> R -> R -> R -> R -> R -> R -> R -> R -> R -> R) :=
  along2 f lat lon alt VN VE VD roll pitch heading x0 x1 x2 x3 x4 x5 x6.

Lemma corr2_lat : is_derive (A2 correct2d_lat) 0
  (correct2d_lat lat lon alt VN VE VD roll pitch heading x0 x1 x2 x3 x4 x5 x6 - lat).
Proof.
  unfold A2, along2, correct2d_lat. auto_derive; [exact I|]. unfold Rdiv. ring.
Qed.

Lemma corr2_lon : is_derive (A2 correct2d_lon) 0
  (correct2d_lon lat lon alt VN VE VD roll pitch heading x0 x1 x2 x3 x4 x5 x6 - lon).
Proof.
  unfold A2, along2, correct2d_lon. auto_derive; [exact I|]. unfold Rdiv. ring.
Qed.

Lemma corr2_at0 :
  A2 correct2d_lat 0 = lat /\ A2 correct2d_lon 0 = lon /\ A2 correct2d_alt 0 = alt /\
  A2 correct2d_VN 0 = VN /\ A2 correct2d_VE 0 = VE /\ A2 correct2d_VD 0 = VD /\
  A2 correct2d_roll 0 = roll /\ A2 correct2d_pitch 0 = pitch /\ A2 correct2d_heading 0 = heading.
Proof.
  pose proof (corrected2_at0 (still s) s (fun _ _ => eq_refl) Hroll Hpitch Hheading x0 x1 x2 x3 x4 x5 x6) as H.
  nine H.
Qed.

Lemma corr2_V i : (i < 2)%nat ->
  is_derive (fun e => vec3 (A2 correct2d_VN e) (A2 correct2d_VE e) 0 i) 0 (- mvec 7 T x (3 + i)).
Proof.
  intro Hi. evar_last.
  - exact (corrected2_V (still s) s (fun _ => 0) (fun _ _ => eq_refl) (fun k _ => still_derive s k) x0 x1 x2 x3 x4 x5 x6 i Hi).
  - cbv beta. unfold T, x, s. cbv [vec9]. ring.
Qed.

Lemma corr2_att i : (i < 3)%nat ->
  is_derive (fun e => vec3 (A2 correct2d_roll e) (A2 correct2d_pitch e) (A2 correct2d_heading e) i) 0 (- mvec 7 T x (6 + i)).
Proof.
  intro Hi. evar_last.
  - exact (corrected2_att (still s) s (fun _ => 0) (fun _ _ => eq_refl) (fun k _ => still_derive s k) Hroll Hpitch Hheading
             x0 x1 x2 x3 x4 x5 x6 i Hi).
  - cbv beta. unfold T, x, s. cbv [vec9]. ring.
Qed.

Lemma corr2_VN : is_derive (A2 correct2d_VN) 0 (- mvec 7 T x 3).
Proof. exact (corr2_V 0%nat ltac:(lia)). Qed.
Lemma corr2_VE : is_derive (A2 correct2d_VE) 0 (- mvec 7 T x 4).
Proof. exact (corr2_V 1%nat ltac:(lia)). Qed.
Lemma corr2_VD : is_derive (A2 correct2d_VD) 0 (- mvec 7 T x 5).
Proof.
  evar_last; [exact (@is_derive_const R_AbsRing R_NormedModule VD 0)|].
  unfold T, x. rewrite Tout2_vec. cbv [vec9]. symmetry. apply Ropp_0.
Qed.
End Correct2D.

(** ** E.1  C05 (b): correct_pva is linearised by the output transform *)

Lemma correct_is_linearised_by_T_3d lat lon alt VN VE VD roll pitch heading x0 x1 x2 x3 x4 x5 x6 x7 x8 :
  -90 < lat < 90 -> -1000000 <= alt -> -180 < roll < 180 -> -90 < pitch < 90 -> -180 < heading < 180 ->
  let D := fun d => diff_after_correct3 d lat lon alt VN VE VD roll pitch heading x0 x1 x2 x3 x4 x5 x6 x7 x8 in
  let Tx := mvec 9 (Tout3 lat lon alt VN VE VD roll pitch heading) (vec9 x0 x1 x2 x3 x4 x5 x6 x7 x8) in
  is_derive (D state_diff_north) 0 (Tx 0%nat) /\ is_derive (D state_diff_east) 0 (Tx 1%nat) /\
  is_derive (D state_diff_down) 0 (Tx 2%nat) /\ is_derive (D state_diff_VN) 0 (Tx 3%nat) /\
  is_derive (D state_diff_VE) 0 (Tx 4%nat) /\ is_derive (D state_diff_VD) 0 (Tx 5%nat) /\
  is_derive (D state_diff_roll) 0 (Tx 6%nat) /\ is_derive (D state_diff_pitch) 0 (Tx 7%nat) /\
  is_derive (D state_diff_heading) 0 (Tx 8%nat).
Proof.
  intros Hlat Halt Hroll Hpitch Hheading. cbv zeta. assert (Ha : -6000000 < alt) by lra.
  set (s := vec9 lat lon alt VN VE VD roll pitch heading). set (x := vec9 x0 x1 x2 x3 x4 x5 x6 x7 x8).
  set (T := Tout3 lat lon alt VN VE VD roll pitch heading).
  set (C := fun k e => ap99 (corr3 k) (fun j => still s j e) (fun j => e * x j)).
  assert (H : forall k, (k < 9)%nat ->
            is_derive (fun e => ap99 (sdiff k) (fun j => still s j e) (fun j => C j e)) 0 (mvec 9 T x k)).
  { intros k Hk. evar_last.
    - apply (state_diff_path (still s) C s (fun _ => 0) (fun j => 0 - unit9 lat alt j * mvec 9 T x j));
        [reflexivity | | intros; apply still_derive | | exact Hlat | exact Hk].
      + exact (corrected3_at0 (still s) s (fun _ _ => eq_refl) Hroll Hpitch Hheading x0 x1 x2 x3 x4 x5 x6 x7 x8).
      + exact (corrected3_derive (still s) s (fun _ => 0) (fun _ _ => eq_refl) (fun j _ => still_derive s j)
                 Hlat Ha Hroll Hpitch Hheading x0 x1 x2 x3 x4 x5 x6 x7 x8).
    - cbv beta. change (s 0%nat) with lat. change (s 2%nat) with alt.
      transitivity (mvec 9 T x k * (unit9 lat alt k * scale9 lat alt k));
        [ring | rewrite unit_scale by assumption; ring]. }
  nine H.
Qed.

Lemma correct_is_linearised_by_T_2d lat lon alt VN VE VD roll pitch heading x0 x1 x2 x3 x4 x5 x6 :
  -90 < lat < 90 -> -1000000 <= alt -> -180 < roll < 180 -> -90 < pitch < 90 -> -180 < heading < 180 ->
  let D := fun d => diff_after_correct2 d lat lon alt VN VE VD roll pitch heading x0 x1 x2 x3 x4 x5 x6 in
  let Tx := mvec 7 (Tout2 lat lon alt VN VE VD roll pitch heading) (vec7 x0 x1 x2 x3 x4 x5 x6) in
  is_derive (D state_diff_north) 0 (Tx 0%nat) /\ is_derive (D state_diff_east) 0 (Tx 1%nat) /\
  is_derive (D state_diff_down) 0 (Tx 2%nat) /\ is_derive (D state_diff_VN) 0 (Tx 3%nat) /\
  is_derive (D state_diff_VE) 0 (Tx 4%nat) /\ is_derive (D state_diff_VD) 0 (Tx 5%nat) /\
  is_derive (D state_diff_roll) 0 (Tx 6%nat) /\ is_derive (D state_diff_pitch) 0 (Tx 7%nat) /\
  is_derive (D state_diff_heading) 0 (Tx 8%nat).
Proof.
  intros Hlat Halt Hroll Hpitch Hheading. cbv zeta. assert (Ha : -6000000 < alt) by lra.
  set (s := vec9 lat lon alt VN VE VD roll pitch heading). set (x := vec7 x0 x1 x2 x3 x4 x5 x6).
  set (T := Tout2 lat lon alt VN VE VD roll pitch heading).
  set (C := fun k e => ap97 (corr2 k) (fun j => still s j e) (fun j => e * x j)).
  assert (H : forall k, (k < 9)%nat ->
            is_derive (fun e => ap99 (sdiff k) (fun j => still s j e) (fun j => C j e)) 0 (mvec 7 T x k)).
  { intros k Hk. evar_last.
    - apply (state_diff_path (still s) C s (fun _ => 0) (fun j => 0 - unit9 lat alt j * mvec 7 T x j));
        [reflexivity | | intros; apply still_derive | | exact Hlat | exact Hk].
      + exact (corrected2_at0 (still s) s (fun _ _ => eq_refl) Hroll Hpitch Hheading x0 x1 x2 x3 x4 x5 x6).
      + exact (corrected2_derive (still s) s (fun _ => 0) (fun _ _ => eq_refl) (fun j _ => still_derive s j)
                 Hlat Ha Hroll Hpitch Hheading x0 x1 x2 x3 x4 x5 x6).
    - cbv beta. change (s 0%nat) with lat. change (s 2%nat) with alt.
      transitivity (mvec 7 T x k * (unit9 lat alt k * scale9 lat alt k));
        [ring | rewrite unit_scale by assumption; ring]. }
  nine H.
Qed.

(** ** E.2  C05 (c): perturb_pva followed by correct_pva restores the state to first order

    The output-space error is written E = T_out(pva) y for an arbitrary internal vector y (for cos pitch <> 0
    this is every E, with y = T_inv E, by [to_output_invertible]); the state is perturbed by e E and corrected
    with e y.  T_out is evaluated at the unperturbed state. *)

(** component [f] of sim.perturb_pva(pva, e * E), E = T_out(pva) y *)
Definition pert3 (f : R -> R -> R -> R -> R -> R -> R -> R -> R -> R -> R -> R -> R -> R -> R -> R -> R -> R -> R)
  (lat lon alt VN VE VD roll pitch heading y0 y1 y2 y3 y4 y5 y6 y7 y8 e : R) : R :=
  let E := mvec 9 (Tout3 lat lon alt VN VE VD roll pitch heading) (vec9 y0 y1 y2 y3 y4 y5 y6 y7 y8) in
  f lat lon alt VN VE VD roll pitch heading (e * E 0%nat) (e * E 1%nat) (e * E 2%nat) (e * E 3%nat)
    (e * E 4%nat) (e * E 5%nat) (e * E 6%nat) (e * E 7%nat) (e * E 8%nat).

(** component [c] of correct_pva(perturb_pva(pva, e T y), e y) *)
Definition pert_corr3 (c : R -> R -> R -> R -> R -> R -> R -> R -> R -> R -> R -> R -> R -> R -> R -> R -> R -> R -> R)
  (lat lon alt VN VE VD roll pitch heading y0 y1 y2 y3 y4 y5 y6 y7 y8 e : R) : R :=
  c (pert3 perturb_pva_lat lat lon alt VN VE VD roll pitch heading y0 y1 y2 y3 y4 y5 y6 y7 y8 e)
    (pert3 perturb_pva_lon lat lon alt VN VE VD roll pitch heading y0 y1 y2 y3 y4 y5 y6 y7 y8 e)
    (pert3 perturb_pva_alt lat lon alt VN VE VD roll pitch heading y0 y1 y2 y3 y4 y5 y6 y7 y8 e)
    (pert3 perturb_pva_VN lat lon alt VN VE VD roll pitch heading y0 y1 y2 y3 y4 y5 y6 y7 y8 e)
    (pert3 perturb_pva_VE lat lon alt VN VE VD roll pitch heading y0 y1 y2 y3 y4 y5 y6 y7 y8 e)
    (pert3 perturb_pva_VD lat lon alt VN VE VD roll pitch heading y0 y1 y2 y3 y4 y5 y6 y7 y8 e)
    (pert3 perturb_pva_roll lat lon alt VN VE VD roll pitch heading y0 y1 y2 y3 y4 y5 y6 y7 y8 e)
    (pert3 perturb_pva_pitch lat lon alt VN VE VD roll pitch heading y0 y1 y2 y3 y4 y5 y6 y7 y8 e)
    (pert3 perturb_pva_heading lat lon alt VN VE VD roll pitch heading y0 y1 y2 y3 y4 y5 y6 y7 y8 e)
    (e * y0) (e * y1) (e * y2) (e * y3) (e * y4) (e * y5) (e * y6) (e * y7) (e * y8).

(** component [d] of compute_state_difference(correct_pva(perturb_pva(pva, e T y), e y), pva) *)
Definition restore3
  (d : R -> R -> R -> R -> R -> R -> R -> R -> R -> R -> R -> R -> R -> R -> R -> R -> R -> R -> R)
  (lat lon alt VN VE VD roll pitch heading y0 y1 y2 y3 y4 y5 y6 y7 y8 e : R) : R :=
  d (pert_corr3 correct3d_lat lat lon alt VN VE VD roll pitch heading y0 y1 y2 y3 y4 y5 y6 y7 y8 e)
    (pert_corr3 correct3d_lon lat lon alt VN VE VD roll pitch heading y0 y1 y2 y3 y4 y5 y6 y7 y8 e)
    (pert_corr3 correct3d_alt lat lon alt VN VE VD roll pitch heading y0 y1 y2 y3 y4 y5 y6 y7 y8 e)
    (pert_corr3 correct3d_VN lat lon alt VN VE VD roll pitch heading y0 y1 y2 y3 y4 y5 y6 y7 y8 e)
    (pert_corr3 correct3d_VE lat lon alt VN VE VD roll pitch heading y0 y1 y2 y3 y4 y5 y6 y7 y8 e)
    (pert_corr3 correct3d_VD lat lon alt VN VE VD roll pitch heading y0 y1 y2 y3 y4 y5 y6 y7 y8 e)
    (pert_corr3 correct3d_roll lat lon alt VN VE VD roll pitch heading y0 y1 y2 y3 y4 y5 y6 y7 y8 e)
    (pert_corr3 correct3d_pitch lat lon alt VN VE VD roll pitch heading y0 y1 y2 y3 y4 y5 y6 y7 y8 e)
    (pert_corr3 correct3d_heading lat lon alt VN VE VD roll pitch heading y0 y1 y2 y3 y4 y5 y6 y7 y8 e)
    lat lon alt VN VE VD roll pitch heading.


(** the same for the no-altitude mode: E = T_out2d(pva) y has zero down / VD components *)
(** component [f] of sim.perturb_pva(pva, e * E), E = T_out2d(pva) y *)
Definition pert2 (f : R -> R -> R -> R -> R -> R -> R -> R -> R -> R -> R -> R -> R -> R -> R -> R -> R -> R -> R)
  (lat lon alt VN VE VD roll pitch heading y0 y1 y2 y3 y4 y5 y6 e : R) : R :=
  let E := mvec 7 (Tout2 lat lon alt VN VE VD roll pitch heading) (vec7 y0 y1 y2 y3 y4 y5 y6) in
  f lat lon alt VN VE VD roll pitch heading (e * E 0%nat) (e * E 1%nat) (e * E 2%nat) (e * E 3%nat)
    (e * E 4%nat) (e * E 5%nat) (e * E 6%nat) (e * E 7%nat) (e * E 8%nat).

(** component [c] of correct_pva(perturb_pva(pva, e T2d y), e y) *)
Definition pert_corr2 (c : R -> R -> R -> R -> R -> R -> R -> R -> R -> R -> R -> R -> R -> R -> R -> R -> R)
  (lat lon alt VN VE VD roll pitch heading y0 y1 y2 y3 y4 y5 y6 e : R) : R :=
  c (pert2 perturb_pva_lat lat lon alt VN VE VD roll pitch heading y0 y1 y2 y3 y4 y5 y6 e)
    (pert2 perturb_pva_lon lat lon alt VN VE VD roll pitch heading y0 y1 y2 y3 y4 y5 y6 e)
    (pert2 perturb_pva_alt lat lon alt VN VE VD roll pitch heading y0 y1 y2 y3 y4 y5 y6 e)
    (pert2 perturb_pva_VN lat lon alt VN VE VD roll pitch heading y0 y1 y2 y3 y4 y5 y6 e)
    (pert2 perturb_pva_VE lat lon alt VN VE VD roll pitch heading y0 y1 y2 y3 y4 y5 y6 e)
    (pert2 perturb_pva_VD lat lon alt VN VE VD roll pitch heading y0 y1 y2 y3 y4 y5 y6 e)
    (pert2 perturb_pva_roll lat lon alt VN VE VD roll pitch heading y0 y1 y2 y3 y4 y5 y6 e)
    (pert2 perturb_pva_pitch lat lon alt VN VE VD roll pitch heading y0 y1 y2 y3 y4 y5 y6 e)
    (pert2 perturb_pva_heading lat lon alt VN VE VD roll pitch heading y0 y1 y2 y3 y4 y5 y6 e)
    (e * y0) (e * y1) (e * y2) (e * y3) (e * y4) (e * y5) (e * y6).

(** component [d] of compute_state_difference(correct_pva(perturb_pva(pva, e T2d y), e y), pva) *)
Definition restore2
  (d : R -> R -> R -> R -> R -> R -> R -> R -> R -> R -> R -> R -> R -> R -> R -> R -> R -> R -> R)
  (lat lon alt VN VE VD roll pitch heading y0 y1 y2 y3 y4 y5 y6 e : R) : R :=
  d (pert_corr2 correct2d_lat lat lon alt VN VE VD roll pitch heading y0 y1 y2 y3 y4 y5 y6 e)
    (pert_corr2 correct2d_lon lat lon alt VN VE VD roll pitch heading y0 y1 y2 y3 y4 y5 y6 e)
    (pert_corr2 correct2d_alt lat lon alt VN VE VD roll pitch heading y0 y1 y2 y3 y4 y5 y6 e)
    (pert_corr2 correct2d_VN lat lon alt VN VE VD roll pitch heading y0 y1 y2 y3 y4 y5 y6 e)
    (pert_corr2 correct2d_VE lat lon alt VN VE VD roll pitch heading y0 y1 y2 y3 y4 y5 y6 e)
    (pert_corr2 correct2d_VD lat lon alt VN VE VD roll pitch heading y0 y1 y2 y3 y4 y5 y6 e)
    (pert_corr2 correct2d_roll lat lon alt VN VE VD roll pitch heading y0 y1 y2 y3 y4 y5 y6 e)
    (pert_corr2 correct2d_pitch lat lon alt VN VE VD roll pitch heading y0 y1 y2 y3 y4 y5 y6 e)
    (pert_corr2 correct2d_heading lat lon alt VN VE VD roll pitch heading y0 y1 y2 y3 y4 y5 y6 e)
    lat lon alt VN VE VD roll pitch heading.

Lemma perturb_then_correct_3d lat lon alt VN VE VD roll pitch heading y0 y1 y2 y3 y4 y5 y6 y7 y8 :
  -90 < lat < 90 -> -1000000 <= alt -> -180 < roll < 180 -> -90 < pitch < 90 -> -180 < heading < 180 ->
  let RS := fun d => restore3 d lat lon alt VN VE VD roll pitch heading y0 y1 y2 y3 y4 y5 y6 y7 y8 in
  is_derive (RS state_diff_north) 0 0 /\ is_derive (RS state_diff_east) 0 0 /\
  is_derive (RS state_diff_down) 0 0 /\ is_derive (RS state_diff_VN) 0 0 /\
  is_derive (RS state_diff_VE) 0 0 /\ is_derive (RS state_diff_VD) 0 0 /\
  is_derive (RS state_diff_roll) 0 0 /\ is_derive (RS state_diff_pitch) 0 0 /\
  is_derive (RS state_diff_heading) 0 0.
Proof.
  intros Hlat Halt Hroll Hpitch Hheading. cbv zeta. assert (Ha : -6000000 < alt) by lra.
  set (s := vec9 lat lon alt VN VE VD roll pitch heading).
  set (E := mvec 9 (Tout3 lat lon alt VN VE VD roll pitch heading) (vec9 y0 y1 y2 y3 y4 y5 y6 y7 y8)).
  set (P := fun k e => ap99 (pert k) s (fun j => e * E j)).
  set (C := fun k e => ap99 (corr3 k) (fun j => P j e) (fun j => e * vec9 y0 y1 y2 y3 y4 y5 y6 y7 y8 j)).
  assert (HP : forall k, (k < 9)%nat -> P k 0 = s k /\ is_derive (P k) 0 (unit9 lat alt k * E k))
    by (intros k Hk; exact (perturbed_path s E k Hk Hlat Ha)).
  assert (H : forall k, (k < 9)%nat -> is_derive (fun e => ap99 (sdiff k) (fun j => C j e) (fun j => still s j e)) 0 0).
  { intros k Hk. evar_last.
    - apply (state_diff_path C (still s) s (fun j => unit9 lat alt j * E j - unit9 lat alt j * E j) (fun _ => 0));
        [ | reflexivity | | intros; apply still_derive | exact Hlat | exact Hk].
      + exact (corrected3_at0 P s (fun j Hj => proj1 (HP j Hj)) Hroll Hpitch Hheading y0 y1 y2 y3 y4 y5 y6 y7 y8).
      + exact (corrected3_derive P s _ (fun j Hj => proj1 (HP j Hj)) (fun j Hj => proj2 (HP j Hj))
                 Hlat Ha Hroll Hpitch Hheading y0 y1 y2 y3 y4 y5 y6 y7 y8).
    - cbv beta. ring. }
  nine H.
Qed.

Lemma perturb_then_correct_2d lat lon alt VN VE VD roll pitch heading y0 y1 y2 y3 y4 y5 y6 :
  -90 < lat < 90 -> -1000000 <= alt -> -180 < roll < 180 -> -90 < pitch < 90 -> -180 < heading < 180 ->
  let RS := fun d => restore2 d lat lon alt VN VE VD roll pitch heading y0 y1 y2 y3 y4 y5 y6 in
  is_derive (RS state_diff_north) 0 0 /\ is_derive (RS state_diff_east) 0 0 /\
  is_derive (RS state_diff_down) 0 0 /\ is_derive (RS state_diff_VN) 0 0 /\
  is_derive (RS state_diff_VE) 0 0 /\ is_derive (RS state_diff_VD) 0 0 /\
  is_derive (RS state_diff_roll) 0 0 /\ is_derive (RS state_diff_pitch) 0 0 /\
  is_derive (RS state_diff_heading) 0 0.
Proof.
  intros Hlat Halt Hroll Hpitch Hheading. cbv zeta. assert (Ha : -6000000 < alt) by lra.
  set (s := vec9 lat lon alt VN VE VD roll pitch heading).
  set (E := mvec 7 (Tout2 lat lon alt VN VE VD roll pitch heading) (vec7 y0 y1 y2 y3 y4 y5 y6)).
  set (P := fun k e => ap99 (pert k) s (fun j => e * E j)).
  set (C := fun k e => ap97 (corr2 k) (fun j => P j e) (fun j => e * vec7 y0 y1 y2 y3 y4 y5 y6 j)).
  assert (HP : forall k, (k < 9)%nat -> P k 0 = s k /\ is_derive (P k) 0 (unit9 lat alt k * E k))
    by (intros k Hk; exact (perturbed_path s E k Hk Hlat Ha)).
  assert (H : forall k, (k < 9)%nat -> is_derive (fun e => ap99 (sdiff k) (fun j => C j e) (fun j => still s j e)) 0 0).
  { intros k Hk. evar_last.
    - apply (state_diff_path C (still s) s (fun j => unit9 lat alt j * E j - unit9 lat alt j * E j) (fun _ => 0));
        [ | reflexivity | | intros; apply still_derive | exact Hlat | exact Hk].
      + exact (corrected2_at0 P s (fun j Hj => proj1 (HP j Hj)) Hroll Hpitch Hheading y0 y1 y2 y3 y4 y5 y6).
      + exact (corrected2_derive P s _ (fun j Hj => proj1 (HP j Hj)) (fun j Hj => proj2 (HP j Hj))
                 Hlat Ha Hroll Hpitch Hheading y0 y1 y2 y3 y4 y5 y6).
    - cbv beta. ring. }
  nine H.
Qed.

(** the 3D statement for an ARBITRARY output-space error E, corrected with y = T_inv(pva) E *)
Lemma Tout_Tinv_vec lat lon alt VN VE VD roll pitch heading E0 E1 E2 E3 E4 E5 E6 E7 E8 :
  cos (pitch * (PI / 180)) <> 0 ->
  let Y := mvec 9 (Tinv3 lat lon alt VN VE VD roll pitch heading) (vec9 E0 E1 E2 E3 E4 E5 E6 E7 E8) in
  forall k, (k < 9)%nat ->
  mvec 9 (Tout3 lat lon alt VN VE VD roll pitch heading)
    (vec9 (Y 0%nat) (Y 1%nat) (Y 2%nat) (Y 3%nat) (Y 4%nat) (Y 5%nat) (Y 6%nat) (Y 7%nat) (Y 8%nat)) k =
  vec9 E0 E1 E2 E3 E4 E5 E6 E7 E8 k.
Proof.
  intros Hc Y k Hk.
  destruct (to_output_invertible lat lon alt VN VE VD roll pitch heading Hc) as [_ HI].
  rewrite <- (mvec_I 9 (vec9 E0 E1 E2 E3 E4 E5 E6 E7 E8) k Hk).
  rewrite <- (mvec_ext 9 _ _ _ k (fun j Hj => HI k j Hk Hj)), mvec_mmul.
  apply sumN_ext. intros j Hj. f_equal. idx j; reflexivity.
Qed.

Definition restore3E
  (d : R -> R -> R -> R -> R -> R -> R -> R -> R -> R -> R -> R -> R -> R -> R -> R -> R -> R -> R)
  (lat lon alt VN VE VD roll pitch heading E0 E1 E2 E3 E4 E5 E6 E7 E8 e : R) : R :=
  let Y := mvec 9 (Tinv3 lat lon alt VN VE VD roll pitch heading) (vec9 E0 E1 E2 E3 E4 E5 E6 E7 E8) in
  let P := fun f : R -> R -> R -> R -> R -> R -> R -> R -> R -> R -> R -> R -> R -> R -> R -> R -> R -> R -> R =>
    f lat lon alt VN VE VD roll pitch heading (e * E0) (e * E1) (e * E2) (e * E3) (e * E4) (e * E5)
      (e * E6) (e * E7) (e * E8) in
  let C := fun c : R -> R -> R -> R -> R -> R -> R -> R -> R -> R -> R -> R -> R -> R -> R -> R -> R -> R -> R =>
    c (P perturb_pva_lat) (P perturb_pva_lon) (P perturb_pva_alt) (P perturb_pva_VN) (P perturb_pva_VE)
      (P perturb_pva_VD) (P perturb_pva_roll) (P perturb_pva_pitch) (P perturb_pva_heading)
      (e * Y 0%nat) (e * Y 1%nat) (e * Y 2%nat) (e * Y 3%nat) (e * Y 4%nat) (e * Y 5%nat)
      (e * Y 6%nat) (e * Y 7%nat) (e * Y 8%nat) in
  d (C correct3d_lat) (C correct3d_lon) (C correct3d_alt) (C correct3d_VN) (C correct3d_VE) (C correct3d_VD)
    (C correct3d_roll) (C correct3d_pitch) (C correct3d_heading)
    lat lon alt VN VE VD roll pitch heading.

Lemma perturb_then_correct_3d_any_error lat lon alt VN VE VD roll pitch heading E0 E1 E2 E3 E4 E5 E6 E7 E8 :
  -90 < lat < 90 -> -1000000 <= alt -> -180 < roll < 180 -> -90 < pitch < 90 -> -180 < heading < 180 ->
  let RS := fun d => restore3E d lat lon alt VN VE VD roll pitch heading E0 E1 E2 E3 E4 E5 E6 E7 E8 in
  is_derive (RS state_diff_north) 0 0 /\ is_derive (RS state_diff_east) 0 0 /\
  is_derive (RS state_diff_down) 0 0 /\ is_derive (RS state_diff_VN) 0 0 /\
  is_derive (RS state_diff_VE) 0 0 /\ is_derive (RS state_diff_VD) 0 0 /\
  is_derive (RS state_diff_roll) 0 0 /\ is_derive (RS state_diff_pitch) 0 0 /\
  is_derive (RS state_diff_heading) 0 0.
Proof.
  intros Hlat Halt Hroll Hpitch Hheading. cbv zeta. assert (Ha : -6000000 < alt) by lra.
  assert (Hc : cos (pitch * (PI / 180)) <> 0) by (apply Rgt_not_eq, cos_d2r_pos; exact Hpitch).
  set (s := vec9 lat lon alt VN VE VD roll pitch heading). set (E := vec9 E0 E1 E2 E3 E4 E5 E6 E7 E8).
  set (Y := mvec 9 (Tinv3 lat lon alt VN VE VD roll pitch heading) E).
  set (y := vec9 (Y 0%nat) (Y 1%nat) (Y 2%nat) (Y 3%nat) (Y 4%nat) (Y 5%nat) (Y 6%nat) (Y 7%nat) (Y 8%nat)).
  set (P := fun k e => ap99 (pert k) s (fun j => e * E j)).
  set (C := fun k e => ap99 (corr3 k) (fun j => P j e) (fun j => e * y j)).
  assert (HP : forall k, (k < 9)%nat -> P k 0 = s k /\ is_derive (P k) 0 (unit9 lat alt k * E k))
    by (intros k Hk; exact (perturbed_path s E k Hk Hlat Ha)).
  assert (H : forall k, (k < 9)%nat -> is_derive (fun e => ap99 (sdiff k) (fun j => C j e) (fun j => still s j e)) 0 0).
  { intros k Hk. evar_last.
    - apply (state_diff_path C (still s) s
               (fun j => unit9 lat alt j * E j - unit9 lat alt j * mvec 9 (Tout3 lat lon alt VN VE VD roll pitch heading) y j)
               (fun _ => 0)); [ | reflexivity | | intros; apply still_derive | exact Hlat | exact Hk].
      + exact (corrected3_at0 P s (fun j Hj => proj1 (HP j Hj)) Hroll Hpitch Hheading _ _ _ _ _ _ _ _ _).
      + exact (corrected3_derive P s _ (fun j Hj => proj1 (HP j Hj)) (fun j Hj => proj2 (HP j Hj))
                 Hlat Ha Hroll Hpitch Hheading _ _ _ _ _ _ _ _ _).
    - cbv beta. unfold y, Y, E. rewrite (Tout_Tinv_vec _ _ _ _ _ _ _ _ _ _ _ _ _ _ _ _ _ _ Hc k Hk). ring. }
  nine H.
Qed.

(** ** E.3  state_diff recovers a perturbation (C18 clause, stated under C05) *)

(** component [d] of compute_state_difference(perturb_pva(pva, e * E), pva) *)
Definition diff_of_perturbed
  (d : R -> R -> R -> R -> R -> R -> R -> R -> R -> R -> R -> R -> R -> R -> R -> R -> R -> R -> R)
  (lat lon alt VN VE VD roll pitch heading E0 E1 E2 E3 E4 E5 E6 E7 E8 e : R) : R :=
  let P := fun f : R -> R -> R -> R -> R -> R -> R -> R -> R -> R -> R -> R -> R -> R -> R -> R -> R -> R -> R =>
    f lat lon alt VN VE VD roll pitch heading (e * E0) (e * E1) (e * E2) (e * E3) (e * E4) (e * E5)
      (e * E6) (e * E7) (e * E8) in
  d (P perturb_pva_lat) (P perturb_pva_lon) (P perturb_pva_alt) (P perturb_pva_VN) (P perturb_pva_VE)
    (P perturb_pva_VD) (P perturb_pva_roll) (P perturb_pva_pitch) (P perturb_pva_heading)
    lat lon alt VN VE VD roll pitch heading.

Lemma state_diff_recovers_perturbation lat lon alt VN VE VD roll pitch heading E0 E1 E2 E3 E4 E5 E6 E7 E8 :
  -90 < lat < 90 -> -1000000 <= alt ->
  let D := fun d => diff_of_perturbed d lat lon alt VN VE VD roll pitch heading E0 E1 E2 E3 E4 E5 E6 E7 E8 in
  is_derive (D state_diff_north) 0 E0 /\ is_derive (D state_diff_east) 0 E1 /\
  is_derive (D state_diff_down) 0 E2 /\ is_derive (D state_diff_VN) 0 E3 /\
  is_derive (D state_diff_VE) 0 E4 /\ is_derive (D state_diff_VD) 0 E5 /\
  is_derive (D state_diff_roll) 0 E6 /\ is_derive (D state_diff_pitch) 0 E7 /\
  is_derive (D state_diff_heading) 0 E8.
Proof.
  intros Hlat Halt. cbv zeta. assert (Ha : -6000000 < alt) by lra.
  set (s := vec9 lat lon alt VN VE VD roll pitch heading). set (E := vec9 E0 E1 E2 E3 E4 E5 E6 E7 E8).
  set (P := fun k e => ap99 (pert k) s (fun j => e * E j)).
  assert (H : forall k, (k < 9)%nat -> is_derive (fun e => ap99 (sdiff k) (fun j => P j e) (fun j => still s j e)) 0 (E k)).
  { intros k Hk. evar_last.
    - apply (state_diff_path P (still s) s (fun j => unit9 lat alt j * E j) (fun _ => 0));
        [ | reflexivity | | intros; apply still_derive | exact Hlat | exact Hk];
        intros j Hj; apply (perturbed_path s E j Hj Hlat Ha).
    - cbv beta. change (s 0%nat) with lat. change (s 2%nat) with alt.
      transitivity (E k * (unit9 lat alt k * scale9 lat alt k)); [ring | rewrite unit_scale by assumption; ring]. }
  nine H.
Qed.

(** * Part F: measurement models (C06) *)

(** Assembly of the GENERATED z / H / R entries of the three Measurement classes (index bookkeeping only). *)
(** a function of a pva evaluated at correct_pva(pva, e * x) *)
Definition on_corrected3d (z : R -> R -> R -> R -> R -> R -> R -> R -> R -> R)
  (lat lon alt VN VE VD roll pitch heading x0 x1 x2 x3 x4 x5 x6 x7 x8 e : R) : R :=
  z (along3 correct3d_lat lat lon alt VN VE VD roll pitch heading x0 x1 x2 x3 x4 x5 x6 x7 x8 e)
    (along3 correct3d_lon lat lon alt VN VE VD roll pitch heading x0 x1 x2 x3 x4 x5 x6 x7 x8 e)
    (along3 correct3d_alt lat lon alt VN VE VD roll pitch heading x0 x1 x2 x3 x4 x5 x6 x7 x8 e)
    (along3 correct3d_VN lat lon alt VN VE VD roll pitch heading x0 x1 x2 x3 x4 x5 x6 x7 x8 e)
    (along3 correct3d_VE lat lon alt VN VE VD roll pitch heading x0 x1 x2 x3 x4 x5 x6 x7 x8 e)
    (along3 correct3d_VD lat lon alt VN VE VD roll pitch heading x0 x1 x2 x3 x4 x5 x6 x7 x8 e)
    (along3 correct3d_roll lat lon alt VN VE VD roll pitch heading x0 x1 x2 x3 x4 x5 x6 x7 x8 e)
    (along3 correct3d_pitch lat lon alt VN VE VD roll pitch heading x0 x1 x2 x3 x4 x5 x6 x7 x8 e)
    (along3 correct3d_heading lat lon alt VN VE VD roll pitch heading x0 x1 x2 x3 x4 x5 x6 x7 x8 e).
Definition on_corrected2d (z : R -> R -> R -> R -> R -> R -> R -> R -> R -> R)
  (lat lon alt VN VE VD roll pitch heading x0 x1 x2 x3 x4 x5 x6 e : R) : R :=
  z (along2 correct2d_lat lat lon alt VN VE VD roll pitch heading x0 x1 x2 x3 x4 x5 x6 e)
    (along2 correct2d_lon lat lon alt VN VE VD roll pitch heading x0 x1 x2 x3 x4 x5 x6 e)
    (along2 correct2d_alt lat lon alt VN VE VD roll pitch heading x0 x1 x2 x3 x4 x5 x6 e)
    (along2 correct2d_VN lat lon alt VN VE VD roll pitch heading x0 x1 x2 x3 x4 x5 x6 e)
    (along2 correct2d_VE lat lon alt VN VE VD roll pitch heading x0 x1 x2 x3 x4 x5 x6 e)
    (along2 correct2d_VD lat lon alt VN VE VD roll pitch heading x0 x1 x2 x3 x4 x5 x6 e)
    (along2 correct2d_roll lat lon alt VN VE VD roll pitch heading x0 x1 x2 x3 x4 x5 x6 e)
    (along2 correct2d_pitch lat lon alt VN VE VD roll pitch heading x0 x1 x2 x3 x4 x5 x6 e)
    (along2 correct2d_heading lat lon alt VN VE VD roll pitch heading x0 x1 x2 x3 x4 x5 x6 e).


Definition Hm_pos3d (lat lon alt VN VE VD roll pitch heading mlat mlon malt sd : R) (i j : nat) : R :=
  match i, j with
  | 0, 0 => pos3d_H00 lat lon alt VN VE VD roll pitch heading mlat mlon malt sd | 0, 1 => pos3d_H01 lat lon alt VN VE VD roll pitch heading mlat mlon malt sd | 0, 2 => pos3d_H02 lat lon alt VN VE VD roll pitch heading mlat mlon malt sd | 0, 3 => pos3d_H03 lat lon alt VN VE VD roll pitch heading mlat mlon malt sd | 0, 4 => pos3d_H04 lat lon alt VN VE VD roll pitch heading mlat mlon malt sd | 0, 5 => pos3d_H05 lat lon alt VN VE VD roll pitch heading mlat mlon malt sd | 0, 6 => pos3d_H06 lat lon alt VN VE VD roll pitch heading mlat mlon malt sd | 0, 7 => pos3d_H07 lat lon alt VN VE VD roll pitch heading mlat mlon malt sd | 0, 8 => pos3d_H08 lat lon alt VN VE VD roll pitch heading mlat mlon malt sd
  | 1, 0 => pos3d_H10 lat lon alt VN VE VD roll pitch heading mlat mlon malt sd | 1, 1 => pos3d_H11 lat lon alt VN VE VD roll pitch heading mlat mlon malt sd | 1, 2 => pos3d_H12 lat lon alt VN VE VD roll pitch heading mlat mlon malt sd | 1, 3 => pos3d_H13 lat lon alt VN VE VD roll pitch heading mlat mlon malt sd | 1, 4 => pos3d_H14 lat lon alt VN VE VD roll pitch heading mlat mlon malt sd | 1, 5 => pos3d_H15 lat lon alt VN VE VD roll pitch heading mlat mlon malt sd | 1, 6 => pos3d_H16 lat lon alt VN VE VD roll pitch heading mlat mlon malt sd | 1, 7 => pos3d_H17 lat lon alt VN VE VD roll pitch heading mlat mlon malt sd | 1, 8 => pos3d_H18 lat lon alt VN VE VD roll pitch heading mlat mlon malt sd
  | 2, 0 => pos3d_H20 lat lon alt VN VE VD roll pitch heading mlat mlon malt sd | 2, 1 => pos3d_H21 lat lon alt VN VE VD roll pitch heading mlat mlon malt sd | 2, 2 => pos3d_H22 lat lon alt VN VE VD roll pitch heading mlat mlon malt sd | 2, 3 => pos3d_H23 lat lon alt VN VE VD roll pitch heading mlat mlon malt sd | 2, 4 => pos3d_H24 lat lon alt VN VE VD roll pitch heading mlat mlon malt sd | 2, 5 => pos3d_H25 lat lon alt VN VE VD roll pitch heading mlat mlon malt sd | 2, 6 => pos3d_H26 lat lon alt VN VE VD roll pitch heading mlat mlon malt sd | 2, 7 => pos3d_H27 lat lon alt VN VE VD roll pitch heading mlat mlon malt sd | 2, 8 => pos3d_H28 lat lon alt VN VE VD roll pitch heading mlat mlon malt sd
  | _, _ => 0%R
  end%nat.

Definition Rm_pos3d (lat lon alt VN VE VD roll pitch heading mlat mlon malt sd : R) (i j : nat) : R :=
  match i, j with
  | 0, 0 => pos3d_R00 lat lon alt VN VE VD roll pitch heading mlat mlon malt sd | 0, 1 => pos3d_R01 lat lon alt VN VE VD roll pitch heading mlat mlon malt sd | 0, 2 => pos3d_R02 lat lon alt VN VE VD roll pitch heading mlat mlon malt sd
  | 1, 0 => pos3d_R10 lat lon alt VN VE VD roll pitch heading mlat mlon malt sd | 1, 1 => pos3d_R11 lat lon alt VN VE VD roll pitch heading mlat mlon malt sd | 1, 2 => pos3d_R12 lat lon alt VN VE VD roll pitch heading mlat mlon malt sd
  | 2, 0 => pos3d_R20 lat lon alt VN VE VD roll pitch heading mlat mlon malt sd | 2, 1 => pos3d_R21 lat lon alt VN VE VD roll pitch heading mlat mlon malt sd | 2, 2 => pos3d_R22 lat lon alt VN VE VD roll pitch heading mlat mlon malt sd
  | _, _ => 0%R
  end%nat.

Definition Zc_pos3d (lat lon alt VN VE VD roll pitch heading mlat mlon malt sd x0 x1 x2 x3 x4 x5 x6 x7 x8 : R) (k : nat) (e : R) : R :=
  match k with
  | 0 => on_corrected3d (fun a1 a2 a3 a4 a5 a6 a7 a8 a9 => pos3d_z0 a1 a2 a3 a4 a5 a6 a7 a8 a9 mlat mlon malt sd) lat lon alt VN VE VD roll pitch heading x0 x1 x2 x3 x4 x5 x6 x7 x8 e
  | 1 => on_corrected3d (fun a1 a2 a3 a4 a5 a6 a7 a8 a9 => pos3d_z1 a1 a2 a3 a4 a5 a6 a7 a8 a9 mlat mlon malt sd) lat lon alt VN VE VD roll pitch heading x0 x1 x2 x3 x4 x5 x6 x7 x8 e
  | 2 => on_corrected3d (fun a1 a2 a3 a4 a5 a6 a7 a8 a9 => pos3d_z2 a1 a2 a3 a4 a5 a6 a7 a8 a9 mlat mlon malt sd) lat lon alt VN VE VD roll pitch heading x0 x1 x2 x3 x4 x5 x6 x7 x8 e
  | _ => 0%R
  end%nat.

Definition Hm_pos3d_l (lat lon alt VN VE VD roll pitch heading mlat mlon malt l0 l1 l2 sd : R) (i j : nat) : R :=
  match i, j with
  | 0, 0 => pos3d_l_H00 lat lon alt VN VE VD roll pitch heading mlat mlon malt l0 l1 l2 sd | 0, 1 => pos3d_l_H01 lat lon alt VN VE VD roll pitch heading mlat mlon malt l0 l1 l2 sd | 0, 2 => pos3d_l_H02 lat lon alt VN VE VD roll pitch heading mlat mlon malt l0 l1 l2 sd | 0, 3 => pos3d_l_H03 lat lon alt VN VE VD roll pitch heading mlat mlon malt l0 l1 l2 sd | 0, 4 => pos3d_l_H04 lat lon alt VN VE VD roll pitch heading mlat mlon malt l0 l1 l2 sd | 0, 5 => pos3d_l_H05 lat lon alt VN VE VD roll pitch heading mlat mlon malt l0 l1 l2 sd | 0, 6 => pos3d_l_H06 lat lon alt VN VE VD roll pitch heading mlat mlon malt l0 l1 l2 sd | 0, 7 => pos3d_l_H07 lat lon alt VN VE VD roll pitch heading mlat mlon malt l0 l1 l2 sd | 0, 8 => pos3d_l_H08 lat lon alt VN VE VD roll pitch heading mlat mlon malt l0 l1 l2 sd
  | 1, 0 => pos3d_l_H10 lat lon alt VN VE VD roll pitch heading mlat mlon malt l0 l1 l2 sd | 1, 1 => pos3d_l_H11 lat lon alt VN VE VD roll pitch heading mlat mlon malt l0 l1 l2 sd | 1, 2 => pos3d_l_H12 lat lon alt VN VE VD roll pitch heading mlat mlon malt l0 l1 l2 sd | 1, 3 => pos3d_l_H13 lat lon alt VN VE VD roll pitch heading mlat mlon malt l0 l1 l2 sd | 1, 4 => pos3d_l_H14 lat lon alt VN VE VD roll pitch heading mlat mlon malt l0 l1 l2 sd | 1, 5 => pos3d_l_H15 lat lon alt VN VE VD roll pitch heading mlat mlon malt l0 l1 l2 sd | 1, 6 => pos3d_l_H16 lat lon alt VN VE VD roll pitch heading mlat mlon malt l0 l1 l2 sd | 1, 7 => pos3d_l_H17 lat lon alt VN VE VD roll pitch heading mlat mlon malt l0 l1 l2 sd | 1, 8 => pos3d_l_H18 lat lon alt VN VE VD roll pitch heading mlat mlon malt l0 l1 l2 sd
  | 2, 0 => pos3d_l_H20 lat lon alt VN VE VD roll pitch heading mlat mlon malt l0 l1 l2 sd | 2, 1 => pos3d_l_H21 lat lon alt VN VE VD roll pitch heading mlat mlon malt l0 l1 l2 sd | 2, 2 => pos3d_l_H22 lat lon alt VN VE VD roll pitch heading mlat mlon malt l0 l1 l2 sd | 2, 3 => pos3d_l_H23 lat lon alt VN VE VD roll pitch heading mlat mlon malt l0 l1 l2 sd | 2, 4 => pos3d_l_H24 lat lon alt VN VE VD roll pitch heading mlat mlon malt l0 l1 l2 sd | 2, 5 => pos3d_l_H25 lat lon alt VN VE VD roll pitch heading mlat mlon malt l0 l1 l2 sd | 2, 6 => pos3d_l_H26 lat lon alt VN VE VD roll pitch heading mlat mlon malt l0 l1 l2 sd | 2, 7 => pos3d_l_H27 lat lon alt VN VE VD roll pitch heading mlat mlon malt l0 l1 l2 sd | 2, 8 => pos3d_l_H28 lat lon alt VN VE VD roll pitch heading mlat mlon malt l0 l1 l2 sd
  | _, _ => 0%R
  end%nat.

Definition Rm_pos3d_l (lat lon alt VN VE VD roll pitch heading mlat mlon malt l0 l1 l2 sd : R) (i j : nat) : R :=
  match i, j with
  | 0, 0 => pos3d_l_R00 lat lon alt VN VE VD roll pitch heading mlat mlon malt l0 l1 l2 sd | 0, 1 => pos3d_l_R01 lat lon alt VN VE VD roll pitch heading mlat mlon malt l0 l1 l2 sd | 0, 2 => pos3d_l_R02 lat lon alt VN VE VD roll pitch heading mlat mlon malt l0 l1 l2 sd
  | 1, 0 => pos3d_l_R10 lat lon alt VN VE VD roll pitch heading mlat mlon malt l0 l1 l2 sd | 1, 1 => pos3d_l_R11 lat lon alt VN VE VD roll pitch heading mlat mlon malt l0 l1 l2 sd | 1, 2 => pos3d_l_R12 lat lon alt VN VE VD roll pitch heading mlat mlon malt l0 l1 l2 sd
  | 2, 0 => pos3d_l_R20 lat lon alt VN VE VD roll pitch heading mlat mlon malt l0 l1 l2 sd | 2, 1 => pos3d_l_R21 lat lon alt VN VE VD roll pitch heading mlat mlon malt l0 l1 l2 sd | 2, 2 => pos3d_l_R22 lat lon alt VN VE VD roll pitch heading mlat mlon malt l0 l1 l2 sd
  | _, _ => 0%R
  end%nat.

Definition Zc_pos3d_l (lat lon alt VN VE VD roll pitch heading mlat mlon malt l0 l1 l2 sd x0 x1 x2 x3 x4 x5 x6 x7 x8 : R) (k : nat) (e : R) : R :=
  match k with
  | 0 => on_corrected3d (fun a1 a2 a3 a4 a5 a6 a7 a8 a9 => pos3d_l_z0 a1 a2 a3 a4 a5 a6 a7 a8 a9 mlat mlon malt l0 l1 l2 sd) lat lon alt VN VE VD roll pitch heading x0 x1 x2 x3 x4 x5 x6 x7 x8 e
  | 1 => on_corrected3d (fun a1 a2 a3 a4 a5 a6 a7 a8 a9 => pos3d_l_z1 a1 a2 a3 a4 a5 a6 a7 a8 a9 mlat mlon malt l0 l1 l2 sd) lat lon alt VN VE VD roll pitch heading x0 x1 x2 x3 x4 x5 x6 x7 x8 e
  | 2 => on_corrected3d (fun a1 a2 a3 a4 a5 a6 a7 a8 a9 => pos3d_l_z2 a1 a2 a3 a4 a5 a6 a7 a8 a9 mlat mlon malt l0 l1 l2 sd) lat lon alt VN VE VD roll pitch heading x0 x1 x2 x3 x4 x5 x6 x7 x8 e
  | _ => 0%R
  end%nat.

Definition Hm_ned3d (lat lon alt VN VE VD roll pitch heading mVN mVE mVD sd : R) (i j : nat) : R :=
  match i, j with
  | 0, 0 => ned3d_H00 lat lon alt VN VE VD roll pitch heading mVN mVE mVD sd | 0, 1 => ned3d_H01 lat lon alt VN VE VD roll pitch heading mVN mVE mVD sd | 0, 2 => ned3d_H02 lat lon alt VN VE VD roll pitch heading mVN mVE mVD sd | 0, 3 => ned3d_H03 lat lon alt VN VE VD roll pitch heading mVN mVE mVD sd | 0, 4 => ned3d_H04 lat lon alt VN VE VD roll pitch heading mVN mVE mVD sd | 0, 5 => ned3d_H05 lat lon alt VN VE VD roll pitch heading mVN mVE mVD sd | 0, 6 => ned3d_H06 lat lon alt VN VE VD roll pitch heading mVN mVE mVD sd | 0, 7 => ned3d_H07 lat lon alt VN VE VD roll pitch heading mVN mVE mVD sd | 0, 8 => ned3d_H08 lat lon alt VN VE VD roll pitch heading mVN mVE mVD sd
  | 1, 0 => ned3d_H10 lat lon alt VN VE VD roll pitch heading mVN mVE mVD sd | 1, 1 => ned3d_H11 lat lon alt VN VE VD roll pitch heading mVN mVE mVD sd | 1, 2 => ned3d_H12 lat lon alt VN VE VD roll pitch heading mVN mVE mVD sd | 1, 3 => ned3d_H13 lat lon alt VN VE VD roll pitch heading mVN mVE mVD sd | 1, 4 => ned3d_H14 lat lon alt VN VE VD roll pitch heading mVN mVE mVD sd | 1, 5 => ned3d_H15 lat lon alt VN VE VD roll pitch heading mVN mVE mVD sd | 1, 6 => ned3d_H16 lat lon alt VN VE VD roll pitch heading mVN mVE mVD sd | 1, 7 => ned3d_H17 lat lon alt VN VE VD roll pitch heading mVN mVE mVD sd | 1, 8 => ned3d_H18 lat lon alt VN VE VD roll pitch heading mVN mVE mVD sd
  | 2, 0 => ned3d_H20 lat lon alt VN VE VD roll pitch heading mVN mVE mVD sd | 2, 1 => ned3d_H21 lat lon alt VN VE VD roll pitch heading mVN mVE mVD sd | 2, 2 => ned3d_H22 lat lon alt VN VE VD roll pitch heading mVN mVE mVD sd | 2, 3 => ned3d_H23 lat lon alt VN VE VD roll pitch heading mVN mVE mVD sd | 2, 4 => ned3d_H24 lat lon alt VN VE VD roll pitch heading mVN mVE mVD sd | 2, 5 => ned3d_H25 lat lon alt VN VE VD roll pitch heading mVN mVE mVD sd | 2, 6 => ned3d_H26 lat lon alt VN VE VD roll pitch heading mVN mVE mVD sd | 2, 7 => ned3d_H27 lat lon alt VN VE VD roll pitch heading mVN mVE mVD sd | 2, 8 => ned3d_H28 lat lon alt VN VE VD roll pitch heading mVN mVE mVD sd
  | _, _ => 0%R
  end%nat.

Definition Rm_ned3d (lat lon alt VN VE VD roll pitch heading mVN mVE mVD sd : R) (i j : nat) : R :=
  match i, j with
  | 0, 0 => ned3d_R00 lat lon alt VN VE VD roll pitch heading mVN mVE mVD sd | 0, 1 => ned3d_R01 lat lon alt VN VE VD roll pitch heading mVN mVE mVD sd | 0, 2 => ned3d_R02 lat lon alt VN VE VD roll pitch heading mVN mVE mVD sd
  | 1, 0 => ned3d_R10 lat lon alt VN VE VD roll pitch heading mVN mVE mVD sd | 1, 1 => ned3d_R11 lat lon alt VN VE VD roll pitch heading mVN mVE mVD sd | 1, 2 => ned3d_R12 lat lon alt VN VE VD roll pitch heading mVN mVE mVD sd
  | 2, 0 => ned3d_R20 lat lon alt VN VE VD roll pitch heading mVN mVE mVD sd | 2, 1 => ned3d_R21 lat lon alt VN VE VD roll pitch heading mVN mVE mVD sd | 2, 2 => ned3d_R22 lat lon alt VN VE VD roll pitch heading mVN mVE mVD sd
  | _, _ => 0%R
  end%nat.

Definition Zc_ned3d (lat lon alt VN VE VD roll pitch heading mVN mVE mVD sd x0 x1 x2 x3 x4 x5 x6 x7 x8 : R) (k : nat) (e : R) : R :=
  match k with
  | 0 => on_corrected3d (fun a1 a2 a3 a4 a5 a6 a7 a8 a9 => ned3d_z0 a1 a2 a3 a4 a5 a6 a7 a8 a9 mVN mVE mVD sd) lat lon alt VN VE VD roll pitch heading x0 x1 x2 x3 x4 x5 x6 x7 x8 e
  | 1 => on_corrected3d (fun a1 a2 a3 a4 a5 a6 a7 a8 a9 => ned3d_z1 a1 a2 a3 a4 a5 a6 a7 a8 a9 mVN mVE mVD sd) lat lon alt VN VE VD roll pitch heading x0 x1 x2 x3 x4 x5 x6 x7 x8 e
  | 2 => on_corrected3d (fun a1 a2 a3 a4 a5 a6 a7 a8 a9 => ned3d_z2 a1 a2 a3 a4 a5 a6 a7 a8 a9 mVN mVE mVD sd) lat lon alt VN VE VD roll pitch heading x0 x1 x2 x3 x4 x5 x6 x7 x8 e
  | _ => 0%R
  end%nat.

Definition Hm_ned3d_rate (lat lon alt VN VE VD roll pitch heading rate_x rate_y rate_z mVN mVE mVD sd : R) (i j : nat) : R :=
  match i, j with
  | 0, 0 => ned3d_rate_H00 lat lon alt VN VE VD roll pitch heading rate_x rate_y rate_z mVN mVE mVD sd | 0, 1 => ned3d_rate_H01 lat lon alt VN VE VD roll pitch heading rate_x rate_y rate_z mVN mVE mVD sd | 0, 2 => ned3d_rate_H02 lat lon alt VN VE VD roll pitch heading rate_x rate_y rate_z mVN mVE mVD sd | 0, 3 => ned3d_rate_H03 lat lon alt VN VE VD roll pitch heading rate_x rate_y rate_z mVN mVE mVD sd | 0, 4 => ned3d_rate_H04 lat lon alt VN VE VD roll pitch heading rate_x rate_y rate_z mVN mVE mVD sd | 0, 5 => ned3d_rate_H05 lat lon alt VN VE VD roll pitch heading rate_x rate_y rate_z mVN mVE mVD sd | 0, 6 => ned3d_rate_H06 lat lon alt VN VE VD roll pitch heading rate_x rate_y rate_z mVN mVE mVD sd | 0, 7 => ned3d_rate_H07 lat lon alt VN VE VD roll pitch heading rate_x rate_y rate_z mVN mVE mVD sd | 0, 8 => ned3d_rate_H08 lat lon alt VN VE VD roll pitch heading rate_x rate_y rate_z mVN mVE mVD sd
  | 1, 0 => ned3d_rate_H10 lat lon alt VN VE VD roll pitch heading rate_x rate_y rate_z mVN mVE mVD sd | 1, 1 => ned3d_rate_H11 lat lon alt VN VE VD roll pitch heading rate_x rate_y rate_z mVN mVE mVD sd | 1, 2 => ned3d_rate_H12 lat lon alt VN VE VD roll pitch heading rate_x rate_y rate_z mVN mVE mVD sd | 1, 3 => ned3d_rate_H13 lat lon alt VN VE VD roll pitch heading rate_x rate_y rate_z mVN mVE mVD sd | 1, 4 => ned3d_rate_H14 lat lon alt VN VE VD roll pitch heading rate_x rate_y rate_z mVN mVE mVD sd | 1, 5 => ned3d_rate_H15 lat lon alt VN VE VD roll pitch heading rate_x rate_y rate_z mVN mVE mVD sd | 1, 6 => ned3d_rate_H16 lat lon alt VN VE VD roll pitch heading rate_x rate_y rate_z mVN mVE mVD sd | 1, 7 => ned3d_rate_H17 lat lon alt VN VE VD roll pitch heading rate_x rate_y rate_z mVN mVE mVD sd | 1, 8 => ned3d_rate_H18 lat lon alt VN VE VD roll pitch heading rate_x rate_y rate_z mVN mVE mVD sd
  | 2, 0 => ned3d_rate_H20 lat lon alt VN VE VD roll pitch heading rate_x rate_y rate_z mVN mVE mVD sd | 2, 1 => ned3d_rate_H21 lat lon alt VN VE VD roll pitch heading rate_x rate_y rate_z mVN mVE mVD sd | 2, 2 => ned3d_rate_H22 lat lon alt VN VE VD roll pitch heading rate_x rate_y rate_z mVN mVE mVD sd | 2, 3 => ned3d_rate_H23 lat lon alt VN VE VD roll pitch heading rate_x rate_y rate_z mVN mVE mVD sd | 2, 4 => ned3d_rate_H24 lat lon alt VN VE VD roll pitch heading rate_x rate_y rate_z mVN mVE mVD sd | 2, 5 => ned3d_rate_H25 lat lon alt VN VE VD roll pitch heading rate_x rate_y rate_z mVN mVE mVD sd | 2, 6 => ned3d_rate_H26 lat lon alt VN VE VD roll pitch heading rate_x rate_y rate_z mVN mVE mVD sd | 2, 7 => ned3d_rate_H27 lat lon alt VN VE VD roll pitch heading rate_x rate_y rate_z mVN mVE mVD sd | 2, 8 => ned3d_rate_H28 lat lon alt VN VE VD roll pitch heading rate_x rate_y rate_z mVN mVE mVD sd
  | _, _ => 0%R
  end%nat.

Definition Rm_ned3d_rate (lat lon alt VN VE VD roll pitch heading rate_x rate_y rate_z mVN mVE mVD sd : R) (i j : nat) : R :=
  match i, j with
  | 0, 0 => ned3d_rate_R00 lat lon alt VN VE VD roll pitch heading rate_x rate_y rate_z mVN mVE mVD sd | 0, 1 => ned3d_rate_R01 lat lon alt VN VE VD roll pitch heading rate_x rate_y rate_z mVN mVE mVD sd | 0, 2 => ned3d_rate_R02 lat lon alt VN VE VD roll pitch heading rate_x rate_y rate_z mVN mVE mVD sd
  | 1, 0 => ned3d_rate_R10 lat lon alt VN VE VD roll pitch heading rate_x rate_y rate_z mVN mVE mVD sd | 1, 1 => ned3d_rate_R11 lat lon alt VN VE VD roll pitch heading rate_x rate_y rate_z mVN mVE mVD sd | 1, 2 => ned3d_rate_R12 lat lon alt VN VE VD roll pitch heading rate_x rate_y rate_z mVN mVE mVD sd
  | 2, 0 => ned3d_rate_R20 lat lon alt VN VE VD roll pitch heading rate_x rate_y rate_z mVN mVE mVD sd | 2, 1 => ned3d_rate_R21 lat lon alt VN VE VD roll pitch heading rate_x rate_y rate_z mVN mVE mVD sd | 2, 2 => ned3d_rate_R22 lat lon alt VN VE VD roll pitch heading rate_x rate_y rate_z mVN mVE mVD sd
  | _, _ => 0%R
  end%nat.

Definition Zc_ned3d_rate (lat lon alt VN VE VD roll pitch heading rate_x rate_y rate_z mVN mVE mVD sd x0 x1 x2 x3 x4 x5 x6 x7 x8 : R) (k : nat) (e : R) : R :=
  match k with
  | 0 => on_corrected3d (fun a1 a2 a3 a4 a5 a6 a7 a8 a9 => ned3d_rate_z0 a1 a2 a3 a4 a5 a6 a7 a8 a9 rate_x rate_y rate_z mVN mVE mVD sd) lat lon alt VN VE VD roll pitch heading x0 x1 x2 x3 x4 x5 x6 x7 x8 e
  | 1 => on_corrected3d (fun a1 a2 a3 a4 a5 a6 a7 a8 a9 => ned3d_rate_z1 a1 a2 a3 a4 a5 a6 a7 a8 a9 rate_x rate_y rate_z mVN mVE mVD sd) lat lon alt VN VE VD roll pitch heading x0 x1 x2 x3 x4 x5 x6 x7 x8 e
  | 2 => on_corrected3d (fun a1 a2 a3 a4 a5 a6 a7 a8 a9 => ned3d_rate_z2 a1 a2 a3 a4 a5 a6 a7 a8 a9 rate_x rate_y rate_z mVN mVE mVD sd) lat lon alt VN VE VD roll pitch heading x0 x1 x2 x3 x4 x5 x6 x7 x8 e
  | _ => 0%R
  end%nat.

Definition Hm_ned3d_l (lat lon alt VN VE VD roll pitch heading rate_x rate_y rate_z mVN mVE mVD l0 l1 l2 sd : R) (i j : nat) : R :=
  match i, j with
  | 0, 0 => ned3d_l_H00 lat lon alt VN VE VD roll pitch heading rate_x rate_y rate_z mVN mVE mVD l0 l1 l2 sd | 0, 1 => ned3d_l_H01 lat lon alt VN VE VD roll pitch heading rate_x rate_y rate_z mVN mVE mVD l0 l1 l2 sd | 0, 2 => ned3d_l_H02 lat lon alt VN VE VD roll pitch heading rate_x rate_y rate_z mVN mVE mVD l0 l1 l2 sd | 0, 3 => ned3d_l_H03 lat lon alt VN VE VD roll pitch heading rate_x rate_y rate_z mVN mVE mVD l0 l1 l2 sd | 0, 4 => ned3d_l_H04 lat lon alt VN VE VD roll pitch heading rate_x rate_y rate_z mVN mVE mVD l0 l1 l2 sd | 0, 5 => ned3d_l_H05 lat lon alt VN VE VD roll pitch heading rate_x rate_y rate_z mVN mVE mVD l0 l1 l2 sd | 0, 6 => ned3d_l_H06 lat lon alt VN VE VD roll pitch heading rate_x rate_y rate_z mVN mVE mVD l0 l1 l2 sd | 0, 7 => ned3d_l_H07 lat lon alt VN VE VD roll pitch heading rate_x rate_y rate_z mVN mVE mVD l0 l1 l2 sd | 0, 8 => ned3d_l_H08 lat lon alt VN VE VD roll pitch heading rate_x rate_y rate_z mVN mVE mVD l0 l1 l2 sd
  | 1, 0 => ned3d_l_H10 lat lon alt VN VE VD roll pitch heading rate_x rate_y rate_z mVN mVE mVD l0 l1 l2 sd | 1, 1 => ned3d_l_H11 lat lon alt VN VE VD roll pitch heading rate_x rate_y rate_z mVN mVE mVD l0 l1 l2 sd | 1, 2 => ned3d_l_H12 lat lon alt VN VE VD roll pitch heading rate_x rate_y rate_z mVN mVE mVD l0 l1 l2 sd | 1, 3 => ned3d_l_H13 lat lon alt VN VE VD roll pitch heading rate_x rate_y rate_z mVN mVE mVD l0 l1 l2 sd | 1, 4 => ned3d_l_H14 lat lon alt VN VE VD roll pitch heading rate_x rate_y rate_z mVN mVE mVD l0 l1 l2 sd | 1, 5 => ned3d_l_H15 lat lon alt VN VE VD roll pitch heading rate_x rate_y rate_z mVN mVE mVD l0 l1 l2 sd | 1, 6 => ned3d_l_H16 lat lon alt VN VE VD roll pitch heading rate_x rate_y rate_z mVN mVE mVD l0 l1 l2 sd | 1, 7 => ned3d_l_H17 lat lon alt VN VE VD roll pitch heading rate_x rate_y rate_z mVN mVE mVD l0 l1 l2 sd | 1, 8 => ned3d_l_H18 lat lon alt VN VE VD roll pitch heading rate_x rate_y rate_z mVN mVE mVD l0 l1 l2 sd
  | 2, 0 => ned3d_l_H20 lat lon alt VN VE VD roll pitch heading rate_x rate_y rate_z mVN mVE mVD l0 l1 l2 sd | 2, 1 => ned3d_l_H21 lat lon alt VN VE VD roll pitch heading rate_x rate_y rate_z mVN mVE mVD l0 l1 l2 sd | 2, 2 => ned3d_l_H22 lat lon alt VN VE VD roll pitch heading rate_x rate_y rate_z mVN mVE mVD l0 l1 l2 sd | 2, 3 => ned3d_l_H23 lat lon alt VN VE VD roll pitch heading rate_x rate_y rate_z mVN mVE mVD l0 l1 l2 sd | 2, 4 => ned3d_l_H24 lat lon alt VN VE VD roll pitch heading rate_x rate_y rate_z mVN mVE mVD l0 l1 l2 sd | 2, 5 => ned3d_l_H25 lat lon alt VN VE VD roll pitch heading rate_x rate_y rate_z mVN mVE mVD l0 l1 l2 sd | 2, 6 => ned3d_l_H26 lat lon alt VN VE VD roll pitch heading rate_x rate_y rate_z mVN mVE mVD l0 l1 l2 sd | 2, 7 => ned3d_l_H27 lat lon alt VN VE VD roll pitch heading rate_x rate_y rate_z mVN mVE mVD l0 l1 l2 sd | 2, 8 => ned3d_l_H28 lat lon alt VN VE VD roll pitch heading rate_x rate_y rate_z mVN mVE mVD l0 l1 l2 sd
  | _, _ => 0%R
  end%nat.

Definition Rm_ned3d_l (lat lon alt VN VE VD roll pitch heading rate_x rate_y rate_z mVN mVE mVD l0 l1 l2 sd : R) (i j : nat) : R :=
  match i, j with
  | 0, 0 => ned3d_l_R00 lat lon alt VN VE VD roll pitch heading rate_x rate_y rate_z mVN mVE mVD l0 l1 l2 sd | 0, 1 => ned3d_l_R01 lat lon alt VN VE VD roll pitch heading rate_x rate_y rate_z mVN mVE mVD l0 l1 l2 sd | 0, 2 => ned3d_l_R02 lat lon alt VN VE VD roll pitch heading rate_x rate_y rate_z mVN mVE mVD l0 l1 l2 sd
  | 1, 0 => ned3d_l_R10 lat lon alt VN VE VD roll pitch heading rate_x rate_y rate_z mVN mVE mVD l0 l1 l2 sd | 1, 1 => ned3d_l_R11 lat lon alt VN VE VD roll pitch heading rate_x rate_y rate_z mVN mVE mVD l0 l1 l2 sd | 1, 2 => ned3d_l_R12 lat lon alt VN VE VD roll pitch heading rate_x rate_y rate_z mVN mVE mVD l0 l1 l2 sd
  | 2, 0 => ned3d_l_R20 lat lon alt VN VE VD roll pitch heading rate_x rate_y rate_z mVN mVE mVD l0 l1 l2 sd | 2, 1 => ned3d_l_R21 lat lon alt VN VE VD roll pitch heading rate_x rate_y rate_z mVN mVE mVD l0 l1 l2 sd | 2, 2 => ned3d_l_R22 lat lon alt VN VE VD roll pitch heading rate_x rate_y rate_z mVN mVE mVD l0 l1 l2 sd
  | _, _ => 0%R
  end%nat.

Definition Zc_ned3d_l (lat lon alt VN VE VD roll pitch heading rate_x rate_y rate_z mVN mVE mVD l0 l1 l2 sd x0 x1 x2 x3 x4 x5 x6 x7 x8 : R) (k : nat) (e : R) : R :=
  match k with
  | 0 => on_corrected3d (fun a1 a2 a3 a4 a5 a6 a7 a8 a9 => ned3d_l_z0 a1 a2 a3 a4 a5 a6 a7 a8 a9 rate_x rate_y rate_z mVN mVE mVD l0 l1 l2 sd) lat lon alt VN VE VD roll pitch heading x0 x1 x2 x3 x4 x5 x6 x7 x8 e
  | 1 => on_corrected3d (fun a1 a2 a3 a4 a5 a6 a7 a8 a9 => ned3d_l_z1 a1 a2 a3 a4 a5 a6 a7 a8 a9 rate_x rate_y rate_z mVN mVE mVD l0 l1 l2 sd) lat lon alt VN VE VD roll pitch heading x0 x1 x2 x3 x4 x5 x6 x7 x8 e
  | 2 => on_corrected3d (fun a1 a2 a3 a4 a5 a6 a7 a8 a9 => ned3d_l_z2 a1 a2 a3 a4 a5 a6 a7 a8 a9 rate_x rate_y rate_z mVN mVE mVD l0 l1 l2 sd) lat lon alt VN VE VD roll pitch heading x0 x1 x2 x3 x4 x5 x6 x7 x8 e
  | _ => 0%R
  end%nat.

Definition Hm_ned3d_l_norate (lat lon alt VN VE VD roll pitch heading mVN mVE mVD l0 l1 l2 sd : R) (i j : nat) : R :=
  match i, j with
  | 0, 0 => ned3d_l_norate_H00 lat lon alt VN VE VD roll pitch heading mVN mVE mVD l0 l1 l2 sd | 0, 1 => ned3d_l_norate_H01 lat lon alt VN VE VD roll pitch heading mVN mVE mVD l0 l1 l2 sd | 0, 2 => ned3d_l_norate_H02 lat lon alt VN VE VD roll pitch heading mVN mVE mVD l0 l1 l2 sd | 0, 3 => ned3d_l_norate_H03 lat lon alt VN VE VD roll pitch heading mVN mVE mVD l0 l1 l2 sd | 0, 4 => ned3d_l_norate_H04 lat lon alt VN VE VD roll pitch heading mVN mVE mVD l0 l1 l2 sd | 0, 5 => ned3d_l_norate_H05 lat lon alt VN VE VD roll pitch heading mVN mVE mVD l0 l1 l2 sd | 0, 6 => ned3d_l_norate_H06 lat lon alt VN VE VD roll pitch heading mVN mVE mVD l0 l1 l2 sd | 0, 7 => ned3d_l_norate_H07 lat lon alt VN VE VD roll pitch heading mVN mVE mVD l0 l1 l2 sd | 0, 8 => ned3d_l_norate_H08 lat lon alt VN VE VD roll pitch heading mVN mVE mVD l0 l1 l2 sd
  | 1, 0 => ned3d_l_norate_H10 lat lon alt VN VE VD roll pitch heading mVN mVE mVD l0 l1 l2 sd | 1, 1 => ned3d_l_norate_H11 lat lon alt VN VE VD roll pitch heading mVN mVE mVD l0 l1 l2 sd | 1, 2 => ned3d_l_norate_H12 lat lon alt VN VE VD roll pitch heading mVN mVE mVD l0 l1 l2 sd | 1, 3 => ned3d_l_norate_H13 lat lon alt VN VE VD roll pitch heading mVN mVE mVD l0 l1 l2 sd | 1, 4 => ned3d_l_norate_H14 lat lon alt VN VE VD roll pitch heading mVN mVE mVD l0 l1 l2 sd | 1, 5 => ned3d_l_norate_H15 lat lon alt VN VE VD roll pitch heading mVN mVE mVD l0 l1 l2 sd | 1, 6 => ned3d_l_norate_H16 lat lon alt VN VE VD roll pitch heading mVN mVE mVD l0 l1 l2 sd | 1, 7 => ned3d_l_norate_H17 lat lon alt VN VE VD roll pitch heading mVN mVE mVD l0 l1 l2 sd | 1, 8 => ned3d_l_norate_H18 lat lon alt VN VE VD roll pitch heading mVN mVE mVD l0 l1 l2 sd
  | 2, 0 => ned3d_l_norate_H20 lat lon alt VN VE VD roll pitch heading mVN mVE mVD l0 l1 l2 sd | 2, 1 => ned3d_l_norate_H21 lat lon alt VN VE VD roll pitch heading mVN mVE mVD l0 l1 l2 sd | 2, 2 => ned3d_l_norate_H22 lat lon alt VN VE VD roll pitch heading mVN mVE mVD l0 l1 l2 sd | 2, 3 => ned3d_l_norate_H23 lat lon alt VN VE VD roll pitch heading mVN mVE mVD l0 l1 l2 sd | 2, 4 => ned3d_l_norate_H24 lat lon alt VN VE VD roll pitch heading mVN mVE mVD l0 l1 l2 sd | 2, 5 => ned3d_l_norate_H25 lat lon alt VN VE VD roll pitch heading mVN mVE mVD l0 l1 l2 sd | 2, 6 => ned3d_l_norate_H26 lat lon alt VN VE VD roll pitch heading mVN mVE mVD l0 l1 l2 sd | 2, 7 => ned3d_l_norate_H27 lat lon alt VN VE VD roll pitch heading mVN mVE mVD l0 l1 l2 sd | 2, 8 => ned3d_l_norate_H28 lat lon alt VN VE VD roll pitch heading mVN mVE mVD l0 l1 l2 sd
  | _, _ => 0%R
  end%nat.

Definition Rm_ned3d_l_norate (lat lon alt VN VE VD roll pitch heading mVN mVE mVD l0 l1 l2 sd : R) (i j : nat) : R :=
  match i, j with
  | 0, 0 => ned3d_l_norate_R00 lat lon alt VN VE VD roll pitch heading mVN mVE mVD l0 l1 l2 sd | 0, 1 => ned3d_l_norate_R01 lat lon alt VN VE VD roll pitch heading mVN mVE mVD l0 l1 l2 sd | 0, 2 => ned3d_l_norate_R02 lat lon alt VN VE VD roll pitch heading mVN mVE mVD l0 l1 l2 sd
  | 1, 0 => ned3d_l_norate_R10 lat lon alt VN VE VD roll pitch heading mVN mVE mVD l0 l1 l2 sd | 1, 1 => ned3d_l_norate_R11 lat lon alt VN VE VD roll pitch heading mVN mVE mVD l0 l1 l2 sd | 1, 2 => ned3d_l_norate_R12 lat lon alt VN VE VD roll pitch heading mVN mVE mVD l0 l1 l2 sd
  | 2, 0 => ned3d_l_norate_R20 lat lon alt VN VE VD roll pitch heading mVN mVE mVD l0 l1 l2 sd | 2, 1 => ned3d_l_norate_R21 lat lon alt VN VE VD roll pitch heading mVN mVE mVD l0 l1 l2 sd | 2, 2 => ned3d_l_norate_R22 lat lon alt VN VE VD roll pitch heading mVN mVE mVD l0 l1 l2 sd
  | _, _ => 0%R
  end%nat.

Definition Zc_ned3d_l_norate (lat lon alt VN VE VD roll pitch heading mVN mVE mVD l0 l1 l2 sd x0 x1 x2 x3 x4 x5 x6 x7 x8 : R) (k : nat) (e : R) : R :=
  match k with
  | 0 => on_corrected3d (fun a1 a2 a3 a4 a5 a6 a7 a8 a9 => ned3d_l_norate_z0 a1 a2 a3 a4 a5 a6 a7 a8 a9 mVN mVE mVD l0 l1 l2 sd) lat lon alt VN VE VD roll pitch heading x0 x1 x2 x3 x4 x5 x6 x7 x8 e
  | 1 => on_corrected3d (fun a1 a2 a3 a4 a5 a6 a7 a8 a9 => ned3d_l_norate_z1 a1 a2 a3 a4 a5 a6 a7 a8 a9 mVN mVE mVD l0 l1 l2 sd) lat lon alt VN VE VD roll pitch heading x0 x1 x2 x3 x4 x5 x6 x7 x8 e
  | 2 => on_corrected3d (fun a1 a2 a3 a4 a5 a6 a7 a8 a9 => ned3d_l_norate_z2 a1 a2 a3 a4 a5 a6 a7 a8 a9 mVN mVE mVD l0 l1 l2 sd) lat lon alt VN VE VD roll pitch heading x0 x1 x2 x3 x4 x5 x6 x7 x8 e
  | _ => 0%R
  end%nat.

Definition Hm_body3d (lat lon alt VN VE VD roll pitch heading mVX mVY mVZ sd : R) (i j : nat) : R :=
  match i, j with
  | 0, 0 => body3d_H00 lat lon alt VN VE VD roll pitch heading mVX mVY mVZ sd | 0, 1 => body3d_H01 lat lon alt VN VE VD roll pitch heading mVX mVY mVZ sd | 0, 2 => body3d_H02 lat lon alt VN VE VD roll pitch heading mVX mVY mVZ sd | 0, 3 => body3d_H03 lat lon alt VN VE VD roll pitch heading mVX mVY mVZ sd | 0, 4 => body3d_H04 lat lon alt VN VE VD roll pitch heading mVX mVY mVZ sd | 0, 5 => body3d_H05 lat lon alt VN VE VD roll pitch heading mVX mVY mVZ sd | 0, 6 => body3d_H06 lat lon alt VN VE VD roll pitch heading mVX mVY mVZ sd | 0, 7 => body3d_H07 lat lon alt VN VE VD roll pitch heading mVX mVY mVZ sd | 0, 8 => body3d_H08 lat lon alt VN VE VD roll pitch heading mVX mVY mVZ sd
  | 1, 0 => body3d_H10 lat lon alt VN VE VD roll pitch heading mVX mVY mVZ sd | 1, 1 => body3d_H11 lat lon alt VN VE VD roll pitch heading mVX mVY mVZ sd | 1, 2 => body3d_H12 lat lon alt VN VE VD roll pitch heading mVX mVY mVZ sd | 1, 3 => body3d_H13 lat lon alt VN VE VD roll pitch heading mVX mVY mVZ sd | 1, 4 => body3d_H14 lat lon alt VN VE VD roll pitch heading mVX mVY mVZ sd | 1, 5 => body3d_H15 lat lon alt VN VE VD roll pitch heading mVX mVY mVZ sd | 1, 6 => body3d_H16 lat lon alt VN VE VD roll pitch heading mVX mVY mVZ sd | 1, 7 => body3d_H17 lat lon alt VN VE VD roll pitch heading mVX mVY mVZ sd | 1, 8 => body3d_H18 lat lon alt VN VE VD roll pitch heading mVX mVY mVZ sd
  | 2, 0 => body3d_H20 lat lon alt VN VE VD roll pitch heading mVX mVY mVZ sd | 2, 1 => body3d_H21 lat lon alt VN VE VD roll pitch heading mVX mVY mVZ sd | 2, 2 => body3d_H22 lat lon alt VN VE VD roll pitch heading mVX mVY mVZ sd | 2, 3 => body3d_H23 lat lon alt VN VE VD roll pitch heading mVX mVY mVZ sd | 2, 4 => body3d_H24 lat lon alt VN VE VD roll pitch heading mVX mVY mVZ sd | 2, 5 => body3d_H25 lat lon alt VN VE VD roll pitch heading mVX mVY mVZ sd | 2, 6 => body3d_H26 lat lon alt VN VE VD roll pitch heading mVX mVY mVZ sd | 2, 7 => body3d_H27 lat lon alt VN VE VD roll pitch heading mVX mVY mVZ sd | 2, 8 => body3d_H28 lat lon alt VN VE VD roll pitch heading mVX mVY mVZ sd
  | _, _ => 0%R
  end%nat.

Definition Rm_body3d (lat lon alt VN VE VD roll pitch heading mVX mVY mVZ sd : R) (i j : nat) : R :=
  match i, j with
  | 0, 0 => body3d_R00 lat lon alt VN VE VD roll pitch heading mVX mVY mVZ sd | 0, 1 => body3d_R01 lat lon alt VN VE VD roll pitch heading mVX mVY mVZ sd | 0, 2 => body3d_R02 lat lon alt VN VE VD roll pitch heading mVX mVY mVZ sd
  | 1, 0 => body3d_R10 lat lon alt VN VE VD roll pitch heading mVX mVY mVZ sd | 1, 1 => body3d_R11 lat lon alt VN VE VD roll pitch heading mVX mVY mVZ sd | 1, 2 => body3d_R12 lat lon alt VN VE VD roll pitch heading mVX mVY mVZ sd
  | 2, 0 => body3d_R20 lat lon alt VN VE VD roll pitch heading mVX mVY mVZ sd | 2, 1 => body3d_R21 lat lon alt VN VE VD roll pitch heading mVX mVY mVZ sd | 2, 2 => body3d_R22 lat lon alt VN VE VD roll pitch heading mVX mVY mVZ sd
  | _, _ => 0%R
  end%nat.

Definition Zc_body3d (lat lon alt VN VE VD roll pitch heading mVX mVY mVZ sd x0 x1 x2 x3 x4 x5 x6 x7 x8 : R) (k : nat) (e : R) : R :=
  match k with
  | 0 => on_corrected3d (fun a1 a2 a3 a4 a5 a6 a7 a8 a9 => body3d_z0 a1 a2 a3 a4 a5 a6 a7 a8 a9 mVX mVY mVZ sd) lat lon alt VN VE VD roll pitch heading x0 x1 x2 x3 x4 x5 x6 x7 x8 e
  | 1 => on_corrected3d (fun a1 a2 a3 a4 a5 a6 a7 a8 a9 => body3d_z1 a1 a2 a3 a4 a5 a6 a7 a8 a9 mVX mVY mVZ sd) lat lon alt VN VE VD roll pitch heading x0 x1 x2 x3 x4 x5 x6 x7 x8 e
  | 2 => on_corrected3d (fun a1 a2 a3 a4 a5 a6 a7 a8 a9 => body3d_z2 a1 a2 a3 a4 a5 a6 a7 a8 a9 mVX mVY mVZ sd) lat lon alt VN VE VD roll pitch heading x0 x1 x2 x3 x4 x5 x6 x7 x8 e
  | _ => 0%R
  end%nat.

Definition Hm_body3d_rate (lat lon alt VN VE VD roll pitch heading rate_x rate_y rate_z mVX mVY mVZ sd : R) (i j : nat) : R :=
  match i, j with
  | 0, 0 => body3d_rate_H00 lat lon alt VN VE VD roll pitch heading rate_x rate_y rate_z mVX mVY mVZ sd | 0, 1 => body3d_rate_H01 lat lon alt VN VE VD roll pitch heading rate_x rate_y rate_z mVX mVY mVZ sd | 0, 2 => body3d_rate_H02 lat lon alt VN VE VD roll pitch heading rate_x rate_y rate_z mVX mVY mVZ sd | 0, 3 => body3d_rate_H03 lat lon alt VN VE VD roll pitch heading rate_x rate_y rate_z mVX mVY mVZ sd | 0, 4 => body3d_rate_H04 lat lon alt VN VE VD roll pitch heading rate_x rate_y rate_z mVX mVY mVZ sd | 0, 5 => body3d_rate_H05 lat lon alt VN VE VD roll pitch heading rate_x rate_y rate_z mVX mVY mVZ sd | 0, 6 => body3d_rate_H06 lat lon alt VN VE VD roll pitch heading rate_x rate_y rate_z mVX mVY mVZ sd | 0, 7 => body3d_rate_H07 lat lon alt VN VE VD roll pitch heading rate_x rate_y rate_z mVX mVY mVZ sd | 0, 8 => body3d_rate_H08 lat lon alt VN VE VD roll pitch heading rate_x rate_y rate_z mVX mVY mVZ sd
  | 1, 0 => body3d_rate_H10 lat lon alt VN VE VD roll pitch heading rate_x rate_y rate_z mVX mVY mVZ sd | 1, 1 => body3d_rate_H11 lat lon alt VN VE VD roll pitch heading rate_x rate_y rate_z mVX mVY mVZ sd | 1, 2 => body3d_rate_H12 lat lon alt VN VE VD roll pitch heading rate_x rate_y rate_z mVX mVY mVZ sd | 1, 3 => body3d_rate_H13 lat lon alt VN VE VD roll pitch heading rate_x rate_y rate_z mVX mVY mVZ sd | 1, 4 => body3d_rate_H14 lat lon alt VN VE VD roll pitch heading rate_x rate_y rate_z mVX mVY mVZ sd | 1, 5 => body3d_rate_H15 lat lon alt VN VE VD roll pitch heading rate_x rate_y rate_z mVX mVY mVZ sd | 1, 6 => body3d_rate_H16 lat lon alt VN VE VD roll pitch heading rate_x rate_y rate_z mVX mVY mVZ sd | 1, 7 => body3d_rate_H17 lat lon alt VN VE VD roll pitch heading rate_x rate_y rate_z mVX mVY mVZ sd | 1, 8 => body3d_rate_H18 lat lon alt VN VE VD roll pitch heading rate_x rate_y rate_z mVX mVY mVZ sd
  | 2, 0 => body3d_rate_H20 lat lon alt VN VE VD roll pitch heading rate_x rate_y rate_z mVX mVY mVZ sd | 2, 1 => body3d_rate_H21 lat lon alt VN VE VD roll pitch heading rate_x rate_y rate_z mVX mVY mVZ sd | 2, 2 => body3d_rate_H22 lat lon alt VN VE VD roll pitch heading rate_x rate_y rate_z mVX mVY mVZ sd | 2, 3 => body3d_rate_H23 lat lon alt VN VE VD roll pitch heading rate_x rate_y rate_z mVX mVY mVZ sd | 2, 4 => body3d_rate_H24 lat lon alt VN VE VD roll pitch heading rate_x rate_y rate_z mVX mVY mVZ sd | 2, 5 => body3d_rate_H25 lat lon alt VN VE VD roll pitch heading rate_x rate_y rate_z mVX mVY mVZ sd | 2, 6 => body3d_rate_H26 lat lon alt VN VE VD roll pitch heading rate_x rate_y rate_z mVX mVY mVZ sd | 2, 7 => body3d_rate_H27 lat lon alt VN VE VD roll pitch heading rate_x rate_y rate_z mVX mVY mVZ sd | 2, 8 => body3d_rate_H28 lat lon alt VN VE VD roll pitch heading rate_x rate_y rate_z mVX mVY mVZ sd
  | _, _ => 0%R
  end%nat.

Definition Rm_body3d_rate (lat lon alt VN VE VD roll pitch heading rate_x rate_y rate_z mVX mVY mVZ sd : R) (i j : nat) : R :=
  match i, j with
  | 0, 0 => body3d_rate_R00 lat lon alt VN VE VD roll pitch heading rate_x rate_y rate_z mVX mVY mVZ sd | 0, 1 => body3d_rate_R01 lat lon alt VN VE VD roll pitch heading rate_x rate_y rate_z mVX mVY mVZ sd | 0, 2 => body3d_rate_R02 lat lon alt VN VE VD roll pitch heading rate_x rate_y rate_z mVX mVY mVZ sd
  | 1, 0 => body3d_rate_R10 lat lon alt VN VE VD roll pitch heading rate_x rate_y rate_z mVX mVY mVZ sd | 1, 1 => body3d_rate_R11 lat lon alt VN VE VD roll pitch heading rate_x rate_y rate_z mVX mVY mVZ sd | 1, 2 => body3d_rate_R12 lat lon alt VN VE VD roll pitch heading rate_x rate_y rate_z mVX mVY mVZ sd
  | 2, 0 => body3d_rate_R20 lat lon alt VN VE VD roll pitch heading rate_x rate_y rate_z mVX mVY mVZ sd | 2, 1 => body3d_rate_R21 lat lon alt VN VE VD roll pitch heading rate_x rate_y rate_z mVX mVY mVZ sd | 2, 2 => body3d_rate_R22 lat lon alt VN VE VD roll pitch heading rate_x rate_y rate_z mVX mVY mVZ sd
  | _, _ => 0%R
  end%nat.

Definition Zc_body3d_rate (lat lon alt VN VE VD roll pitch heading rate_x rate_y rate_z mVX mVY mVZ sd x0 x1 x2 x3 x4 x5 x6 x7 x8 : R) (k : nat) (e : R) : R :=
  match k with
  | 0 => on_corrected3d (fun a1 a2 a3 a4 a5 a6 a7 a8 a9 => body3d_rate_z0 a1 a2 a3 a4 a5 a6 a7 a8 a9 rate_x rate_y rate_z mVX mVY mVZ sd) lat lon alt VN VE VD roll pitch heading x0 x1 x2 x3 x4 x5 x6 x7 x8 e
  | 1 => on_corrected3d (fun a1 a2 a3 a4 a5 a6 a7 a8 a9 => body3d_rate_z1 a1 a2 a3 a4 a5 a6 a7 a8 a9 rate_x rate_y rate_z mVX mVY mVZ sd) lat lon alt VN VE VD roll pitch heading x0 x1 x2 x3 x4 x5 x6 x7 x8 e
  | 2 => on_corrected3d (fun a1 a2 a3 a4 a5 a6 a7 a8 a9 => body3d_rate_z2 a1 a2 a3 a4 a5 a6 a7 a8 a9 rate_x rate_y rate_z mVX mVY mVZ sd) lat lon alt VN VE VD roll pitch heading x0 x1 x2 x3 x4 x5 x6 x7 x8 e
  | _ => 0%R
  end%nat.

Definition Hm_pos2d (lat lon alt VN VE VD roll pitch heading mlat mlon malt sd : R) (i j : nat) : R :=
  match i, j with
  | 0, 0 => pos2d_H00 lat lon alt VN VE VD roll pitch heading mlat mlon malt sd | 0, 1 => pos2d_H01 lat lon alt VN VE VD roll pitch heading mlat mlon malt sd | 0, 2 => pos2d_H02 lat lon alt VN VE VD roll pitch heading mlat mlon malt sd | 0, 3 => pos2d_H03 lat lon alt VN VE VD roll pitch heading mlat mlon malt sd | 0, 4 => pos2d_H04 lat lon alt VN VE VD roll pitch heading mlat mlon malt sd | 0, 5 => pos2d_H05 lat lon alt VN VE VD roll pitch heading mlat mlon malt sd | 0, 6 => pos2d_H06 lat lon alt VN VE VD roll pitch heading mlat mlon malt sd
  | 1, 0 => pos2d_H10 lat lon alt VN VE VD roll pitch heading mlat mlon malt sd | 1, 1 => pos2d_H11 lat lon alt VN VE VD roll pitch heading mlat mlon malt sd | 1, 2 => pos2d_H12 lat lon alt VN VE VD roll pitch heading mlat mlon malt sd | 1, 3 => pos2d_H13 lat lon alt VN VE VD roll pitch heading mlat mlon malt sd | 1, 4 => pos2d_H14 lat lon alt VN VE VD roll pitch heading mlat mlon malt sd | 1, 5 => pos2d_H15 lat lon alt VN VE VD roll pitch heading mlat mlon malt sd | 1, 6 => pos2d_H16 lat lon alt VN VE VD roll pitch heading mlat mlon malt sd
  | _, _ => 0%R
  end%nat.

Definition Rm_pos2d (lat lon alt VN VE VD roll pitch heading mlat mlon malt sd : R) (i j : nat) : R :=
  match i, j with
  | 0, 0 => pos2d_R00 lat lon alt VN VE VD roll pitch heading mlat mlon malt sd | 0, 1 => pos2d_R01 lat lon alt VN VE VD roll pitch heading mlat mlon malt sd
  | 1, 0 => pos2d_R10 lat lon alt VN VE VD roll pitch heading mlat mlon malt sd | 1, 1 => pos2d_R11 lat lon alt VN VE VD roll pitch heading mlat mlon malt sd
  | _, _ => 0%R
  end%nat.

Definition Zc_pos2d (lat lon alt VN VE VD roll pitch heading mlat mlon malt sd x0 x1 x2 x3 x4 x5 x6 : R) (k : nat) (e : R) : R :=
  match k with
  | 0 => on_corrected2d (fun a1 a2 a3 a4 a5 a6 a7 a8 a9 => pos2d_z0 a1 a2 a3 a4 a5 a6 a7 a8 a9 mlat mlon malt sd) lat lon alt VN VE VD roll pitch heading x0 x1 x2 x3 x4 x5 x6 e
  | 1 => on_corrected2d (fun a1 a2 a3 a4 a5 a6 a7 a8 a9 => pos2d_z1 a1 a2 a3 a4 a5 a6 a7 a8 a9 mlat mlon malt sd) lat lon alt VN VE VD roll pitch heading x0 x1 x2 x3 x4 x5 x6 e
  | _ => 0%R
  end%nat.

Definition Hm_pos2d_l (lat lon alt VN VE VD roll pitch heading mlat mlon malt l0 l1 l2 sd : R) (i j : nat) : R :=
  match i, j with
  | 0, 0 => pos2d_l_H00 lat lon alt VN VE VD roll pitch heading mlat mlon malt l0 l1 l2 sd | 0, 1 => pos2d_l_H01 lat lon alt VN VE VD roll pitch heading mlat mlon malt l0 l1 l2 sd | 0, 2 => pos2d_l_H02 lat lon alt VN VE VD roll pitch heading mlat mlon malt l0 l1 l2 sd | 0, 3 => pos2d_l_H03 lat lon alt VN VE VD roll pitch heading mlat mlon malt l0 l1 l2 sd | 0, 4 => pos2d_l_H04 lat lon alt VN VE VD roll pitch heading mlat mlon malt l0 l1 l2 sd | 0, 5 => pos2d_l_H05 lat lon alt VN VE VD roll pitch heading mlat mlon malt l0 l1 l2 sd | 0, 6 => pos2d_l_H06 lat lon alt VN VE VD roll pitch heading mlat mlon malt l0 l1 l2 sd
  | 1, 0 => pos2d_l_H10 lat lon alt VN VE VD roll pitch heading mlat mlon malt l0 l1 l2 sd | 1, 1 => pos2d_l_H11 lat lon alt VN VE VD roll pitch heading mlat mlon malt l0 l1 l2 sd | 1, 2 => pos2d_l_H12 lat lon alt VN VE VD roll pitch heading mlat mlon malt l0 l1 l2 sd | 1, 3 => pos2d_l_H13 lat lon alt VN VE VD roll pitch heading mlat mlon malt l0 l1 l2 sd | 1, 4 => pos2d_l_H14 lat lon alt VN VE VD roll pitch heading mlat mlon malt l0 l1 l2 sd | 1, 5 => pos2d_l_H15 lat lon alt VN VE VD roll pitch heading mlat mlon malt l0 l1 l2 sd | 1, 6 => pos2d_l_H16 lat lon alt VN VE VD roll pitch heading mlat mlon malt l0 l1 l2 sd
  | _, _ => 0%R
  end%nat.

Definition Rm_pos2d_l (lat lon alt VN VE VD roll pitch heading mlat mlon malt l0 l1 l2 sd : R) (i j : nat) : R :=
  match i, j with
  | 0, 0 => pos2d_l_R00 lat lon alt VN VE VD roll pitch heading mlat mlon malt l0 l1 l2 sd | 0, 1 => pos2d_l_R01 lat lon alt VN VE VD roll pitch heading mlat mlon malt l0 l1 l2 sd
  | 1, 0 => pos2d_l_R10 lat lon alt VN VE VD roll pitch heading mlat mlon malt l0 l1 l2 sd | 1, 1 => pos2d_l_R11 lat lon alt VN VE VD roll pitch heading mlat mlon malt l0 l1 l2 sd
  | _, _ => 0%R
  end%nat.

Definition Zc_pos2d_l (lat lon alt VN VE VD roll pitch heading mlat mlon malt l0 l1 l2 sd x0 x1 x2 x3 x4 x5 x6 : R) (k : nat) (e : R) : R :=
  match k with
  | 0 => on_corrected2d (fun a1 a2 a3 a4 a5 a6 a7 a8 a9 => pos2d_l_z0 a1 a2 a3 a4 a5 a6 a7 a8 a9 mlat mlon malt l0 l1 l2 sd) lat lon alt VN VE VD roll pitch heading x0 x1 x2 x3 x4 x5 x6 e
  | 1 => on_corrected2d (fun a1 a2 a3 a4 a5 a6 a7 a8 a9 => pos2d_l_z1 a1 a2 a3 a4 a5 a6 a7 a8 a9 mlat mlon malt l0 l1 l2 sd) lat lon alt VN VE VD roll pitch heading x0 x1 x2 x3 x4 x5 x6 e
  | _ => 0%R
  end%nat.

Definition Hm_ned2d (lat lon alt VN VE VD roll pitch heading mVN mVE mVD sd : R) (i j : nat) : R :=
  match i, j with
  | 0, 0 => ned2d_H00 lat lon alt VN VE VD roll pitch heading mVN mVE mVD sd | 0, 1 => ned2d_H01 lat lon alt VN VE VD roll pitch heading mVN mVE mVD sd | 0, 2 => ned2d_H02 lat lon alt VN VE VD roll pitch heading mVN mVE mVD sd | 0, 3 => ned2d_H03 lat lon alt VN VE VD roll pitch heading mVN mVE mVD sd | 0, 4 => ned2d_H04 lat lon alt VN VE VD roll pitch heading mVN mVE mVD sd | 0, 5 => ned2d_H05 lat lon alt VN VE VD roll pitch heading mVN mVE mVD sd | 0, 6 => ned2d_H06 lat lon alt VN VE VD roll pitch heading mVN mVE mVD sd
  | 1, 0 => ned2d_H10 lat lon alt VN VE VD roll pitch heading mVN mVE mVD sd | 1, 1 => ned2d_H11 lat lon alt VN VE VD roll pitch heading mVN mVE mVD sd | 1, 2 => ned2d_H12 lat lon alt VN VE VD roll pitch heading mVN mVE mVD sd | 1, 3 => ned2d_H13 lat lon alt VN VE VD roll pitch heading mVN mVE mVD sd | 1, 4 => ned2d_H14 lat lon alt VN VE VD roll pitch heading mVN mVE mVD sd | 1, 5 => ned2d_H15 lat lon alt VN VE VD roll pitch heading mVN mVE mVD sd | 1, 6 => ned2d_H16 lat lon alt VN VE VD roll pitch heading mVN mVE mVD sd
  | _, _ => 0%R
  end%nat.

Definition Rm_ned2d (lat lon alt VN VE VD roll pitch heading mVN mVE mVD sd : R) (i j : nat) : R :=
  match i, j with
  | 0, 0 => ned2d_R00 lat lon alt VN VE VD roll pitch heading mVN mVE mVD sd | 0, 1 => ned2d_R01 lat lon alt VN VE VD roll pitch heading mVN mVE mVD sd
  | 1, 0 => ned2d_R10 lat lon alt VN VE VD roll pitch heading mVN mVE mVD sd | 1, 1 => ned2d_R11 lat lon alt VN VE VD roll pitch heading mVN mVE mVD sd
  | _, _ => 0%R
  end%nat.

Definition Zc_ned2d (lat lon alt VN VE VD roll pitch heading mVN mVE mVD sd x0 x1 x2 x3 x4 x5 x6 : R) (k : nat) (e : R) : R :=
  match k with
  | 0 => on_corrected2d (fun a1 a2 a3 a4 a5 a6 a7 a8 a9 => ned2d_z0 a1 a2 a3 a4 a5 a6 a7 a8 a9 mVN mVE mVD sd) lat lon alt VN VE VD roll pitch heading x0 x1 x2 x3 x4 x5 x6 e
  | 1 => on_corrected2d (fun a1 a2 a3 a4 a5 a6 a7 a8 a9 => ned2d_z1 a1 a2 a3 a4 a5 a6 a7 a8 a9 mVN mVE mVD sd) lat lon alt VN VE VD roll pitch heading x0 x1 x2 x3 x4 x5 x6 e
  | _ => 0%R
  end%nat.

Definition Hm_ned2d_rate (lat lon alt VN VE VD roll pitch heading rate_x rate_y rate_z mVN mVE mVD sd : R) (i j : nat) : R :=
  match i, j with
  | 0, 0 => ned2d_rate_H00 lat lon alt VN VE VD roll pitch heading rate_x rate_y rate_z mVN mVE mVD sd | 0, 1 => ned2d_rate_H01 lat lon alt VN VE VD roll pitch heading rate_x rate_y rate_z mVN mVE mVD sd | 0, 2 => ned2d_rate_H02 lat lon alt VN VE VD roll pitch heading rate_x rate_y rate_z mVN mVE mVD sd | 0, 3 => ned2d_rate_H03 lat lon alt VN VE VD roll pitch heading rate_x rate_y rate_z mVN mVE mVD sd | 0, 4 => ned2d_rate_H04 lat lon alt VN VE VD roll pitch heading rate_x rate_y rate_z mVN mVE mVD sd | 0, 5 => ned2d_rate_H05 lat lon alt VN VE VD roll pitch heading rate_x rate_y rate_z mVN mVE mVD sd | 0, 6 => ned2d_rate_H06 lat lon alt VN VE VD roll pitch heading rate_x rate_y rate_z mVN mVE mVD sd
  | 1, 0 => ned2d_rate_H10 lat lon alt VN VE VD roll pitch heading rate_x rate_y rate_z mVN mVE mVD sd | 1, 1 => ned2d_rate_H11 lat lon alt VN VE VD roll pitch heading rate_x rate_y rate_z mVN mVE mVD sd | 1, 2 => ned2d_rate_H12 lat lon alt VN VE VD roll pitch heading rate_x rate_y rate_z mVN mVE mVD sd | 1, 3 => ned2d_rate_H13 lat lon alt VN VE VD roll pitch heading rate_x rate_y rate_z mVN mVE mVD sd | 1, 4 => ned2d_rate_H14 lat lon alt VN VE VD roll pitch heading rate_x rate_y rate_z mVN mVE mVD sd | 1, 5 => ned2d_rate_H15 lat lon alt VN VE VD roll pitch heading rate_x rate_y rate_z mVN mVE mVD sd | 1, 6 => ned2d_rate_H16 lat lon alt VN VE VD roll pitch heading rate_x rate_y rate_z mVN mVE mVD sd
  | _, _ => 0%R
  end%nat.

Definition Rm_ned2d_rate (lat lon alt VN VE VD roll pitch heading rate_x rate_y rate_z mVN mVE mVD sd : R) (i j : nat) : R :=
  match i, j with
  | 0, 0 => ned2d_rate_R00 lat lon alt VN VE VD roll pitch heading rate_x rate_y rate_z mVN mVE mVD sd | 0, 1 => ned2d_rate_R01 lat lon alt VN VE VD roll pitch heading rate_x rate_y rate_z mVN mVE mVD sd
  | 1, 0 => ned2d_rate_R10 lat lon alt VN VE VD roll pitch heading rate_x rate_y rate_z mVN mVE mVD sd | 1, 1 => ned2d_rate_R11 lat lon alt VN VE VD roll pitch heading rate_x rate_y rate_z mVN mVE mVD sd
  | _, _ => 0%R
  end%nat.

Definition Zc_ned2d_rate (lat lon alt VN VE VD roll pitch heading rate_x rate_y rate_z mVN mVE mVD sd x0 x1 x2 x3 x4 x5 x6 : R) (k : nat) (e : R) : R :=
  match k with
  | 0 => on_corrected2d (fun a1 a2 a3 a4 a5 a6 a7 a8 a9 => ned2d_rate_z0 a1 a2 a3 a4 a5 a6 a7 a8 a9 rate_x rate_y rate_z mVN mVE mVD sd) lat lon alt VN VE VD roll pitch heading x0 x1 x2 x3 x4 x5 x6 e
  | 1 => on_corrected2d (fun a1 a2 a3 a4 a5 a6 a7 a8 a9 => ned2d_rate_z1 a1 a2 a3 a4 a5 a6 a7 a8 a9 rate_x rate_y rate_z mVN mVE mVD sd) lat lon alt VN VE VD roll pitch heading x0 x1 x2 x3 x4 x5 x6 e
  | _ => 0%R
  end%nat.

Definition Hm_ned2d_l (lat lon alt VN VE VD roll pitch heading rate_x rate_y rate_z mVN mVE mVD l0 l1 l2 sd : R) (i j : nat) : R :=
  match i, j with
  | 0, 0 => ned2d_l_H00 lat lon alt VN VE VD roll pitch heading rate_x rate_y rate_z mVN mVE mVD l0 l1 l2 sd | 0, 1 => ned2d_l_H01 lat lon alt VN VE VD roll pitch heading rate_x rate_y rate_z mVN mVE mVD l0 l1 l2 sd | 0, 2 => ned2d_l_H02 lat lon alt VN VE VD roll pitch heading rate_x rate_y rate_z mVN mVE mVD l0 l1 l2 sd | 0, 3 => ned2d_l_H03 lat lon alt VN VE VD roll pitch heading rate_x rate_y rate_z mVN mVE mVD l0 l1 l2 sd | 0, 4 => ned2d_l_H04 lat lon alt VN VE VD roll pitch heading rate_x rate_y rate_z mVN mVE mVD l0 l1 l2 sd | 0, 5 => ned2d_l_H05 lat lon alt VN VE VD roll pitch heading rate_x rate_y rate_z mVN mVE mVD l0 l1 l2 sd | 0, 6 => ned2d_l_H06 lat lon alt VN VE VD roll pitch heading rate_x rate_y rate_z mVN mVE mVD l0 l1 l2 sd
  | 1, 0 => ned2d_l_H10 lat lon alt VN VE VD roll pitch heading rate_x rate_y rate_z mVN mVE mVD l0 l1 l2 sd | 1, 1 => ned2d_l_H11 lat lon alt VN VE VD roll pitch heading rate_x rate_y rate_z mVN mVE mVD l0 l1 l2 sd | 1, 2 => ned2d_l_H12 lat lon alt VN VE VD roll pitch heading rate_x rate_y rate_z mVN mVE mVD l0 l1 l2 sd | 1, 3 => ned2d_l_H13 lat lon alt VN VE VD roll pitch heading rate_x rate_y rate_z mVN mVE mVD l0 l1 l2 sd | 1, 4 => ned2d_l_H14 lat lon alt VN VE VD roll pitch heading rate_x rate_y rate_z mVN mVE mVD l0 l1 l2 sd | 1, 5 => ned2d_l_H15 lat lon alt VN VE VD roll pitch heading rate_x rate_y rate_z mVN mVE mVD l0 l1 l2 sd | 1, 6 => ned2d_l_H16 lat lon alt VN VE VD roll pitch heading rate_x rate_y rate_z mVN mVE mVD l0 l1 l2 sd
  | _, _ => 0%R
  end%nat.

Definition Rm_ned2d_l (lat lon alt VN VE VD roll pitch heading rate_x rate_y rate_z mVN mVE mVD l0 l1 l2 sd : R) (i j : nat) : R :=
  match i, j with
  | 0, 0 => ned2d_l_R00 lat lon alt VN VE VD roll pitch heading rate_x rate_y rate_z mVN mVE mVD l0 l1 l2 sd | 0, 1 => ned2d_l_R01 lat lon alt VN VE VD roll pitch heading rate_x rate_y rate_z mVN mVE mVD l0 l1 l2 sd
  | 1, 0 => ned2d_l_R10 lat lon alt VN VE VD roll pitch heading rate_x rate_y rate_z mVN mVE mVD l0 l1 l2 sd | 1, 1 => ned2d_l_R11 lat lon alt VN VE VD roll pitch heading rate_x rate_y rate_z mVN mVE mVD l0 l1 l2 sd
  | _, _ => 0%R
  end%nat.

Definition Zc_ned2d_l (lat lon alt VN VE VD roll pitch heading rate_x rate_y rate_z mVN mVE mVD l0 l1 l2 sd x0 x1 x2 x3 x4 x5 x6 : R) (k : nat) (e : R) : R :=
  match k with
  | 0 => on_corrected2d (fun a1 a2 a3 a4 a5 a6 a7 a8 a9 => ned2d_l_z0 a1 a2 a3 a4 a5 a6 a7 a8 a9 rate_x rate_y rate_z mVN mVE mVD l0 l1 l2 sd) lat lon alt VN VE VD roll pitch heading x0 x1 x2 x3 x4 x5 x6 e
  | 1 => on_corrected2d (fun a1 a2 a3 a4 a5 a6 a7 a8 a9 => ned2d_l_z1 a1 a2 a3 a4 a5 a6 a7 a8 a9 rate_x rate_y rate_z mVN mVE mVD l0 l1 l2 sd) lat lon alt VN VE VD roll pitch heading x0 x1 x2 x3 x4 x5 x6 e
  | _ => 0%R
  end%nat.

Definition Hm_ned2d_l_norate (lat lon alt VN VE VD roll pitch heading mVN mVE mVD l0 l1 l2 sd : R) (i j : nat) : R :=
  match i, j with
  | 0, 0 => ned2d_l_norate_H00 lat lon alt VN VE VD roll pitch heading mVN mVE mVD l0 l1 l2 sd | 0, 1 => ned2d_l_norate_H01 lat lon alt VN VE VD roll pitch heading mVN mVE mVD l0 l1 l2 sd | 0, 2 => ned2d_l_norate_H02 lat lon alt VN VE VD roll pitch heading mVN mVE mVD l0 l1 l2 sd | 0, 3 => ned2d_l_norate_H03 lat lon alt VN VE VD roll pitch heading mVN mVE mVD l0 l1 l2 sd | 0, 4 => ned2d_l_norate_H04 lat lon alt VN VE VD roll pitch heading mVN mVE mVD l0 l1 l2 sd | 0, 5 => ned2d_l_norate_H05 lat lon alt VN VE VD roll pitch heading mVN mVE mVD l0 l1 l2 sd | 0, 6 => ned2d_l_norate_H06 lat lon alt VN VE VD roll pitch heading mVN mVE mVD l0 l1 l2 sd
  | 1, 0 => ned2d_l_norate_H10 lat lon alt VN VE VD roll pitch heading mVN mVE mVD l0 l1 l2 sd | 1, 1 => ned2d_l_norate_H11 lat lon alt VN VE VD roll pitch heading mVN mVE mVD l0 l1 l2 sd | 1, 2 => ned2d_l_norate_H12 lat lon alt VN VE VD roll pitch heading mVN mVE mVD l0 l1 l2 sd | 1, 3 => ned2d_l_norate_H13 lat lon alt VN VE VD roll pitch heading mVN mVE mVD l0 l1 l2 sd | 1, 4 => ned2d_l_norate_H14 lat lon alt VN VE VD roll pitch heading mVN mVE mVD l0 l1 l2 sd | 1, 5 => ned2d_l_norate_H15 lat lon alt VN VE VD roll pitch heading mVN mVE mVD l0 l1 l2 sd | 1, 6 => ned2d_l_norate_H16 lat lon alt VN VE VD roll pitch heading mVN mVE mVD l0 l1 l2 sd
  | _, _ => 0%R
  end%nat.

Definition Rm_ned2d_l_norate (lat lon alt VN VE VD roll pitch heading mVN mVE mVD l0 l1 l2 sd : R) (i j : nat) : R :=
  match i, j with
  | 0, 0 => ned2d_l_norate_R00 lat lon alt VN VE VD roll pitch heading mVN mVE mVD l0 l1 l2 sd | 0, 1 => ned2d_l_norate_R01 lat lon alt VN VE VD roll pitch heading mVN mVE mVD l0 l1 l2 sd
  | 1, 0 => ned2d_l_norate_R10 lat lon alt VN VE VD roll pitch heading mVN mVE mVD l0 l1 l2 sd | 1, 1 => ned2d_l_norate_R11 lat lon alt VN VE VD roll pitch heading mVN mVE mVD l0 l1 l2 sd
  | _, _ => 0%R
  end%nat.

Definition Zc_ned2d_l_norate (lat lon alt VN VE VD roll pitch heading mVN mVE mVD l0 l1 l2 sd x0 x1 x2 x3 x4 x5 x6 : R) (k : nat) (e : R) : R :=
  match k with
  | 0 => on_corrected2d (fun a1 a2 a3 a4 a5 a6 a7 a8 a9 => ned2d_l_norate_z0 a1 a2 a3 a4 a5 a6 a7 a8 a9 mVN mVE mVD l0 l1 l2 sd) lat lon alt VN VE VD roll pitch heading x0 x1 x2 x3 x4 x5 x6 e
  | 1 => on_corrected2d (fun a1 a2 a3 a4 a5 a6 a7 a8 a9 => ned2d_l_norate_z1 a1 a2 a3 a4 a5 a6 a7 a8 a9 mVN mVE mVD l0 l1 l2 sd) lat lon alt VN VE VD roll pitch heading x0 x1 x2 x3 x4 x5 x6 e
  | _ => 0%R
  end%nat.

Definition Hm_body2d (lat lon alt VN VE VD roll pitch heading mVX mVY mVZ sd : R) (i j : nat) : R :=
  match i, j with
  | 0, 0 => body2d_H00 lat lon alt VN VE VD roll pitch heading mVX mVY mVZ sd | 0, 1 => body2d_H01 lat lon alt VN VE VD roll pitch heading mVX mVY mVZ sd | 0, 2 => body2d_H02 lat lon alt VN VE VD roll pitch heading mVX mVY mVZ sd | 0, 3 => body2d_H03 lat lon alt VN VE VD roll pitch heading mVX mVY mVZ sd | 0, 4 => body2d_H04 lat lon alt VN VE VD roll pitch heading mVX mVY mVZ sd | 0, 5 => body2d_H05 lat lon alt VN VE VD roll pitch heading mVX mVY mVZ sd | 0, 6 => body2d_H06 lat lon alt VN VE VD roll pitch heading mVX mVY mVZ sd
  | 1, 0 => body2d_H10 lat lon alt VN VE VD roll pitch heading mVX mVY mVZ sd | 1, 1 => body2d_H11 lat lon alt VN VE VD roll pitch heading mVX mVY mVZ sd | 1, 2 => body2d_H12 lat lon alt VN VE VD roll pitch heading mVX mVY mVZ sd | 1, 3 => body2d_H13 lat lon alt VN VE VD roll pitch heading mVX mVY mVZ sd | 1, 4 => body2d_H14 lat lon alt VN VE VD roll pitch heading mVX mVY mVZ sd | 1, 5 => body2d_H15 lat lon alt VN VE VD roll pitch heading mVX mVY mVZ sd | 1, 6 => body2d_H16 lat lon alt VN VE VD roll pitch heading mVX mVY mVZ sd
  | 2, 0 => body2d_H20 lat lon alt VN VE VD roll pitch heading mVX mVY mVZ sd | 2, 1 => body2d_H21 lat lon alt VN VE VD roll pitch heading mVX mVY mVZ sd | 2, 2 => body2d_H22 lat lon alt VN VE VD roll pitch heading mVX mVY mVZ sd | 2, 3 => body2d_H23 lat lon alt VN VE VD roll pitch heading mVX mVY mVZ sd | 2, 4 => body2d_H24 lat lon alt VN VE VD roll pitch heading mVX mVY mVZ sd | 2, 5 => body2d_H25 lat lon alt VN VE VD roll pitch heading mVX mVY mVZ sd | 2, 6 => body2d_H26 lat lon alt VN VE VD roll pitch heading mVX mVY mVZ sd
  | _, _ => 0%R
  end%nat.

Definition Rm_body2d (lat lon alt VN VE VD roll pitch heading mVX mVY mVZ sd : R) (i j : nat) : R :=
  match i, j with
  | 0, 0 => body2d_R00 lat lon alt VN VE VD roll pitch heading mVX mVY mVZ sd | 0, 1 => body2d_R01 lat lon alt VN VE VD roll pitch heading mVX mVY mVZ sd | 0, 2 => body2d_R02 lat lon alt VN VE VD roll pitch heading mVX mVY mVZ sd
  | 1, 0 => body2d_R10 lat lon alt VN VE VD roll pitch heading mVX mVY mVZ sd | 1, 1 => body2d_R11 lat lon alt VN VE VD roll pitch heading mVX mVY mVZ sd | 1, 2 => body2d_R12 lat lon alt VN VE VD roll pitch heading mVX mVY mVZ sd
  | 2, 0 => body2d_R20 lat lon alt VN VE VD roll pitch heading mVX mVY mVZ sd | 2, 1 => body2d_R21 lat lon alt VN VE VD roll pitch heading mVX mVY mVZ sd | 2, 2 => body2d_R22 lat lon alt VN VE VD roll pitch heading mVX mVY mVZ sd
  | _, _ => 0%R
  end%nat.

Definition Zc_body2d (lat lon alt VN VE VD roll pitch heading mVX mVY mVZ sd x0 x1 x2 x3 x4 x5 x6 : R) (k : nat) (e : R) : R :=
  match k with
  | 0 => on_corrected2d (fun a1 a2 a3 a4 a5 a6 a7 a8 a9 => body2d_z0 a1 a2 a3 a4 a5 a6 a7 a8 a9 mVX mVY mVZ sd) lat lon alt VN VE VD roll pitch heading x0 x1 x2 x3 x4 x5 x6 e
  | 1 => on_corrected2d (fun a1 a2 a3 a4 a5 a6 a7 a8 a9 => body2d_z1 a1 a2 a3 a4 a5 a6 a7 a8 a9 mVX mVY mVZ sd) lat lon alt VN VE VD roll pitch heading x0 x1 x2 x3 x4 x5 x6 e
  | 2 => on_corrected2d (fun a1 a2 a3 a4 a5 a6 a7 a8 a9 => body2d_z2 a1 a2 a3 a4 a5 a6 a7 a8 a9 mVX mVY mVZ sd) lat lon alt VN VE VD roll pitch heading x0 x1 x2 x3 x4 x5 x6 e
  | _ => 0%R
  end%nat.

Definition Hm_body2d_rate (lat lon alt VN VE VD roll pitch heading rate_x rate_y rate_z mVX mVY mVZ sd : R) (i j : nat) : R :=
  match i, j with
  | 0, 0 => body2d_rate_H00 lat lon alt VN VE VD roll pitch heading rate_x rate_y rate_z mVX mVY mVZ sd | 0, 1 => body2d_rate_H01 lat lon alt VN VE VD roll pitch heading rate_x rate_y rate_z mVX mVY mVZ sd | 0, 2 => body2d_rate_H02 lat lon alt VN VE VD roll pitch heading rate_x rate_y rate_z mVX mVY mVZ sd | 0, 3 => body2d_rate_H03 lat lon alt VN VE VD roll pitch heading rate_x rate_y rate_z mVX mVY mVZ sd | 0, 4 => body2d_rate_H04 lat lon alt VN VE VD roll pitch heading rate_x rate_y rate_z mVX mVY mVZ sd | 0, 5 => body2d_rate_H05 lat lon alt VN VE VD roll pitch heading rate_x rate_y rate_z mVX mVY mVZ sd | 0, 6 => body2d_rate_H06 lat lon alt VN VE VD roll pitch heading rate_x rate_y rate_z mVX mVY mVZ sd
  | 1, 0 => body2d_rate_H10 lat lon alt VN VE VD roll pitch heading rate_x rate_y rate_z mVX mVY mVZ sd | 1, 1 => body2d_rate_H11 lat lon alt VN VE VD roll pitch heading rate_x rate_y rate_z mVX mVY mVZ sd | 1, 2 => body2d_rate_H12 lat lon alt VN VE VD roll pitch heading rate_x rate_y rate_z mVX mVY mVZ sd | 1, 3 => body2d_rate_H13 lat lon alt VN VE VD roll pitch heading rate_x rate_y rate_z mVX mVY mVZ sd | 1, 4 => body2d_rate_H14 lat lon alt VN VE VD roll pitch heading rate_x rate_y rate_z mVX mVY mVZ sd | 1, 5 => body2d_rate_H15 lat lon alt VN VE VD roll pitch heading rate_x rate_y rate_z mVX mVY mVZ sd | 1, 6 => body2d_rate_H16 lat lon alt VN VE VD roll pitch heading rate_x rate_y rate_z mVX mVY mVZ sd
  | 2, 0 => body2d_rate_H20 lat lon alt VN VE VD roll pitch heading rate_x rate_y rate_z mVX mVY mVZ sd | 2, 1 => body2d_rate_H21 lat lon alt VN VE VD roll pitch heading rate_x rate_y rate_z mVX mVY mVZ sd | 2, 2 => body2d_rate_H22 lat lon alt VN VE VD roll pitch heading rate_x rate_y rate_z mVX mVY mVZ sd | 2, 3 => body2d_rate_H23 lat lon alt VN VE VD roll pitch heading rate_x rate_y rate_z mVX mVY mVZ sd | 2, 4 => body2d_rate_H24 lat lon alt VN VE VD roll pitch heading rate_x rate_y rate_z mVX mVY mVZ sd | 2, 5 => body2d_rate_H25 lat lon alt VN VE VD roll pitch heading rate_x rate_y rate_z mVX mVY mVZ sd | 2, 6 => body2d_rate_H26 lat lon alt VN VE VD roll pitch heading rate_x rate_y rate_z mVX mVY mVZ sd
  | _, _ => 0%R
  end%nat.

Definition Rm_body2d_rate (lat lon alt VN VE VD roll pitch heading rate_x rate_y rate_z mVX mVY mVZ sd : R) (i j : nat) : R :=
  match i, j with
  | 0, 0 => body2d_rate_R00 lat lon alt VN VE VD roll pitch heading rate_x rate_y rate_z mVX mVY mVZ sd | 0, 1 => body2d_rate_R01 lat lon alt VN VE VD roll pitch heading rate_x rate_y rate_z mVX mVY mVZ sd | 0, 2 => body2d_rate_R02 lat lon alt VN VE VD roll pitch heading rate_x rate_y rate_z mVX mVY mVZ sd
  | 1, 0 => body2d_rate_R10 lat lon alt VN VE VD roll pitch heading rate_x rate_y rate_z mVX mVY mVZ sd | 1, 1 => body2d_rate_R11 lat lon alt VN VE VD roll pitch heading rate_x rate_y rate_z mVX mVY mVZ sd | 1, 2 => body2d_rate_R12 lat lon alt VN VE VD roll pitch heading rate_x rate_y rate_z mVX mVY mVZ sd
  | 2, 0 => body2d_rate_R20 lat lon alt VN VE VD roll pitch heading rate_x rate_y rate_z mVX mVY mVZ sd | 2, 1 => body2d_rate_R21 lat lon alt VN VE VD roll pitch heading rate_x rate_y rate_z mVX mVY mVZ sd | 2, 2 => body2d_rate_R22 lat lon alt VN VE VD roll pitch heading rate_x rate_y rate_z mVX mVY mVZ sd
  | _, _ => 0%R
  end%nat.

Definition Zc_body2d_rate (lat lon alt VN VE VD roll pitch heading rate_x rate_y rate_z mVX mVY mVZ sd x0 x1 x2 x3 x4 x5 x6 : R) (k : nat) (e : R) : R :=
  match k with
  | 0 => on_corrected2d (fun a1 a2 a3 a4 a5 a6 a7 a8 a9 => body2d_rate_z0 a1 a2 a3 a4 a5 a6 a7 a8 a9 rate_x rate_y rate_z mVX mVY mVZ sd) lat lon alt VN VE VD roll pitch heading x0 x1 x2 x3 x4 x5 x6 e
  | 1 => on_corrected2d (fun a1 a2 a3 a4 a5 a6 a7 a8 a9 => body2d_rate_z1 a1 a2 a3 a4 a5 a6 a7 a8 a9 rate_x rate_y rate_z mVX mVY mVZ sd) lat lon alt VN VE VD roll pitch heading x0 x1 x2 x3 x4 x5 x6 e
  | 2 => on_corrected2d (fun a1 a2 a3 a4 a5 a6 a7 a8 a9 => body2d_rate_z2 a1 a2 a3 a4 a5 a6 a7 a8 a9 rate_x rate_y rate_z mVX mVY mVZ sd) lat lon alt VN VE VD roll pitch heading x0 x1 x2 x3 x4 x5 x6 e
  | _ => 0%R
  end%nat.

Create HintDb errstate_meas.
#[global] Hint Unfold pos3d_H00 pos3d_H01 pos3d_H02 pos3d_H03 pos3d_H04 pos3d_H05 pos3d_H06 pos3d_H07 pos3d_H08 pos3d_H10 pos3d_H11 pos3d_H12 pos3d_H13 pos3d_H14 pos3d_H15 pos3d_H16 pos3d_H17 pos3d_H18 pos3d_H20 pos3d_H21 pos3d_H22 pos3d_H23 pos3d_H24 pos3d_H25 pos3d_H26 pos3d_H27 pos3d_H28 pos3d_R00 pos3d_R01 pos3d_R02 pos3d_R10 pos3d_R11 pos3d_R12 pos3d_R20 pos3d_R21 pos3d_R22 pos3d_z0 pos3d_z1 pos3d_z2 : errstate_meas.
#[global] Hint Unfold pos3d_l_H00 pos3d_l_H01 pos3d_l_H02 pos3d_l_H03 pos3d_l_H04 pos3d_l_H05 pos3d_l_H06 pos3d_l_H07 pos3d_l_H08 pos3d_l_H10 pos3d_l_H11 pos3d_l_H12 pos3d_l_H13 pos3d_l_H14 pos3d_l_H15 pos3d_l_H16 pos3d_l_H17 pos3d_l_H18 pos3d_l_H20 pos3d_l_H21 pos3d_l_H22 pos3d_l_H23 pos3d_l_H24 pos3d_l_H25 pos3d_l_H26 pos3d_l_H27 pos3d_l_H28 pos3d_l_R00 pos3d_l_R01 pos3d_l_R02 pos3d_l_R10 pos3d_l_R11 pos3d_l_R12 pos3d_l_R20 pos3d_l_R21 pos3d_l_R22 pos3d_l_z0 pos3d_l_z1 pos3d_l_z2 : errstate_meas.
#[global] Hint Unfold ned3d_H00 ned3d_H01 ned3d_H02 ned3d_H03 ned3d_H04 ned3d_H05 ned3d_H06 ned3d_H07 ned3d_H08 ned3d_H10 ned3d_H11 ned3d_H12 ned3d_H13 ned3d_H14 ned3d_H15 ned3d_H16 ned3d_H17 ned3d_H18 ned3d_H20 ned3d_H21 ned3d_H22 ned3d_H23 ned3d_H24 ned3d_H25 ned3d_H26 ned3d_H27 ned3d_H28 ned3d_R00 ned3d_R01 ned3d_R02 ned3d_R10 ned3d_R11 ned3d_R12 ned3d_R20 ned3d_R21 ned3d_R22 ned3d_z0 ned3d_z1 ned3d_z2 : errstate_meas.
#[global] Hint Unfold ned3d_rate_H00 ned3d_rate_H01 ned3d_rate_H02 ned3d_rate_H03 ned3d_rate_H04 ned3d_rate_H05 ned3d_rate_H06 ned3d_rate_H07 ned3d_rate_H08 ned3d_rate_H10 ned3d_rate_H11 ned3d_rate_H12 ned3d_rate_H13 ned3d_rate_H14 ned3d_rate_H15 ned3d_rate_H16 ned3d_rate_H17 ned3d_rate_H18 ned3d_rate_H20 ned3d_rate_H21 ned3d_rate_H22 ned3d_rate_H23 ned3d_rate_H24 ned3d_rate_H25 ned3d_rate_H26 ned3d_rate_H27 ned3d_rate_H28 ned3d_rate_R00 ned3d_rate_R01 ned3d_rate_R02 ned3d_rate_R10 ned3d_rate_R11 ned3d_rate_R12 ned3d_rate_R20 ned3d_rate_R21 ned3d_rate_R22 ned3d_rate_z0 ned3d_rate_z1 ned3d_rate_z2 : errstate_meas.
#[global] Hint Unfold ned3d_l_H00 ned3d_l_H01 ned3d_l_H02 ned3d_l_H03 ned3d_l_H04 ned3d_l_H05 ned3d_l_H06 ned3d_l_H07 ned3d_l_H08 ned3d_l_H10 ned3d_l_H11 ned3d_l_H12 ned3d_l_H13 ned3d_l_H14 ned3d_l_H15 ned3d_l_H16 ned3d_l_H17 ned3d_l_H18 ned3d_l_H20 ned3d_l_H21 ned3d_l_H22 ned3d_l_H23 ned3d_l_H24 ned3d_l_H25 ned3d_l_H26 ned3d_l_H27 ned3d_l_H28 ned3d_l_R00 ned3d_l_R01 ned3d_l_R02 ned3d_l_R10 ned3d_l_R11 ned3d_l_R12 ned3d_l_R20 ned3d_l_R21 ned3d_l_R22 ned3d_l_z0 ned3d_l_z1 ned3d_l_z2 : errstate_meas.
#[global] Hint Unfold ned3d_l_norate_H00 ned3d_l_norate_H01 ned3d_l_norate_H02 ned3d_l_norate_H03 ned3d_l_norate_H04 ned3d_l_norate_H05 ned3d_l_norate_H06 ned3d_l_norate_H07 ned3d_l_norate_H08 ned3d_l_norate_H10 ned3d_l_norate_H11 ned3d_l_norate_H12 ned3d_l_norate_H13 ned3d_l_norate_H14 ned3d_l_norate_H15 ned3d_l_norate_H16 ned3d_l_norate_H17 ned3d_l_norate_H18 ned3d_l_norate_H20 ned3d_l_norate_H21 ned3d_l_norate_H22 ned3d_l_norate_H23 ned3d_l_norate_H24 ned3d_l_norate_H25 ned3d_l_norate_H26 ned3d_l_norate_H27 ned3d_l_norate_H28 ned3d_l_norate_R00 ned3d_l_norate_R01 ned3d_l_norate_R02 ned3d_l_norate_R10 ned3d_l_norate_R11 ned3d_l_norate_R12 ned3d_l_norate_R20 ned3d_l_norate_R21 ned3d_l_norate_R22 ned3d_l_norate_z0 ned3d_l_norate_z1 ned3d_l_norate_z2 : errstate_meas.
#[global] Hint Unfold body3d_H00 body3d_H01 body3d_H02 body3d_H03 body3d_H04 body3d_H05 body3d_H06 body3d_H07 body3d_H08 body3d_H10 body3d_H11 body3d_H12 body3d_H13 body3d_H14 body3d_H15 body3d_H16 body3d_H17 body3d_H18 body3d_H20 body3d_H21 body3d_H22 body3d_H23 body3d_H24 body3d_H25 body3d_H26 body3d_H27 body3d_H28 body3d_R00 body3d_R01 body3d_R02 body3d_R10 body3d_R11 body3d_R12 body3d_R20 body3d_R21 body3d_R22 body3d_z0 body3d_z1 body3d_z2 : errstate_meas.
#[global] Hint Unfold body3d_rate_H00 body3d_rate_H01 body3d_rate_H02 body3d_rate_H03 body3d_rate_H04 body3d_rate_H05 body3d_rate_H06 body3d_rate_H07 body3d_rate_H08 body3d_rate_H10 body3d_rate_H11 body3d_rate_H12 body3d_rate_H13 body3d_rate_H14 body3d_rate_H15 body3d_rate_H16 body3d_rate_H17 body3d_rate_H18 body3d_rate_H20 body3d_rate_H21 body3d_rate_H22 body3d_rate_H23 body3d_rate_H24 body3d_rate_H25 body3d_rate_H26 body3d_rate_H27 body3d_rate_H28 body3d_rate_R00 body3d_rate_R01 body3d_rate_R02 body3d_rate_R10 body3d_rate_R11 body3d_rate_R12 body3d_rate_R20 body3d_rate_R21 body3d_rate_R22 body3d_rate_z0 body3d_rate_z1 body3d_rate_z2 : errstate_meas.
#[global] Hint Unfold pos2d_H00 pos2d_H01 pos2d_H02 pos2d_H03 pos2d_H04 pos2d_H05 pos2d_H06 pos2d_H10 pos2d_H11 pos2d_H12 pos2d_H13 pos2d_H14 pos2d_H15 pos2d_H16 pos2d_R00 pos2d_R01 pos2d_R10 pos2d_R11 pos2d_z0 pos2d_z1 : errstate_meas.
#[global] Hint Unfold pos2d_l_H00 pos2d_l_H01 pos2d_l_H02 pos2d_l_H03 pos2d_l_H04 pos2d_l_H05 pos2d_l_H06 pos2d_l_H10 pos2d_l_H11 pos2d_l_H12 pos2d_l_H13 pos2d_l_H14 pos2d_l_H15 pos2d_l_H16 pos2d_l_R00 pos2d_l_R01 pos2d_l_R10 pos2d_l_R11 pos2d_l_z0 pos2d_l_z1 : errstate_meas.
#[global] Hint Unfold ned2d_H00 ned2d_H01 ned2d_H02 ned2d_H03 ned2d_H04 ned2d_H05 ned2d_H06 ned2d_H10 ned2d_H11 ned2d_H12 ned2d_H13 ned2d_H14 ned2d_H15 ned2d_H16 ned2d_R00 ned2d_R01 ned2d_R10 ned2d_R11 ned2d_z0 ned2d_z1 : errstate_meas.
#[global] Hint Unfold ned2d_rate_H00 ned2d_rate_H01 ned2d_rate_H02 ned2d_rate_H03 ned2d_rate_H04 ned2d_rate_H05 ned2d_rate_H06 ned2d_rate_H10 ned2d_rate_H11 ned2d_rate_H12 ned2d_rate_H13 ned2d_rate_H14 ned2d_rate_H15 ned2d_rate_H16 ned2d_rate_R00 ned2d_rate_R01 ned2d_rate_R10 ned2d_rate_R11 ned2d_rate_z0 ned2d_rate_z1 : errstate_meas.
#[global] Hint Unfold ned2d_l_H00 ned2d_l_H01 ned2d_l_H02 ned2d_l_H03 ned2d_l_H04 ned2d_l_H05 ned2d_l_H06 ned2d_l_H10 ned2d_l_H11 ned2d_l_H12 ned2d_l_H13 ned2d_l_H14 ned2d_l_H15 ned2d_l_H16 ned2d_l_R00 ned2d_l_R01 ned2d_l_R10 ned2d_l_R11 ned2d_l_z0 ned2d_l_z1 : errstate_meas.
#[global] Hint Unfold ned2d_l_norate_H00 ned2d_l_norate_H01 ned2d_l_norate_H02 ned2d_l_norate_H03 ned2d_l_norate_H04 ned2d_l_norate_H05 ned2d_l_norate_H06 ned2d_l_norate_H10 ned2d_l_norate_H11 ned2d_l_norate_H12 ned2d_l_norate_H13 ned2d_l_norate_H14 ned2d_l_norate_H15 ned2d_l_norate_H16 ned2d_l_norate_R00 ned2d_l_norate_R01 ned2d_l_norate_R10 ned2d_l_norate_R11 ned2d_l_norate_z0 ned2d_l_norate_z1 : errstate_meas.
#[global] Hint Unfold body2d_H00 body2d_H01 body2d_H02 body2d_H03 body2d_H04 body2d_H05 body2d_H06 body2d_H10 body2d_H11 body2d_H12 body2d_H13 body2d_H14 body2d_H15 body2d_H16 body2d_H20 body2d_H21 body2d_H22 body2d_H23 body2d_H24 body2d_H25 body2d_H26 body2d_R00 body2d_R01 body2d_R02 body2d_R10 body2d_R11 body2d_R12 body2d_R20 body2d_R21 body2d_R22 body2d_z0 body2d_z1 body2d_z2 : errstate_meas.
#[global] Hint Unfold body2d_rate_H00 body2d_rate_H01 body2d_rate_H02 body2d_rate_H03 body2d_rate_H04 body2d_rate_H05 body2d_rate_H06 body2d_rate_H10 body2d_rate_H11 body2d_rate_H12 body2d_rate_H13 body2d_rate_H14 body2d_rate_H15 body2d_rate_H16 body2d_rate_H20 body2d_rate_H21 body2d_rate_H22 body2d_rate_H23 body2d_rate_H24 body2d_rate_H25 body2d_rate_H26 body2d_rate_R00 body2d_rate_R01 body2d_rate_R02 body2d_rate_R10 body2d_rate_R11 body2d_rate_R12 body2d_rate_R20 body2d_rate_R21 body2d_rate_R22 body2d_rate_z0 body2d_rate_z1 body2d_rate_z2 : errstate_meas.

(** ** F.1  residual form (sign and units) *)

(* one entry of a residual against the predicted quantity written with Cnb, vec3, cross3, lla_diff:
   both sides unfolded down to the arguments, then [ring] *)
Ltac residual_form :=
  intros k Hk; idx k; autounfold with errstate_meas;
  autounfold with pos3d_db pos3d_l_db ned3d_db ned3d_rate_db ned3d_l_db ned3d_l_norate_db body3d_db body3d_rate_db
    pos2d_db pos2d_l_db ned2d_db ned2d_rate_db ned2d_l_db ned2d_l_norate_db body2d_db body2d_rate_db;
  cbv [Cnb vec3 cross3 mtvec3 mvec sumN lla_diff];
  unfold mat_from_rph_m00, mat_from_rph_m01, mat_from_rph_m02, mat_from_rph_m10, mat_from_rph_m11,
    mat_from_rph_m12, mat_from_rph_m20, mat_from_rph_m21, mat_from_rph_m22,
    compute_lla_difference_d0, compute_lla_difference_d1, compute_lla_difference_d2;
  autounfold with mat_from_rph_db compute_lla_difference_db; lra.

Lemma residual_form_pos3d lat lon alt VN VE VD roll pitch heading mlat mlon malt sd : forall k, (k < 3)%nat ->
  (match k with | 0 => pos3d_z0 lat lon alt VN VE VD roll pitch heading mlat mlon malt sd | 1 => pos3d_z1 lat lon alt VN VE VD roll pitch heading mlat mlon malt sd | 2 => pos3d_z2 lat lon alt VN VE VD roll pitch heading mlat mlon malt sd | _ => 0%R end)%nat = lla_diff lat lon alt mlat mlon malt k.
Proof.
  residual_form.
Qed.

Lemma residual_form_pos3d_l lat lon alt VN VE VD roll pitch heading mlat mlon malt l0 l1 l2 sd : forall k, (k < 3)%nat ->
  (match k with | 0 => pos3d_l_z0 lat lon alt VN VE VD roll pitch heading mlat mlon malt l0 l1 l2 sd | 1 => pos3d_l_z1 lat lon alt VN VE VD roll pitch heading mlat mlon malt l0 l1 l2 sd | 2 => pos3d_l_z2 lat lon alt VN VE VD roll pitch heading mlat mlon malt l0 l1 l2 sd | _ => 0%R end)%nat = lla_diff lat lon alt mlat mlon malt k + mvec 3 (Cnb roll pitch heading) (vec3 l0 l1 l2) k.
Proof.
  residual_form.
Qed.

Lemma residual_form_ned3d lat lon alt VN VE VD roll pitch heading mVN mVE mVD sd : forall k, (k < 3)%nat ->
  (match k with | 0 => ned3d_z0 lat lon alt VN VE VD roll pitch heading mVN mVE mVD sd | 1 => ned3d_z1 lat lon alt VN VE VD roll pitch heading mVN mVE mVD sd | 2 => ned3d_z2 lat lon alt VN VE VD roll pitch heading mVN mVE mVD sd | _ => 0%R end)%nat = vec3 VN VE VD k - vec3 mVN mVE mVD k.
Proof.
  residual_form.
Qed.

Lemma residual_form_ned3d_l lat lon alt VN VE VD roll pitch heading rate_x rate_y rate_z mVN mVE mVD l0 l1 l2 sd : forall k, (k < 3)%nat ->
  (match k with | 0 => ned3d_l_z0 lat lon alt VN VE VD roll pitch heading rate_x rate_y rate_z mVN mVE mVD l0 l1 l2 sd | 1 => ned3d_l_z1 lat lon alt VN VE VD roll pitch heading rate_x rate_y rate_z mVN mVE mVD l0 l1 l2 sd | 2 => ned3d_l_z2 lat lon alt VN VE VD roll pitch heading rate_x rate_y rate_z mVN mVE mVD l0 l1 l2 sd | _ => 0%R end)%nat = vec3 VN VE VD k + mvec 3 (Cnb roll pitch heading) (cross3 (vec3 rate_x rate_y rate_z) (vec3 l0 l1 l2)) k - vec3 mVN mVE mVD k.
Proof.
  residual_form.
Qed.

Lemma residual_form_body3d lat lon alt VN VE VD roll pitch heading mVX mVY mVZ sd : forall k, (k < 3)%nat ->
  (match k with | 0 => body3d_z0 lat lon alt VN VE VD roll pitch heading mVX mVY mVZ sd | 1 => body3d_z1 lat lon alt VN VE VD roll pitch heading mVX mVY mVZ sd | 2 => body3d_z2 lat lon alt VN VE VD roll pitch heading mVX mVY mVZ sd | _ => 0%R end)%nat = mtvec3 (Cnb roll pitch heading) (vec3 VN VE VD) k - vec3 mVX mVY mVZ k.
Proof.
  residual_form.
Qed.

Lemma residual_form_pos2d lat lon alt VN VE VD roll pitch heading mlat mlon malt sd : forall k, (k < 2)%nat ->
  (match k with | 0 => pos2d_z0 lat lon alt VN VE VD roll pitch heading mlat mlon malt sd | 1 => pos2d_z1 lat lon alt VN VE VD roll pitch heading mlat mlon malt sd | _ => 0%R end)%nat = lla_diff lat lon alt mlat mlon malt k.
Proof.
  residual_form.
Qed.

Lemma residual_form_pos2d_l lat lon alt VN VE VD roll pitch heading mlat mlon malt l0 l1 l2 sd : forall k, (k < 2)%nat ->
  (match k with | 0 => pos2d_l_z0 lat lon alt VN VE VD roll pitch heading mlat mlon malt l0 l1 l2 sd | 1 => pos2d_l_z1 lat lon alt VN VE VD roll pitch heading mlat mlon malt l0 l1 l2 sd | _ => 0%R end)%nat = lla_diff lat lon alt mlat mlon malt k + mvec 3 (Cnb roll pitch heading) (vec3 l0 l1 l2) k.
Proof.
  residual_form.
Qed.

Lemma residual_form_ned2d lat lon alt VN VE VD roll pitch heading mVN mVE mVD sd : forall k, (k < 2)%nat ->
  (match k with | 0 => ned2d_z0 lat lon alt VN VE VD roll pitch heading mVN mVE mVD sd | 1 => ned2d_z1 lat lon alt VN VE VD roll pitch heading mVN mVE mVD sd | _ => 0%R end)%nat = vec3 VN VE VD k - vec3 mVN mVE mVD k.
Proof.
  residual_form.
Qed.

Lemma residual_form_ned2d_l lat lon alt VN VE VD roll pitch heading rate_x rate_y rate_z mVN mVE mVD l0 l1 l2 sd : forall k, (k < 2)%nat ->
  (match k with | 0 => ned2d_l_z0 lat lon alt VN VE VD roll pitch heading rate_x rate_y rate_z mVN mVE mVD l0 l1 l2 sd | 1 => ned2d_l_z1 lat lon alt VN VE VD roll pitch heading rate_x rate_y rate_z mVN mVE mVD l0 l1 l2 sd | _ => 0%R end)%nat = vec3 VN VE VD k + mvec 3 (Cnb roll pitch heading) (cross3 (vec3 rate_x rate_y rate_z) (vec3 l0 l1 l2)) k - vec3 mVN mVE mVD k.
Proof.
  residual_form.
Qed.

Lemma residual_form_body2d lat lon alt VN VE VD roll pitch heading mVX mVY mVZ sd : forall k, (k < 3)%nat ->
  (match k with | 0 => body2d_z0 lat lon alt VN VE VD roll pitch heading mVX mVY mVZ sd | 1 => body2d_z1 lat lon alt VN VE VD roll pitch heading mVX mVY mVZ sd | 2 => body2d_z2 lat lon alt VN VE VD roll pitch heading mVX mVY mVZ sd | _ => 0%R end)%nat = mtvec3 (Cnb roll pitch heading) (vec3 VN VE VD) k - vec3 mVX mVY mVZ k.
Proof.
  residual_form.
Qed.


(** ** F.2  H is the Jacobian of the residual under the library's own correction: velocity classes
    d/de z(correct_pva(pva, e x)) at 0 = - H x, for every measured value, lever arm, body rate. *)

(** velocity-class residuals along curves of velocity and attitude *)
Section MeasCurves.
Variables (vn ve vd r p h : R -> R) (dv : nat -> R) (r0 p0 h0 a b c : R).
Hypothesis Dvn : is_derive vn 0 (dv 0%nat).
Hypothesis Dve : is_derive ve 0 (dv 1%nat).
Hypothesis Dvd : is_derive vd 0 (dv 2%nat).
Hypothesis att0 : r 0 = r0 /\ p 0 = p0 /\ h 0 = h0.
Hypothesis DC : forall i j, is_derive (fun e => Cnb (r e) (p e) (h e) i j) 0
                              (mmul 3 (skew3 a b c) (Cnb r0 p0 h0) i j).

Lemma vec3_curve k : is_derive (fun e => vec3 (vn e) (ve e) (vd e) k) 0 (vec3 (dv 0%nat) (dv 1%nat) (dv 2%nat) k).
Proof. idx3 k; cbv [vec3]; first [assumption | exact (@is_derive_const R_AbsRing R_NormedModule 0 0)]. Qed.

Lemma vel_curve m k : is_derive (fun e => vec3 (vn e) (ve e) (vd e) k - m) 0 (vec3 (dv 0%nat) (dv 1%nat) (dv 2%nat) k).
Proof. apply is_derive_minus_const, vec3_curve. Qed.

Lemma ned_curve (w : nat -> R) m k :
  is_derive (fun e => vec3 (vn e) (ve e) (vd e) k + mvec 3 (Cnb (r e) (p e) (h e)) w k - m) 0
    (vec3 (dv 0%nat) (dv 1%nat) (dv 2%nat) k + mvec 3 (mmul 3 (skew3 a b c) (Cnb r0 p0 h0)) w k).
Proof.
  cbv [mvec sumN].
  pose (v := fun e => vec3 (vn e) (ve e) (vd e) k).
  pose (c0 := fun e => Cnb (r e) (p e) (h e) k 0%nat).
  pose (c1 := fun e => Cnb (r e) (p e) (h e) k 1%nat).
  pose (c2 := fun e => Cnb (r e) (p e) (h e) k 2%nat).
  assert (Hv : is_derive v 0 _) by exact (vec3_curve k).
  assert (C0 : is_derive c0 0 _) by exact (DC k 0%nat).
  assert (C1 : is_derive c1 0 _) by exact (DC k 1%nat).
  assert (C2 : is_derive c2 0 _) by exact (DC k 2%nat).
  change (is_derive (fun e => v e + (0 + c0 e * w 0%nat + c1 e * w 1%nat + c2 e * w 2%nat) - m) 0
            (vec3 (dv 0%nat) (dv 1%nat) (dv 2%nat) k +
             (0 + mmul 3 (skew3 a b c) (Cnb r0 p0 h0) k 0%nat * w 0%nat
                + mmul 3 (skew3 a b c) (Cnb r0 p0 h0) k 1%nat * w 1%nat
                + mmul 3 (skew3 a b c) (Cnb r0 p0 h0) k 2%nat * w 2%nat))).
  auto_derive; [repeat split; eexists; eassumption|].
  derive_val Hv. derive_val C0. derive_val C1. derive_val C2. ring.
Qed.

Lemma body_curve m k :
  is_derive (fun e => mtvec3 (Cnb (r e) (p e) (h e)) (vec3 (vn e) (ve e) (vd e)) k - m) 0
    (mtvec3 (mmul 3 (skew3 a b c) (Cnb r0 p0 h0)) (vec3 (vn 0) (ve 0) (vd 0)) k
     + mtvec3 (Cnb r0 p0 h0) (vec3 (dv 0%nat) (dv 1%nat) (dv 2%nat)) k).
Proof.
  cbv [mtvec3 vec3].
  pose (c0 := fun e => Cnb (r e) (p e) (h e) 0%nat k).
  pose (c1 := fun e => Cnb (r e) (p e) (h e) 1%nat k).
  pose (c2 := fun e => Cnb (r e) (p e) (h e) 2%nat k).
  assert (C0 : is_derive c0 0 _) by exact (DC 0%nat k).
  assert (C1 : is_derive c1 0 _) by exact (DC 1%nat k).
  assert (C2 : is_derive c2 0 _) by exact (DC 2%nat k).
  apply (is_derive_ext (fun e => (0 + c0 e * vn e + c1 e * ve e + c2 e * vd e) - m)); [intro; unfold c0, c1, c2; eqR; ring|].
  evar_last; [apply is_derive_minus_const; exact (dot3_derive c0 c1 c2 vn ve vd _ _ _ _ _ _ C0 C1 C2 Dvn Dve Dvd)|].
  unfold c0, c1, c2. destruct att0 as [-> [-> ->]]. ring.
Qed.
End MeasCurves.

(** the attitude matrix of the corrected state: d/de at 0 is skew(x6, x7, x8) C_nb, in both modes *)
Lemma corr3_Cnb lat lon alt VN VE VD roll pitch heading x0 x1 x2 x3 x4 x5 x6 x7 x8 :
  -180 < roll < 180 -> -90 < pitch < 90 -> -180 < heading < 180 ->
  let A3 := fun f => along3 f lat lon alt VN VE VD roll pitch heading x0 x1 x2 x3 x4 x5 x6 x7 x8 in
  forall i j,
  is_derive (fun e => Cnb (A3 correct3d_roll e) (A3 correct3d_pitch e) (A3 correct3d_heading e) i j) 0
    (mmul 3 (skew3 x6 x7 x8) (Cnb roll pitch heading) i j).
Proof.
  intros Hroll Hpitch Hheading A3 i j.
  pose proof (corr3_att lat lon alt VN VE VD roll pitch heading x0 x1 x2 x3 x4 x5 x6 x7 x8 Hroll Hpitch Hheading) as Da.
  pose proof (Cnb_derive (A3 correct3d_roll) (A3 correct3d_pitch) (A3 correct3d_heading) _ _ _ i j
    (Da 0%nat ltac:(lia)) (Da 1%nat ltac:(lia)) (Da 2%nat ltac:(lia))) as H.
  destruct (corr3_at0 lat lon alt VN VE VD roll pitch heading x0 x1 x2 x3 x4 x5 x6 x7 x8 Hroll Hpitch Hheading)
    as [_ [_ [_ [_ [_ [_ [Vr [Vp Vh]]]]]]]].
  assert (Hc : cos (pitch * (PI / 180)) <> 0) by (apply Rgt_not_eq, cos_d2r_pos, Hpitch).
  cbv zeta in H. unfold A3 in *. rewrite Vr, Vp, Vh, !Tout3_vec in H. cbv [vec9 Nat.add] in H.
  rewrite !(att_rate_corr pitch heading x6 x7 x8 _ Hc) in H. exact H.
Qed.

Lemma corr2_Cnb lat lon alt VN VE VD roll pitch heading x0 x1 x2 x3 x4 x5 x6 :
  -180 < roll < 180 -> -90 < pitch < 90 -> -180 < heading < 180 ->
  let A2 := fun f => along2 f lat lon alt VN VE VD roll pitch heading x0 x1 x2 x3 x4 x5 x6 in
  forall i j,
  is_derive (fun e => Cnb (A2 correct2d_roll e) (A2 correct2d_pitch e) (A2 correct2d_heading e) i j) 0
    (mmul 3 (skew3 x4 x5 x6) (Cnb roll pitch heading) i j).
Proof.
  intros Hroll Hpitch Hheading A2 i j.
  pose proof (corr2_att lat lon alt VN VE VD roll pitch heading x0 x1 x2 x3 x4 x5 x6 Hroll Hpitch Hheading) as Da.
  pose proof (Cnb_derive (A2 correct2d_roll) (A2 correct2d_pitch) (A2 correct2d_heading) _ _ _ i j
    (Da 0%nat ltac:(lia)) (Da 1%nat ltac:(lia)) (Da 2%nat ltac:(lia))) as H.
  destruct (corr2_at0 lat lon alt VN VE VD roll pitch heading x0 x1 x2 x3 x4 x5 x6 Hroll Hpitch Hheading)
    as [_ [_ [_ [_ [_ [_ [Vr [Vp Vh]]]]]]]].
  assert (Hc : cos (pitch * (PI / 180)) <> 0) by (apply Rgt_not_eq, cos_d2r_pos, Hpitch).
  cbv zeta in H. unfold A2 in *. rewrite Vr, Vp, Vh, !Tout2_vec in H. cbv [vec9 Nat.add] in H.
  rewrite !(att_rate_corr pitch heading x4 x5 x6 _ Hc) in H. exact H.
Qed.

(** two configurations with the same residual and equal H have the same Jacobian statement *)
Lemma jacobian_same_model n r (Z Z' : nat -> R -> R) (H H' : mat) x :
  (forall k, (k < r)%nat -> forall e, Z k e = Z' k e) -> meq r n H H' ->
  (forall k, (k < r)%nat -> is_derive (Z' k) 0 (- mvec n H' x k)) ->
  forall k, (k < r)%nat -> is_derive (Z k) 0 (- mvec n H x k).
Proof.
  intros HZ HH HD k Hk. rewrite (mvec_ext n H H' x k (fun j Hj => HH k j Hk Hj)).
  apply (is_derive_ext (Z' k)); [intro e; symmetry; apply HZ, Hk | apply HD, Hk].
Qed.
(** the value of the derivative in the Jacobian statements below, after the generated H entries are unfolded: a polynomial
    identity in x and the six trigonometric values of the attitude.  [at0]: the corrected state at e = 0; [dv], [Tx], [A]:
    the section's abbreviations (velocity rates, T_out x, the corrected components along the ray) *)
Ltac jac_value at0 dv Tx A :=
  pose proof at0 as V0; destruct V0 as [_ [_ [_ [VVN [VVE [VVD [Vr [Vp Vh]]]]]]]]; unfold dv, Tx, A in *;
  rewrite ?Vr, ?Vp, ?Vh, ?VVN, ?VVE, ?VVD, ?Tout3_vec, ?Tout2_vec;
  cbv [mtvec3 mmul mvec sumN skew3 cross3 vec3 vec7 vec9 Nat.add]; rewrite ?Cnb_trig; cbv [Rzyx]; lra.

Section Meas3D.
Variables lat lon alt VN VE VD roll pitch heading : R.
Variables x0 x1 x2 x3 x4 x5 x6 x7 x8 : R.
Variables rate_x rate_y rate_z l0 l1 l2 sd mlat mlon malt mVN mVE mVD mVX mVY mVZ : R.
Hypothesis Hroll : -180 < roll < 180.
Hypothesis Hpitch : -90 < pitch < 90.
Hypothesis Hheading : -180 < heading < 180.

Let A3 (f : R -> R -> R -> R -> R -> R -> R -> R -> R -> R -> R -> R -> R -> R -> R -> R -> R -> R -> R) :=
  along3 f lat lon alt VN VE VD roll pitch heading x0 x1 x2 x3 x4 x5 x6 x7 x8.
Let Tx := mvec 9 (Tout3 lat lon alt VN VE VD roll pitch heading) (vec9 x0 x1 x2 x3 x4 x5 x6 x7 x8).
Let dv (i : nat) := - Tx (3 + i)%nat.

Let at0 := corr3_at0 lat lon alt VN VE VD roll pitch heading x0 x1 x2 x3 x4 x5 x6 x7 x8 Hroll Hpitch Hheading.
Let DVN : is_derive (A3 correct3d_VN) 0 (dv 0) := corr3_VN lat lon alt VN VE VD roll pitch heading x0 x1 x2 x3 x4 x5 x6 x7 x8.
Let DVE : is_derive (A3 correct3d_VE) 0 (dv 1) := corr3_VE lat lon alt VN VE VD roll pitch heading x0 x1 x2 x3 x4 x5 x6 x7 x8.
Let DVD : is_derive (A3 correct3d_VD) 0 (dv 2) := corr3_VD lat lon alt VN VE VD roll pitch heading x0 x1 x2 x3 x4 x5 x6 x7 x8.
Let att0 := proj2 (proj2 (proj2 (proj2 (proj2 (proj2 at0))))).
Let DC := corr3_Cnb lat lon alt VN VE VD roll pitch heading x0 x1 x2 x3 x4 x5 x6 x7 x8 Hroll Hpitch Hheading.

Lemma H_is_jacobian_ned3d : forall k, (k < 3)%nat ->
  is_derive (Zc_ned3d lat lon alt VN VE VD roll pitch heading mVN mVE mVD sd x0 x1 x2 x3 x4 x5 x6 x7 x8 k) 0
    (- mvec 9 (Hm_ned3d lat lon alt VN VE VD roll pitch heading mVN mVE mVD sd) (vec9 x0 x1 x2 x3 x4 x5 x6 x7 x8) k).
Proof.
  intros k Hk.
  apply (is_derive_ext (fun e => vec3 (A3 correct3d_VN e) (A3 correct3d_VE e) (A3 correct3d_VD e) k - vec3 mVN mVE mVD k)).
  { intro e. symmetry. exact (residual_form_ned3d _ _ _ _ _ _ _ _ _ mVN mVE mVD sd k Hk). }
  evar_last; [exact (vel_curve _ _ _ dv DVN DVE DVD _ k)|].
  idx k; unfold Hm_ned3d; autounfold with errstate_meas; autounfold with ned3d_db; jac_value at0 dv Tx A3.
Qed.

Lemma H_is_jacobian_ned3d_l : forall k, (k < 3)%nat ->
  is_derive (Zc_ned3d_l lat lon alt VN VE VD roll pitch heading rate_x rate_y rate_z mVN mVE mVD l0 l1 l2 sd x0 x1 x2 x3 x4 x5 x6 x7 x8 k) 0
    (- mvec 9 (Hm_ned3d_l lat lon alt VN VE VD roll pitch heading rate_x rate_y rate_z mVN mVE mVD l0 l1 l2 sd) (vec9 x0 x1 x2 x3 x4 x5 x6 x7 x8) k).
Proof.
  intros k Hk.
  apply (is_derive_ext (fun e => vec3 (A3 correct3d_VN e) (A3 correct3d_VE e) (A3 correct3d_VD e) k
           + mvec 3 (Cnb (A3 correct3d_roll e) (A3 correct3d_pitch e) (A3 correct3d_heading e))
                    (cross3 (vec3 rate_x rate_y rate_z) (vec3 l0 l1 l2)) k - vec3 mVN mVE mVD k)).
  { intro e. symmetry. exact (residual_form_ned3d_l _ _ _ _ _ _ _ _ _ rate_x rate_y rate_z mVN mVE mVD l0 l1 l2 sd k Hk). }
  evar_last; [exact (ned_curve _ _ _ _ _ _ dv _ _ _ x6 x7 x8 DVN DVE DVD DC _ _ k)|].
  idx k; unfold Hm_ned3d_l; autounfold with errstate_meas; autounfold with ned3d_l_db; jac_value at0 dv Tx A3.
Qed.

Lemma H_is_jacobian_body3d : forall k, (k < 3)%nat ->
  is_derive (Zc_body3d lat lon alt VN VE VD roll pitch heading mVX mVY mVZ sd x0 x1 x2 x3 x4 x5 x6 x7 x8 k) 0
    (- mvec 9 (Hm_body3d lat lon alt VN VE VD roll pitch heading mVX mVY mVZ sd) (vec9 x0 x1 x2 x3 x4 x5 x6 x7 x8) k).
Proof.
  intros k Hk.
  apply (is_derive_ext (fun e => mtvec3 (Cnb (A3 correct3d_roll e) (A3 correct3d_pitch e) (A3 correct3d_heading e))
                                   (vec3 (A3 correct3d_VN e) (A3 correct3d_VE e) (A3 correct3d_VD e)) k - vec3 mVX mVY mVZ k)).
  { intro e. symmetry. exact (residual_form_body3d _ _ _ _ _ _ _ _ _ mVX mVY mVZ sd k Hk). }
  evar_last; [exact (body_curve _ _ _ _ _ _ dv _ _ _ x6 x7 x8 DVN DVE DVD att0 DC _ k)|].
  idx k; unfold Hm_body3d; autounfold with errstate_meas; autounfold with body3d_db; jac_value at0 dv Tx A3.
Qed.

End Meas3D.

Section Meas2D.
Variables lat lon alt VN VE VD roll pitch heading : R.
Variables x0 x1 x2 x3 x4 x5 x6 : R.
Variables rate_x rate_y rate_z l0 l1 l2 sd mlat mlon malt mVN mVE mVD mVX mVY mVZ : R.
Hypothesis Hroll : -180 < roll < 180.
Hypothesis Hpitch : -90 < pitch < 90.
Hypothesis Hheading : -180 < heading < 180.

Let A2 (f : R -> R -> R -> R -> R -> R -> R -> R -> R -> R -> R -> R -> R -> R -> R -> R -> R) :=
  along2 f lat lon alt VN VE VD roll pitch heading x0 x1 x2 x3 x4 x5 x6.
Let Tx := mvec 7 (Tout2 lat lon alt VN VE VD roll pitch heading) (vec7 x0 x1 x2 x3 x4 x5 x6).
Let dv (i : nat) := - Tx (3 + i)%nat.

Let at0 := corr2_at0 lat lon alt VN VE VD roll pitch heading x0 x1 x2 x3 x4 x5 x6 Hroll Hpitch Hheading.
Let DVN : is_derive (A2 correct2d_VN) 0 (dv 0) := corr2_VN lat lon alt VN VE VD roll pitch heading x0 x1 x2 x3 x4 x5 x6.
Let DVE : is_derive (A2 correct2d_VE) 0 (dv 1) := corr2_VE lat lon alt VN VE VD roll pitch heading x0 x1 x2 x3 x4 x5 x6.
Let DVD : is_derive (A2 correct2d_VD) 0 (dv 2) := corr2_VD lat lon alt VN VE VD roll pitch heading x0 x1 x2 x3 x4 x5 x6.
Let att0 := proj2 (proj2 (proj2 (proj2 (proj2 (proj2 at0))))).
Let DC := corr2_Cnb lat lon alt VN VE VD roll pitch heading x0 x1 x2 x3 x4 x5 x6 Hroll Hpitch Hheading.

Lemma H_is_jacobian_ned2d : forall k, (k < 2)%nat ->
  is_derive (Zc_ned2d lat lon alt VN VE VD roll pitch heading mVN mVE mVD sd x0 x1 x2 x3 x4 x5 x6 k) 0
    (- mvec 7 (Hm_ned2d lat lon alt VN VE VD roll pitch heading mVN mVE mVD sd) (vec7 x0 x1 x2 x3 x4 x5 x6) k).
Proof.
  intros k Hk.
  apply (is_derive_ext (fun e => vec3 (A2 correct2d_VN e) (A2 correct2d_VE e) (A2 correct2d_VD e) k - vec3 mVN mVE mVD k)).
  { intro e. symmetry. exact (residual_form_ned2d _ _ _ _ _ _ _ _ _ mVN mVE mVD sd k Hk). }
  evar_last; [exact (vel_curve _ _ _ dv DVN DVE DVD _ k)|].
  idx k; unfold Hm_ned2d; autounfold with errstate_meas; autounfold with ned2d_db; jac_value at0 dv Tx A2.
Qed.

Lemma H_is_jacobian_ned2d_l : forall k, (k < 2)%nat ->
  is_derive (Zc_ned2d_l lat lon alt VN VE VD roll pitch heading rate_x rate_y rate_z mVN mVE mVD l0 l1 l2 sd x0 x1 x2 x3 x4 x5 x6 k) 0
    (- mvec 7 (Hm_ned2d_l lat lon alt VN VE VD roll pitch heading rate_x rate_y rate_z mVN mVE mVD l0 l1 l2 sd) (vec7 x0 x1 x2 x3 x4 x5 x6) k).
Proof.
  intros k Hk.
  apply (is_derive_ext (fun e => vec3 (A2 correct2d_VN e) (A2 correct2d_VE e) (A2 correct2d_VD e) k
           + mvec 3 (Cnb (A2 correct2d_roll e) (A2 correct2d_pitch e) (A2 correct2d_heading e))
                    (cross3 (vec3 rate_x rate_y rate_z) (vec3 l0 l1 l2)) k - vec3 mVN mVE mVD k)).
  { intro e. symmetry. exact (residual_form_ned2d_l _ _ _ _ _ _ _ _ _ rate_x rate_y rate_z mVN mVE mVD l0 l1 l2 sd k Hk). }
  evar_last; [exact (ned_curve _ _ _ _ _ _ dv _ _ _ x4 x5 x6 DVN DVE DVD DC _ _ k)|].
  idx k; unfold Hm_ned2d_l; autounfold with errstate_meas; autounfold with ned2d_l_db; jac_value at0 dv Tx A2.
Qed.

Lemma H_is_jacobian_body2d : forall k, (k < 3)%nat ->
  is_derive (Zc_body2d lat lon alt VN VE VD roll pitch heading mVX mVY mVZ sd x0 x1 x2 x3 x4 x5 x6 k) 0
    (- mvec 7 (Hm_body2d lat lon alt VN VE VD roll pitch heading mVX mVY mVZ sd) (vec7 x0 x1 x2 x3 x4 x5 x6) k).
Proof.
  intros k Hk.
  apply (is_derive_ext (fun e => mtvec3 (Cnb (A2 correct2d_roll e) (A2 correct2d_pitch e) (A2 correct2d_heading e))
                                   (vec3 (A2 correct2d_VN e) (A2 correct2d_VE e) (A2 correct2d_VD e)) k - vec3 mVX mVY mVZ k)).
  { intro e. symmetry. exact (residual_form_body2d _ _ _ _ _ _ _ _ _ mVX mVY mVZ sd k Hk). }
  evar_last; [exact (body_curve _ _ _ _ _ _ dv _ _ _ x4 x5 x6 DVN DVE DVD att0 DC _ k)|].
  idx k; unfold Hm_body2d; autounfold with errstate_meas; autounfold with body2d_db; jac_value at0 dv Tx A2.
Qed.

End Meas2D.

(** ** F.3  Position class.  The residual uses compute_lla_difference with the radii at the MID point of
    predicted and measured position, so H is the exact Jacobian at the linearisation point
    "measured position = predicted position" (the three measured arguments are lat lon alt below);
    away from it the two differ by a relative O(|z| / Earth radius) -- see tools/props/C06.py. *)

Lemma lla_diff_swap lat1 lon1 alt1 lat2 lon2 alt2 k : (k < 3)%nat ->
  lla_diff lat1 lon1 alt1 lat2 lon2 alt2 k = - lla_diff lat2 lon2 alt2 lat1 lon1 alt1 k.
Proof.
  intro Hk. destruct (lla_diff_char lat1 lon1 alt1 lat2 lon2 alt2) as [E0 [E1 E2]], (lla_diff_char lat2 lon2 alt2 lat1 lon1 alt1) as [F0 [F1 F2]].
  idx k; cbv [lla_diff]; rewrite ?E0, ?E1, ?E2, ?F0, ?F1, ?F2, ?(Rplus_comm lat2 lat1), ?(Rplus_comm alt2 alt1); ring.
Qed.

Section PosCurve.
Variables (cl cn ca r p h : R -> R) (dl dn da lat lon alt r0 p0 h0 a b c : R) (w : nat -> R).
Hypothesis Hlat : -90 < lat < 90.
Hypothesis P0 : cl 0 = lat /\ cn 0 = lon /\ ca 0 = alt.
Hypothesis Dl : is_derive cl 0 dl.
Hypothesis Dn : is_derive cn 0 dn.
Hypothesis Da : is_derive ca 0 da.
Hypothesis DC : forall i j, is_derive (fun e => Cnb (r e) (p e) (h e) i j) 0
                              (mmul 3 (skew3 a b c) (Cnb r0 p0 h0) i j).

Lemma pos_curve k : (k < 3)%nat ->
  is_derive (fun e => lla_diff (cl e) (cn e) (ca e) lat lon alt k) 0 (vec3 (dl * QN lat alt) (dn * QE lat alt) (- da) k).
Proof.
  intro Hk. destruct P0 as [L0 [N0 A0]].
  assert (El : ex_derive cl 0) by (eexists; exact Dl). assert (Ea : ex_derive ca 0) by (eexists; exact Da).
  assert (Dc : forall v : R, is_derive (fun _ : R => v) 0 0) by (intro v; exact (@is_derive_const R_AbsRing R_NormedModule v 0)).
  assert (Ec : forall v : R, ex_derive (fun _ : R => v) 0) by (intro v; eexists; apply Dc).
  idx k; cbv [lla_diff vec3].
  - apply (is_derive_ext _ _ _ _ (fun e => eq_sym (proj1 (lla_diff_char _ _ _ _ _ _)))).
    evar_last; [apply (north_curve cl (fun _ => lat) ca (fun _ => alt) dl 0 lat alt); auto | ring].
  - apply (is_derive_ext _ _ _ _ (fun e => eq_sym (proj1 (proj2 (lla_diff_char _ _ _ _ _ _))))).
    evar_last; [apply (east_curve cn (fun _ => lon) cl (fun _ => lat) ca (fun _ => alt) dn 0 lat alt); auto | ring].
  - apply (is_derive_ext _ _ _ _ (fun e => eq_sym (proj2 (proj2 (lla_diff_char _ _ _ _ _ _))))).
    apply is_derive_const_minus. exact Da.
Qed.

Lemma lever_curve k :
  is_derive (fun e => mvec 3 (Cnb (r e) (p e) (h e)) w k) 0 (mvec 3 (mmul 3 (skew3 a b c) (Cnb r0 p0 h0)) w k).
Proof.
  cbv [mvec sumN].
  pose (c0 := fun e => Cnb (r e) (p e) (h e) k 0%nat).
  pose (c1 := fun e => Cnb (r e) (p e) (h e) k 1%nat).
  pose (c2 := fun e => Cnb (r e) (p e) (h e) k 2%nat).
  assert (C0 : is_derive c0 0 _) by exact (DC k 0%nat).
  assert (C1 : is_derive c1 0 _) by exact (DC k 1%nat).
  assert (C2 : is_derive c2 0 _) by exact (DC k 2%nat).
  change (is_derive (fun e => 0 + c0 e * w 0%nat + c1 e * w 1%nat + c2 e * w 2%nat) 0
            (0 + mmul 3 (skew3 a b c) (Cnb r0 p0 h0) k 0%nat * w 0%nat
               + mmul 3 (skew3 a b c) (Cnb r0 p0 h0) k 1%nat * w 1%nat
               + mmul 3 (skew3 a b c) (Cnb r0 p0 h0) k 2%nat * w 2%nat)).
  auto_derive; [repeat split; eexists; eassumption|].
  derive_val C0. derive_val C1. derive_val C2. ring.
Qed.

Lemma pos_l_curve k : (k < 3)%nat ->
  is_derive (fun e => lla_diff (cl e) (cn e) (ca e) lat lon alt k + mvec 3 (Cnb (r e) (p e) (h e)) w k) 0
    (vec3 (dl * QN lat alt) (dn * QE lat alt) (- da) k + mvec 3 (mmul 3 (skew3 a b c) (Cnb r0 p0 h0)) w k).
Proof.
  intro Hk. apply (is_derive_plus (V := R_NormedModule)); [apply pos_curve, Hk | apply lever_curve].
Qed.
End PosCurve.

Lemma H_is_jacobian_pos3d lat lon alt VN VE VD roll pitch heading x0 x1 x2 x3 x4 x5 x6 x7 x8 sd :
  -90 < lat < 90 -> -1000000 <= alt -> -180 < roll < 180 -> -90 < pitch < 90 -> -180 < heading < 180 ->
  forall k, (k < 3)%nat ->
  is_derive (Zc_pos3d lat lon alt VN VE VD roll pitch heading lat lon alt sd x0 x1 x2 x3 x4 x5 x6 x7 x8 k) 0
    (- mvec 9 (Hm_pos3d lat lon alt VN VE VD roll pitch heading lat lon alt sd) (vec9 x0 x1 x2 x3 x4 x5 x6 x7 x8) k).
Proof.
  intros Hlat Halt Hroll Hpitch Hheading k Hk. assert (Ha : -6000000 < alt) by lra.
  pose (s := vec9 lat lon alt VN VE VD roll pitch heading).
  pose proof (corrected3_derive (still s) s (fun _ => 0) (fun _ _ => eq_refl)
                (fun j _ => still_derive s j) Hlat Ha Hroll Hpitch Hheading x0 x1 x2 x3 x4 x5 x6 x7 x8) as DP.
  destruct (corr3_at0 lat lon alt VN VE VD roll pitch heading x0 x1 x2 x3 x4 x5 x6 x7 x8 Hroll Hpitch Hheading)
    as [Vl [Vn [Va _]]].
  apply (is_derive_ext (fun e =>
           lla_diff (along3 correct3d_lat lat lon alt VN VE VD roll pitch heading x0 x1 x2 x3 x4 x5 x6 x7 x8 e)
                    (along3 correct3d_lon lat lon alt VN VE VD roll pitch heading x0 x1 x2 x3 x4 x5 x6 x7 x8 e)
                    (along3 correct3d_alt lat lon alt VN VE VD roll pitch heading x0 x1 x2 x3 x4 x5 x6 x7 x8 e) lat lon alt k)).
  { intro e. symmetry. exact (residual_form_pos3d _ _ _ _ _ _ _ _ _ lat lon alt sd k Hk). }
  evar_last.
  - exact (pos_curve _ _ _ _ _ _ lat lon alt Hlat (conj Vl (conj Vn Va))
             (DP 0%nat ltac:(lia)) (DP 1%nat ltac:(lia)) (DP 2%nat ltac:(lia)) k Hk).
  - pose proof (KN_QN lat alt Ha) as HN. pose proof (KE_QE lat alt Hlat Ha) as HE.
    rewrite !Tout3_vec. idx k; cbv [s vec3 vec9 vec9 unit9 mvec sumN Hm_pos3d]; autounfold with errstate_meas; ring [HN HE].
Qed.

Lemma H_is_jacobian_pos3d_l lat lon alt VN VE VD roll pitch heading x0 x1 x2 x3 x4 x5 x6 x7 x8 l0 l1 l2 sd :
  -90 < lat < 90 -> -1000000 <= alt -> -180 < roll < 180 -> -90 < pitch < 90 -> -180 < heading < 180 ->
  forall k, (k < 3)%nat ->
  is_derive (Zc_pos3d_l lat lon alt VN VE VD roll pitch heading lat lon alt l0 l1 l2 sd x0 x1 x2 x3 x4 x5 x6 x7 x8 k) 0
    (- mvec 9 (Hm_pos3d_l lat lon alt VN VE VD roll pitch heading lat lon alt l0 l1 l2 sd) (vec9 x0 x1 x2 x3 x4 x5 x6 x7 x8) k).
Proof.
  intros Hlat Halt Hroll Hpitch Hheading k Hk. assert (Ha : -6000000 < alt) by lra.
  pose (s := vec9 lat lon alt VN VE VD roll pitch heading).
  pose proof (corrected3_derive (still s) s (fun _ => 0) (fun _ _ => eq_refl)
                (fun j _ => still_derive s j) Hlat Ha Hroll Hpitch Hheading x0 x1 x2 x3 x4 x5 x6 x7 x8) as DP.
  destruct (corr3_at0 lat lon alt VN VE VD roll pitch heading x0 x1 x2 x3 x4 x5 x6 x7 x8 Hroll Hpitch Hheading)
    as [Vl [Vn [Va _]]].
  apply (is_derive_ext (fun e =>
           lla_diff (along3 correct3d_lat lat lon alt VN VE VD roll pitch heading x0 x1 x2 x3 x4 x5 x6 x7 x8 e)
                    (along3 correct3d_lon lat lon alt VN VE VD roll pitch heading x0 x1 x2 x3 x4 x5 x6 x7 x8 e)
                    (along3 correct3d_alt lat lon alt VN VE VD roll pitch heading x0 x1 x2 x3 x4 x5 x6 x7 x8 e) lat lon alt k
           + mvec 3 (Cnb (along3 correct3d_roll lat lon alt VN VE VD roll pitch heading x0 x1 x2 x3 x4 x5 x6 x7 x8 e) (along3 correct3d_pitch lat lon alt VN VE VD roll pitch heading x0 x1 x2 x3 x4 x5 x6 x7 x8 e)
                         (along3 correct3d_heading lat lon alt VN VE VD roll pitch heading x0 x1 x2 x3 x4 x5 x6 x7 x8 e)) (vec3 l0 l1 l2) k)).
  { intro e. symmetry. exact (residual_form_pos3d_l _ _ _ _ _ _ _ _ _ lat lon alt l0 l1 l2 sd k Hk). }
  evar_last.
  - exact (pos_l_curve _ _ _ _ _ _ _ _ _ lat lon alt _ _ _ _ _ _ (vec3 l0 l1 l2) Hlat (conj Vl (conj Vn Va))
             (DP 0%nat ltac:(lia)) (DP 1%nat ltac:(lia)) (DP 2%nat ltac:(lia))
             (corr3_Cnb lat lon alt VN VE VD roll pitch heading x0 x1 x2 x3 x4 x5 x6 x7 x8 Hroll Hpitch Hheading) k Hk).
  - pose proof (KN_QN lat alt Ha) as HN. pose proof (KE_QE lat alt Hlat Ha) as HE.
    rewrite !Tout3_vec. idx k; cbv [s vec3 vec9 vec9 unit9 mvec mmul sumN skew3 Hm_pos3d_l]; autounfold with errstate_meas;
      autounfold with pos3d_l_db; rewrite ?Cnb_trig; cbv [Rzyx];
      ring [HN HE].
Qed.

Lemma H_is_jacobian_pos2d lat lon alt VN VE VD roll pitch heading x0 x1 x2 x3 x4 x5 x6 sd :
  -90 < lat < 90 -> -1000000 <= alt -> -180 < roll < 180 -> -90 < pitch < 90 -> -180 < heading < 180 ->
  forall k, (k < 2)%nat ->
  is_derive (Zc_pos2d lat lon alt VN VE VD roll pitch heading lat lon alt sd x0 x1 x2 x3 x4 x5 x6 k) 0
    (- mvec 7 (Hm_pos2d lat lon alt VN VE VD roll pitch heading lat lon alt sd) (vec7 x0 x1 x2 x3 x4 x5 x6) k).
Proof.
  intros Hlat Halt Hroll Hpitch Hheading k Hk. assert (Ha : -6000000 < alt) by lra.
  pose (s := vec9 lat lon alt VN VE VD roll pitch heading).
  pose proof (corrected2_derive (still s) s (fun _ => 0) (fun _ _ => eq_refl)
                (fun j _ => still_derive s j) Hlat Ha Hroll Hpitch Hheading x0 x1 x2 x3 x4 x5 x6) as DP.
  destruct (corr2_at0 lat lon alt VN VE VD roll pitch heading x0 x1 x2 x3 x4 x5 x6 Hroll Hpitch Hheading)
    as [Vl [Vn [Va _]]].
  apply (is_derive_ext (fun e =>
           lla_diff (along2 correct2d_lat lat lon alt VN VE VD roll pitch heading x0 x1 x2 x3 x4 x5 x6 e)
                    (along2 correct2d_lon lat lon alt VN VE VD roll pitch heading x0 x1 x2 x3 x4 x5 x6 e)
                    (along2 correct2d_alt lat lon alt VN VE VD roll pitch heading x0 x1 x2 x3 x4 x5 x6 e) lat lon alt k)).
  { intro e. symmetry. exact (residual_form_pos2d _ _ _ _ _ _ _ _ _ lat lon alt sd k Hk). }
  evar_last.
  - exact (pos_curve _ _ _ _ _ _ lat lon alt Hlat (conj Vl (conj Vn Va))
             (DP 0%nat ltac:(lia)) (DP 1%nat ltac:(lia)) (DP 2%nat ltac:(lia)) k ltac:(lia)).
  - pose proof (KN_QN lat alt Ha) as HN. pose proof (KE_QE lat alt Hlat Ha) as HE.
    rewrite !Tout2_vec. idx k; cbv [s vec3 vec7 vec9 unit9 mvec sumN Hm_pos2d]; autounfold with errstate_meas; ring [HN HE].
Qed.

Lemma H_is_jacobian_pos2d_l lat lon alt VN VE VD roll pitch heading x0 x1 x2 x3 x4 x5 x6 l0 l1 l2 sd :
  -90 < lat < 90 -> -1000000 <= alt -> -180 < roll < 180 -> -90 < pitch < 90 -> -180 < heading < 180 ->
  forall k, (k < 2)%nat ->
  is_derive (Zc_pos2d_l lat lon alt VN VE VD roll pitch heading lat lon alt l0 l1 l2 sd x0 x1 x2 x3 x4 x5 x6 k) 0
    (- mvec 7 (Hm_pos2d_l lat lon alt VN VE VD roll pitch heading lat lon alt l0 l1 l2 sd) (vec7 x0 x1 x2 x3 x4 x5 x6) k).
Proof.
  intros Hlat Halt Hroll Hpitch Hheading k Hk. assert (Ha : -6000000 < alt) by lra.
  pose (s := vec9 lat lon alt VN VE VD roll pitch heading).
  pose proof (corrected2_derive (still s) s (fun _ => 0) (fun _ _ => eq_refl)
                (fun j _ => still_derive s j) Hlat Ha Hroll Hpitch Hheading x0 x1 x2 x3 x4 x5 x6) as DP.
  destruct (corr2_at0 lat lon alt VN VE VD roll pitch heading x0 x1 x2 x3 x4 x5 x6 Hroll Hpitch Hheading)
    as [Vl [Vn [Va _]]].
  apply (is_derive_ext (fun e =>
           lla_diff (along2 correct2d_lat lat lon alt VN VE VD roll pitch heading x0 x1 x2 x3 x4 x5 x6 e)
                    (along2 correct2d_lon lat lon alt VN VE VD roll pitch heading x0 x1 x2 x3 x4 x5 x6 e)
                    (along2 correct2d_alt lat lon alt VN VE VD roll pitch heading x0 x1 x2 x3 x4 x5 x6 e) lat lon alt k
           + mvec 3 (Cnb (along2 correct2d_roll lat lon alt VN VE VD roll pitch heading x0 x1 x2 x3 x4 x5 x6 e) (along2 correct2d_pitch lat lon alt VN VE VD roll pitch heading x0 x1 x2 x3 x4 x5 x6 e)
                         (along2 correct2d_heading lat lon alt VN VE VD roll pitch heading x0 x1 x2 x3 x4 x5 x6 e)) (vec3 l0 l1 l2) k)).
  { intro e. symmetry. exact (residual_form_pos2d_l _ _ _ _ _ _ _ _ _ lat lon alt l0 l1 l2 sd k Hk). }
  evar_last.
  - exact (pos_l_curve _ _ _ _ _ _ _ _ _ lat lon alt _ _ _ _ _ _ (vec3 l0 l1 l2) Hlat (conj Vl (conj Vn Va))
             (DP 0%nat ltac:(lia)) (DP 1%nat ltac:(lia)) (DP 2%nat ltac:(lia))
             (corr2_Cnb lat lon alt VN VE VD roll pitch heading x0 x1 x2 x3 x4 x5 x6 Hroll Hpitch Hheading) k ltac:(lia)).
  - pose proof (KN_QN lat alt Ha) as HN. pose proof (KE_QE lat alt Hlat Ha) as HE.
    rewrite !Tout2_vec. idx k; cbv [s vec3 vec7 vec9 unit9 mvec mmul sumN skew3 Hm_pos2d_l]; autounfold with errstate_meas;
      autounfold with pos2d_l_db; rewrite ?Cnb_trig; cbv [Rzyx];
      ring [HN HE].
Qed.

(** * Part G: simulated measurements (C06)

    sim.generate_*_measurements(trajectory, s, rng) with rng.randn = (n0, n1, n2)
    produce "truth + s * n" (position: perturb_lla by s*n metres).  Fed to the matching Measurement class as the
    measured value and evaluated at the TRUE state (no lever arm: the generators simulate the value at the IMU):
      - s = 0 (noise off): the residual is exactly 0, all three classes, both modes;
      - velocity classes: z = -(s n) exactly;   Position: down row exactly -(s n2), north / east rows -(s n)
        to first order in s (compute_lla_difference uses the mid-point radii, perturb_lla the radii at the truth).
    The exact statements are two lines each and stand in Props/C06.v; the first-order one is proved here. *)

Definition simZ_ned3d (lat lon alt VN VE VD roll pitch heading sd s n0 n1 n2 : R) (k : nat) : R :=
  let m := fun f : R -> R -> R -> R -> R -> R -> R -> R -> R -> R -> R -> R -> R -> R =>
    f lat lon alt VN VE VD roll pitch heading s n0 n1 n2 in
  match k with
  | 0%nat => ned3d_z0 lat lon alt VN VE VD roll pitch heading (m sim_ned_VN) (m sim_ned_VE) (m sim_ned_VD) sd
  | 1%nat => ned3d_z1 lat lon alt VN VE VD roll pitch heading (m sim_ned_VN) (m sim_ned_VE) (m sim_ned_VD) sd
  | 2%nat => ned3d_z2 lat lon alt VN VE VD roll pitch heading (m sim_ned_VN) (m sim_ned_VE) (m sim_ned_VD) sd
  | _ => 0 end.
Definition simZ_ned2d (lat lon alt VN VE VD roll pitch heading sd s n0 n1 n2 : R) (k : nat) : R :=
  let m := fun f : R -> R -> R -> R -> R -> R -> R -> R -> R -> R -> R -> R -> R -> R =>
    f lat lon alt VN VE VD roll pitch heading s n0 n1 n2 in
  match k with
  | 0%nat => ned2d_z0 lat lon alt VN VE VD roll pitch heading (m sim_ned_VN) (m sim_ned_VE) (m sim_ned_VD) sd
  | 1%nat => ned2d_z1 lat lon alt VN VE VD roll pitch heading (m sim_ned_VN) (m sim_ned_VE) (m sim_ned_VD) sd
  | _ => 0 end.
Definition simZ_body3d (lat lon alt VN VE VD roll pitch heading sd s n0 n1 n2 : R) (k : nat) : R :=
  let m := fun f : R -> R -> R -> R -> R -> R -> R -> R -> R -> R -> R -> R -> R -> R =>
    f lat lon alt VN VE VD roll pitch heading s n0 n1 n2 in
  match k with
  | 0%nat => body3d_z0 lat lon alt VN VE VD roll pitch heading (m sim_body_VX) (m sim_body_VY) (m sim_body_VZ) sd
  | 1%nat => body3d_z1 lat lon alt VN VE VD roll pitch heading (m sim_body_VX) (m sim_body_VY) (m sim_body_VZ) sd
  | 2%nat => body3d_z2 lat lon alt VN VE VD roll pitch heading (m sim_body_VX) (m sim_body_VY) (m sim_body_VZ) sd
  | _ => 0 end.
Definition simZ_body2d (lat lon alt VN VE VD roll pitch heading sd s n0 n1 n2 : R) (k : nat) : R :=
  let m := fun f : R -> R -> R -> R -> R -> R -> R -> R -> R -> R -> R -> R -> R -> R =>
    f lat lon alt VN VE VD roll pitch heading s n0 n1 n2 in
  match k with
  | 0%nat => body2d_z0 lat lon alt VN VE VD roll pitch heading (m sim_body_VX) (m sim_body_VY) (m sim_body_VZ) sd
  | 1%nat => body2d_z1 lat lon alt VN VE VD roll pitch heading (m sim_body_VX) (m sim_body_VY) (m sim_body_VZ) sd
  | 2%nat => body2d_z2 lat lon alt VN VE VD roll pitch heading (m sim_body_VX) (m sim_body_VY) (m sim_body_VZ) sd
  | _ => 0 end.
(** Position: as a function of the noise scale s (last argument) *)
Definition simZ_pos3d (lat lon alt VN VE VD roll pitch heading sd n0 n1 n2 : R) (k : nat) (s : R) : R :=
  let m := fun f : R -> R -> R -> R -> R -> R -> R -> R -> R -> R -> R -> R -> R -> R =>
    f lat lon alt VN VE VD roll pitch heading s n0 n1 n2 in
  match k with
  | 0%nat => pos3d_z0 lat lon alt VN VE VD roll pitch heading (m sim_pos_lat) (m sim_pos_lon) (m sim_pos_alt) sd
  | 1%nat => pos3d_z1 lat lon alt VN VE VD roll pitch heading (m sim_pos_lat) (m sim_pos_lon) (m sim_pos_alt) sd
  | 2%nat => pos3d_z2 lat lon alt VN VE VD roll pitch heading (m sim_pos_lat) (m sim_pos_lon) (m sim_pos_alt) sd
  | _ => 0 end.
Definition simZ_pos2d (lat lon alt VN VE VD roll pitch heading sd n0 n1 n2 : R) (k : nat) (s : R) : R :=
  let m := fun f : R -> R -> R -> R -> R -> R -> R -> R -> R -> R -> R -> R -> R -> R =>
    f lat lon alt VN VE VD roll pitch heading s n0 n1 n2 in
  match k with
  | 0%nat => pos2d_z0 lat lon alt VN VE VD roll pitch heading (m sim_pos_lat) (m sim_pos_lon) (m sim_pos_alt) sd
  | 1%nat => pos2d_z1 lat lon alt VN VE VD roll pitch heading (m sim_pos_lat) (m sim_pos_lon) (m sim_pos_alt) sd
  | _ => 0 end.

(** Position, injected error: north / east rows are -(s n) to first order in s *)
Lemma sim_injected_error_pos lat lon alt VN VE VD roll pitch heading sd n0 n1 n2 :
  -90 < lat < 90 -> -1000000 <= alt ->
  (forall k, (k < 3)%nat ->
     is_derive (simZ_pos3d lat lon alt VN VE VD roll pitch heading sd n0 n1 n2 k) 0 (- vec3 n0 n1 n2 k)) /\
  (forall k, (k < 2)%nat ->
     is_derive (simZ_pos2d lat lon alt VN VE VD roll pitch heading sd n0 n1 n2 k) 0 (- vec3 n0 n1 n2 k)).
Proof.
  intros Hlat Halt. assert (Ha : -6000000 < alt) by lra.
  pose proof (KN_QN lat alt Ha) as HN. pose proof (KE_QE lat alt Hlat Ha) as HE.
  set (m := fun (f : R -> R -> R -> R -> R -> R -> R -> R -> R -> R -> R -> R -> R -> R) s =>
              f lat lon alt VN VE VD roll pitch heading s n0 n1 n2).
  assert (H : forall k, (k < 3)%nat ->
            is_derive (fun s => lla_diff lat lon alt (m sim_pos_lat s) (m sim_pos_lon s) (m sim_pos_alt s) k) 0
              (- vec3 n0 n1 n2 k)).
  { intros k Hk.
    apply (is_derive_ext _ _ _ _ (fun s => eq_sym (lla_diff_swap lat lon alt _ _ _ k Hk))).
    apply (is_derive_opp (fun s => lla_diff (m sim_pos_lat s) (m sim_pos_lon s) (m sim_pos_alt s) lat lon alt k)).
    evar_last.
    - apply (pos_curve (m sim_pos_lat) (m sim_pos_lon) (m sim_pos_alt) (n0 * KN lat alt) (n1 * KE lat alt) (- n2) lat lon alt Hlat);
        [unfold m, sim_pos_lat, sim_pos_lon, sim_pos_alt, Rdiv; split_conj; ring | | | | exact Hk].
      + apply (is_derive_ext (fun s => lat + s * n0 * KN lat alt));
          [intro s; symmetry; exact (proj1 (sim_pos_char _ _ _ _ _ _ _ _ _ _ _ _ _ Hlat Ha)) | auto_derive; [exact I | ring]].
      + apply (is_derive_ext (fun s => lon + s * n1 * KE lat alt));
          [intro s; symmetry; exact (proj1 (proj2 (sim_pos_char _ _ _ _ _ _ _ _ _ _ _ _ _ Hlat Ha))) | auto_derive; [exact I | ring]].
      + unfold m, sim_pos_alt. auto_derive; [exact I | ring].
    - idx k; cbv [vec3]; ring [HN HE]. }
  split; intros k Hk.
  - apply (is_derive_ext _ _ _ _ (fun s => eq_sym (residual_form_pos3d lat lon alt VN VE VD roll pitch heading _ _ _ sd k Hk))).
    exact (H k Hk).
  - apply (is_derive_ext _ _ _ _ (fun s => eq_sym (residual_form_pos2d lat lon alt VN VE VD roll pitch heading _ _ _ sd k Hk))).
    exact (H k ltac:(lia)).
Qed.
