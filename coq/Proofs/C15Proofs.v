(** C15 — coning/sculling increments are high-order accurate body-frame integrals.
    Lemmas about the GENERATED per-row formulas of strapdown.compute_increments_from_imu
    (Gen/C15Gen.v: [cii_rate_*], [cii_incr_*], traced on a 3-sample table) against the
    hand-written Peano-Baker series of Spec/PeanoBaker.v. *)
From Coq Require Import Reals Lra Lia List.
From Coquelicot Require Import Coquelicot.
From PV Require Import Spec.PeanoBaker Gen.C15Gen.
Import ListNotations.
Open Scope R_scope.

(** * Vector view of the generated functions *)

(** one IMU sample: gyro and accelerometer readings *)
Record Smp := mkSmp { gy : V3; ac : V3 }.

(** apply a generated 21-argument function to three samples, the first stamp and the two
    interval lengths (stamps are t0, t0 + dt1, t0 + dt1 + dt2) *)
Definition app21
  (F : R -> R -> R -> R -> R -> R -> R -> R -> R -> R -> R -> R -> R -> R -> R -> R -> R -> R ->
       R -> R -> R -> R) (p0 p1 p2 : Smp) (t0 dt1 dt2 : R) : R :=
  F (vx (gy p0)) (vy (gy p0)) (vz (gy p0)) (vx (ac p0)) (vy (ac p0)) (vz (ac p0))
    (vx (gy p1)) (vy (gy p1)) (vz (gy p1)) (vx (ac p1)) (vy (ac p1)) (vz (ac p1))
    (vx (gy p2)) (vy (gy p2)) (vz (gy p2)) (vx (ac p2)) (vy (ac p2)) (vz (ac p2))
    t0 dt1 dt2.

Definition app21v (F0 F1 F2 : _) (p0 p1 p2 : Smp) (t0 dt1 dt2 : R) : V3 :=
  mkV (app21 F0 p0 p1 p2 t0 dt1 dt2) (app21 F1 p0 p1 p2 t0 dt1 dt2) (app21 F2 p0 p1 p2 t0 dt1 dt2).

(** sensor_type = 'rate'.  The digit is the ROW of the result table (row 1 from samples 0, 1 and dt1, row 2 from
    samples 1, 2 and dt2), not a vector component as in the scalar names [inc_rate_th1] ... of Gen/C01Gen.v. *)
Definition rate_stamp1 := app21 cii_rate_r1_stamp.
Definition rate_dt1 := app21 cii_rate_r1_dt.
Definition rate_th1 := app21v cii_rate_r1_th0 cii_rate_r1_th1 cii_rate_r1_th2.
Definition rate_dv1 := app21v cii_rate_r1_dv0 cii_rate_r1_dv1 cii_rate_r1_dv2.
Definition rate_stamp2 := app21 cii_rate_r2_stamp.
Definition rate_dt2 := app21 cii_rate_r2_dt.
Definition rate_th2 := app21v cii_rate_r2_th0 cii_rate_r2_th1 cii_rate_r2_th2.
Definition rate_dv2 := app21v cii_rate_r2_dv0 cii_rate_r2_dv1 cii_rate_r2_dv2.
(** sensor_type = 'increment' *)
Definition incr_stamp1 := app21 cii_incr_r1_stamp.
Definition incr_dt1 := app21 cii_incr_r1_dt.
Definition incr_th1 := app21v cii_incr_r1_th0 cii_incr_r1_th1 cii_incr_r1_th2.
Definition incr_dv1 := app21v cii_incr_r1_dv0 cii_incr_r1_dv1 cii_incr_r1_dv2.
Definition incr_stamp2 := app21 cii_incr_r2_stamp.
Definition incr_dt2 := app21 cii_incr_r2_dt.
Definition incr_th2 := app21v cii_incr_r2_th0 cii_incr_r2_th1 cii_incr_r2_th2.
Definition incr_dv2 := app21v cii_incr_r2_dv0 cii_incr_r2_dv1 cii_incr_r2_dv2.

Definition theta_lin (a b : V3) : ser V3 :=
  mkS vzero a (vscale (/ 2) b) (vscale (/ 12) (cross a b)).
Definition dv_lin (a b d e : V3) : ser V3 :=
  mkS vzero d (vscale (/ 2) (vadd e (cross a d)))
      (vadd (vscale (/ 3) (cross a e)) (vscale (/ 6) (cross b d))).
(** the neglected second-order rotation term *)
Definition dv_gap (a d : V3) : ser V3 :=
  mkS vzero vzero vzero (vscale (- / 6) (cross a (cross a d))).

(** 'rate': readings of w = a + b s, f = d + e s at time s *)
Definition smp_rate (a b d e : V3) (s : R) : Smp := mkSmp (lin a b s) (lin d e s).
(** 'increment': integrals of w, f over [x, y] *)
Definition smp_int (a b d e : V3) (x y : R) : Smp := mkSmp (int_lin a b x y) (int_lin d e x y).
(** t^4 term of the generated dv (a polynomial of degree 4 in t) *)
Definition dv_t4 (b e : V3) (t : R) : V3 := vscale (t * t * t * t) (vscale (/ 8) (cross b e)).
(** factor of the discrepancy for unequal adjacent intervals t1 (previous), t2 (current) *)
Definition uneq_factor (t1 t2 : R) : R := t2 * (t1 - t2) * (t1 + 2 * t2) / 24.

(** * Vectors, matrices, series: extensionality and zero laws *)
Lemma V3_eq (u v : V3) : vx u = vx v -> vy u = vy v -> vz u = vz v -> u = v.
Proof. destruct u, v; cbn; intros; subst; reflexivity. Qed.

Lemma M3_eq (A B : M3) :
  m00 A = m00 B -> m01 A = m01 B -> m02 A = m02 B ->
  m10 A = m10 B -> m11 A = m11 B -> m12 A = m12 B ->
  m20 A = m20 B -> m21 A = m21 B -> m22 A = m22 B -> A = B.
Proof. destruct A, B; cbn; intros; subst; reflexivity. Qed.

Lemma ser_eq {A} (x y : ser A) : s0 x = s0 y -> s1 x = s1 y -> s2 x = s2 y -> s3 x = s3 y -> x = y.
Proof. destruct x, y; cbn; intros; subst; reflexivity. Qed.

Ltac unf_spec :=
  cbv [C_PB u_PB pb_C pb_u exp_rv3 omega_lin f_lin theta_lin dv_lin dv_gap lin int_lin
       smulMM smulMV saddM sscaleM ssubV sI szeroM sskew veval
       mmul madd mscale mvec skew I3 mzero vzero vadd vsub vscale cross
       s0 s1 s2 s3 vx vy vz m00 m01 m02 m10 m11 m12 m20 m21 m22 gy ac].
(* equalities of vectors / matrices of reals, entry by entry *)
Ltac v3_lra := apply V3_eq; unf_spec; lra.
Ltac m3_lra := apply M3_eq; unf_spec; lra.

Lemma mscale_cancel k l A : k * l = 1 -> mscale k (mscale l A) = A.
Proof. intro H. destruct A. apply M3_eq; cbn; rewrite <- Rmult_assoc, H; apply Rmult_1_l. Qed.
Lemma vscale_cancel k l v : k * l = 1 -> vscale k (vscale l v) = v.
Proof. intro H. destruct v. apply V3_eq; cbn; rewrite <- Rmult_assoc, H; apply Rmult_1_l. Qed.

Lemma mmul_0_l A : mmul mzero A = mzero.
Proof. apply M3_eq; cbn; ring. Qed.
Lemma mmul_0_r A : mmul A mzero = mzero.
Proof. apply M3_eq; cbn; ring. Qed.
Lemma mmul_1_l A : mmul I3 A = A.
Proof. destruct A. apply M3_eq; cbn; ring. Qed.
Lemma madd_0_l A : madd mzero A = A.
Proof. destruct A. apply M3_eq; cbn; ring. Qed.
Lemma madd_0_r A : madd A mzero = A.
Proof. destruct A. apply M3_eq; cbn; ring. Qed.
Lemma mscale_0 k : mscale k mzero = mzero.
Proof. apply M3_eq; cbn; ring. Qed.
Lemma skew_vzero : skew vzero = mzero.
Proof. apply M3_eq; cbn; ring. Qed.
(* products and sums in which a zero matrix occurs collapse *)
Ltac m3_zero :=
  repeat (progress rewrite ?skew_vzero, ?mmul_0_l, ?mmul_0_r, ?mmul_1_l, ?mscale_0, ?madd_0_l, ?madd_0_r).

(** * The Peano-Baker series of the specification solve the ODEs, and nothing else does *)

(** the recursion-defined series solve the ODEs coefficient by coefficient: the recursion divides by
    k+1 what the ODE multiplies by k+1 ... *)
Lemma pb_C_solves W : solves_C W (pb_C W).
Proof. unfold solves_C, pb_C. cbn [s0 s1 s2 s3 smulMM]. repeat split; apply mscale_cancel; lra. Qed.

Lemma pb_u_solves C F : solves_u C F (pb_u C F).
Proof. unfold solves_u, pb_u. cbn [s0 s1 s2 s3]. repeat split; apply vscale_cancel; lra. Qed.

(** ... and are the only series that do *)
Lemma pb_C_unique W C : solves_C W C -> C = pb_C W.
Proof.
  destruct C as [c0 c1 c2 c3]. unfold solves_C, pb_C. cbn [s0 s1 s2 s3 smulMM]. intros (-> & -> & H2 & H3).
  assert (E2 : c2 = mscale (/ 2) (mscale 2 c2)) by (symmetry; apply mscale_cancel; lra).
  rewrite H2 in E2. subst c2.
  assert (E3 : c3 = mscale (/ 3) (mscale 3 c3)) by (symmetry; apply mscale_cancel; lra).
  rewrite H3 in E3. subst c3. reflexivity.
Qed.

Lemma pb_u_unique C F u : solves_u C F u -> u = pb_u C F.
Proof.
  destruct u as [u0 u1 u2 u3]. unfold solves_u, pb_u. cbn [s0 s1 s2 s3]. intros (-> & -> & H2 & H3).
  assert (E2 : u2 = vscale (/ 2) (vscale 2 u2)) by (symmetry; apply vscale_cancel; lra).
  assert (E3 : u3 = vscale (/ 3) (vscale 3 u3)) by (symmetry; apply vscale_cancel; lra).
  rewrite H2 in E2. rewrite H3 in E3. subst u2 u3. reflexivity.
Qed.

(** * Series mod t^4: a cubic determines its coefficients; four factors without constant term vanish *)

Lemma cubic_eq a0 a1 a2 a3 b0 b1 b2 b3 :
  (forall t, a0 + t * a1 + (t * t * a2 + t * t * t * a3) = b0 + t * b1 + (t * t * b2 + t * t * t * b3)) ->
  a0 = b0 /\ a1 = b1 /\ a2 = b2 /\ a3 = b3.
Proof.
  intro H. pose proof (H 0). pose proof (H 1). pose proof (H (-1)). pose proof (H 2). repeat split; lra.
Qed.

Lemma veval_inj (p q : ser V3) : (forall t, veval p t = veval q t) -> p = q.
Proof.
  intro H.
  pose proof (fun t => f_equal vx (H t)) as Hx. pose proof (fun t => f_equal vy (H t)) as Hy.
  pose proof (fun t => f_equal vz (H t)) as Hz. clear H.
  destruct p as [[] [] [] []], q as [[] [] [] []].
  cbv [veval vadd vscale PeanoBaker.vx PeanoBaker.vy PeanoBaker.vz s0 s1 s2 s3] in Hx, Hy, Hz.
  destruct (cubic_eq _ _ _ _ _ _ _ _ Hx) as (-> & -> & -> & ->).
  destruct (cubic_eq _ _ _ _ _ _ _ _ Hy) as (-> & -> & -> & ->).
  destruct (cubic_eq _ _ _ _ _ _ _ _ Hz) as (-> & -> & -> & ->).
  reflexivity.
Qed.

(** the product of two series without constant term starts at t^2 *)
Lemma smulMM_0 (a1 a2 a3 b1 b2 b3 : M3) :
  smulMM (mkS mzero a1 a2 a3) (mkS mzero b1 b2 b3) = mkS mzero mzero (mmul a1 b1) (madd (mmul a1 b2) (mmul a2 b1)).
Proof. unfold smulMM. cbn [s0 s1 s2 s3]. m3_zero. reflexivity. Qed.

(** hence a product of four of them vanishes mod t^4 *)
Lemma smulMM4_zero (A B C D : ser M3) :
  s0 A = mzero -> s0 B = mzero -> s0 C = mzero -> s0 D = mzero ->
  smulMM (smulMM (smulMM A B) C) D = szeroM.
Proof.
  destruct A as [a0 a1 a2 a3], B as [b0 b1 b2 b3], C as [c0 c1 c2 c3], D as [d0 d1 d2 d3].
  cbn [s0]. intros -> -> -> ->.
  rewrite !smulMM_0. m3_zero. reflexivity.
Qed.

(** * [int_lin] is the integral of the linear signal: one component *)
Lemma int_lin_1d (a b x y : R) :
  is_RInt (fun s => a + s * b) x y ((y - x) * a + (y * y - x * x) / 2 * b).
Proof.
  replace ((y - x) * a + (y * y - x * x) / 2 * b)
    with (minus ((fun s => a * s + b * (s * s) / 2) y) ((fun s => a * s + b * (s * s) / 2) x))
    by (unfold minus, plus, opp; cbn; field).
  apply (is_RInt_derive (fun s => a * s + b * (s * s) / 2)).
  - intros s _. auto_derive; [exact I|field].
  - intros s _. apply (ex_derive_continuous (fun s => a + s * b)). auto_derive. exact I.
Qed.

(** * exp[theta x] = C_PB mod t^4 for theta = a t + b t^2/2 + (a x b) t^3/12 *)

(** coefficients of exp [th x] = I + K + K^2/2 + K^3/6 for th = t1 t + t2 t^2 + t3 t^3 *)
Lemma exp_rv3_coeffs (t1 t2 t3 : V3) :
  exp_rv3 (mkS vzero t1 t2 t3) =
  mkS I3 (skew t1) (madd (skew t2) (mscale (/ 2) (mmul (skew t1) (skew t1))))
      (madd (skew t3) (madd (mscale (/ 2) (madd (mmul (skew t1) (skew t2)) (mmul (skew t2) (skew t1))))
                            (mscale (/ 6) (mmul (mmul (skew t1) (skew t1)) (skew t1))))).
Proof.
  cbv beta zeta delta [exp_rv3 sskew]. cbn [s0 s1 s2 s3]. rewrite skew_vzero, !smulMM_0.
  unfold saddM, sscaleM, sI. cbn [s0 s1 s2 s3]. m3_zero. reflexivity.
Qed.

Lemma exp_theta_lin_is_PB a b : exp_rv3 (theta_lin a b) = C_PB a b.
Proof.
  unfold theta_lin. rewrite exp_rv3_coeffs.
  unfold C_PB, pb_C, omega_lin. cbn [s0 s1 s2 s3]. m3_zero.
  destruct a, b. apply ser_eq; cbn [s0 s1 s2 s3]; m3_lra.
Qed.

(** the PB velocity series is dv_lin plus the second-order rotation term *)
Lemma dv_lin_minus_PB a b d e : ssubV (dv_lin a b d e) (u_PB a b d e) = dv_gap a d.
Proof. destruct a, b, d, e. apply ser_eq; v3_lra. Qed.

(** * The generated rows are one formula of (previous sample, own sample, own interval) *)

(** compute_increments_from_imu, sensor_type = 'rate' (a, e: samples at the two ends):
      theta = (a_g + b_g/2) dt + a_g x b_g dt^2/12,                       b = e - a,
      dv    = (a_f + b_f/2) dt + (a_g x b_f + a_f x b_g) dt^2/12 + (gyro incr) x (accel incr)/2 *)
Definition rate_inc (a e : V3) (dt : R) : V3 := vscale dt (vadd a (vscale (/ 2) (vsub e a))).
Definition rate_th_spec (sp s : Smp) (dt : R) : V3 :=
  vadd (rate_inc (gy sp) (gy s) dt) (vscale (dt * dt / 12) (cross (gy sp) (vsub (gy s) (gy sp)))).
Definition rate_dv_spec (sp s : Smp) (dt : R) : V3 :=
  vadd (vadd (rate_inc (ac sp) (ac s) dt)
             (vscale (dt * dt / 12) (vadd (cross (gy sp) (vsub (ac s) (ac sp))) (cross (ac sp) (vsub (gy s) (gy sp))))))
       (vscale (/ 2) (cross (rate_inc (gy sp) (gy s) dt) (rate_inc (ac sp) (ac s) dt))).
(** sensor_type = 'increment' (p, c: samples of the previous and of the own interval):
      theta = c_g + p_g x c_g/12,   dv = c_f + (p_g x c_f + p_f x c_g)/12 + c_g x c_f/2 *)
Definition incr_th_spec (sp s : Smp) : V3 := vadd (gy s) (vscale (/ 12) (cross (gy sp) (gy s))).
Definition incr_dv_spec (sp s : Smp) : V3 :=
  vadd (vadd (ac s) (vscale (/ 12) (vadd (cross (gy sp) (ac s)) (cross (ac sp) (gy s)))))
       (vscale (/ 2) (cross (gy s) (ac s))).

Ltac unf_cii :=
  cbv [rate_stamp1 rate_dt1 rate_th1 rate_dv1 rate_stamp2 rate_dt2 rate_th2 rate_dv2
       incr_stamp1 incr_dt1 incr_th1 incr_dv1 incr_stamp2 incr_dt2 incr_th2 incr_dv2
       app21 app21v];
  unfold cii_rate_r1_stamp, cii_rate_r1_dt, cii_rate_r1_th0, cii_rate_r1_th1, cii_rate_r1_th2,
         cii_rate_r1_dv0, cii_rate_r1_dv1, cii_rate_r1_dv2,
         cii_rate_r2_stamp, cii_rate_r2_dt, cii_rate_r2_th0, cii_rate_r2_th1, cii_rate_r2_th2,
         cii_rate_r2_dv0, cii_rate_r2_dv1, cii_rate_r2_dv2,
         cii_incr_r1_stamp, cii_incr_r1_dt, cii_incr_r1_th0, cii_incr_r1_th1, cii_incr_r1_th2,
         cii_incr_r1_dv0, cii_incr_r1_dv1, cii_incr_r1_dv2,
         cii_incr_r2_stamp, cii_incr_r2_dt, cii_incr_r2_th0, cii_incr_r2_th1, cii_incr_r2_th2,
         cii_incr_r2_dv0, cii_incr_r2_dv1, cii_incr_r2_dv2;
  repeat autounfold with cii_rate_db; repeat autounfold with cii_incr_db.
Section RowsChar.
Variables (p0 p1 p2 : Smp) (t0 dt1 dt2 : R).
Ltac row_char :=
  destruct p0 as [[] []], p1 as [[] []], p2 as [[] []]; apply V3_eq;
  unfold rate_th_spec, rate_dv_spec, incr_th_spec, incr_dv_spec, rate_inc; unf_cii; unf_spec; lra.
Lemma rate_th1_char : rate_th1 p0 p1 p2 t0 dt1 dt2 = rate_th_spec p0 p1 dt1.
Proof. row_char. Qed.
Lemma rate_dv1_char : rate_dv1 p0 p1 p2 t0 dt1 dt2 = rate_dv_spec p0 p1 dt1.
Proof. row_char. Qed.
Lemma rate_th2_char : rate_th2 p0 p1 p2 t0 dt1 dt2 = rate_th_spec p1 p2 dt2.
Proof. row_char. Qed.
Lemma rate_dv2_char : rate_dv2 p0 p1 p2 t0 dt1 dt2 = rate_dv_spec p1 p2 dt2.
Proof. row_char. Qed.
Lemma incr_th1_char : incr_th1 p0 p1 p2 t0 dt1 dt2 = incr_th_spec p0 p1.
Proof. row_char. Qed.
Lemma incr_dv1_char : incr_dv1 p0 p1 p2 t0 dt1 dt2 = incr_dv_spec p0 p1.
Proof. row_char. Qed.
Lemma incr_th2_char : incr_th2 p0 p1 p2 t0 dt1 dt2 = incr_th_spec p1 p2.
Proof. row_char. Qed.
Lemma incr_dv2_char : incr_dv2 p0 p1 p2 t0 dt1 dt2 = incr_dv_spec p1 p2.
Proof. row_char. Qed.
End RowsChar.
#[export] Hint Rewrite rate_th1_char rate_dv1_char rate_th2_char rate_dv2_char
             incr_th1_char incr_dv1_char incr_th2_char incr_dv2_char : row_spec.

(** * sensor_type = 'rate' : samples of w = a + b s, f = d + e s at the two ends of an
       interval of length t *)
Lemma rate_th_spec_lin a b d e t :
  rate_th_spec (smp_rate a b d e 0) (smp_rate a b d e t) t = veval (theta_lin a b) t.
Proof. destruct a, b. unfold rate_th_spec, rate_inc, smp_rate. v3_lra. Qed.

(** dv is a polynomial of degree 4 in t; its t^4 coefficient is (b x e)/8 *)
Lemma rate_dv_spec_lin a b d e t :
  rate_dv_spec (smp_rate a b d e 0) (smp_rate a b d e t) t = vadd (veval (dv_lin a b d e) t) (dv_t4 b e t).
Proof. destruct a, b, d, e. unfold rate_dv_spec, rate_inc, smp_rate, dv_t4. v3_lra. Qed.

(** * sensor_type = 'increment' : samples are the integrals of w, f over the intervals
       [-t1, 0] (previous) and [0, t2] (current); time 0 = start of the current interval. *)
Lemma incr_th_spec_gen a b d e t1 t2 :
  incr_th_spec (smp_int a b d e (- t1) 0) (smp_int a b d e 0 t2)
  = vadd (vadd (vscale t2 a) (vscale (t2 * t2 / 2) b)) (vscale (t1 * t2 * (t1 + t2) / 24) (cross a b)).
Proof. destruct a, b. unfold incr_th_spec, smp_int. v3_lra. Qed.

Lemma incr_th_spec_uneq a b d e t1 t2 :
  incr_th_spec (smp_int a b d e (- t1) 0) (smp_int a b d e 0 t2)
  = vadd (veval (theta_lin a b) t2) (vscale (uneq_factor t1 t2) (cross a b)).
Proof. rewrite incr_th_spec_gen. destruct a, b. unfold uneq_factor. v3_lra. Qed.

Lemma incr_dv_spec_uneq a b d e t1 t2 :
  incr_dv_spec (smp_int a b d e (- t1) 0) (smp_int a b d e 0 t2)
  = vadd (vadd (veval (dv_lin a b d e) t2) (dv_t4 b e t2))
         (vscale (uneq_factor t1 t2) (vadd (cross a e) (cross d b))).
Proof. destruct a, b, d, e. unfold incr_dv_spec, smp_int, uneq_factor, dv_t4. v3_lra. Qed.

Lemma uneq_factor_eq t : uneq_factor t t = 0.
Proof. unfold uneq_factor. field. Qed.

Lemma uneq_factor_zero_iff t1 t2 : 0 < t1 -> 0 < t2 -> (uneq_factor t1 t2 = 0 <-> t1 = t2).
Proof.
  intros H1 H2. unfold uneq_factor. split.
  - intro H. assert (E : t2 * (t1 - t2) * (t1 + 2 * t2) = 0) by lra.
    apply Rmult_integral in E. destruct E as [E|E]; [|lra].
    apply Rmult_integral in E. destruct E as [E|E]; lra.
  - intros ->. field.
Qed.

Lemma vadd_zero_r v k w : k = 0 -> vadd v (vscale k w) = v.
Proof. intros ->. destruct v, w. apply V3_eq; cbn; ring. Qed.

Lemma incr_theta_row1_uneq a b d e px t0 t1 t2 :
  incr_th1 (smp_int a b d e (- t1) 0) (smp_int a b d e 0 t2) px t0 t2 t1
  = vadd (veval (theta_lin a b) t2) (vscale (uneq_factor t1 t2) (cross a b)).
Proof. rewrite incr_th1_char. apply incr_th_spec_uneq. Qed.

Lemma incr_dv_row1_uneq a b d e px t0 t1 t2 :
  incr_dv1 (smp_int a b d e (- t1) 0) (smp_int a b d e 0 t2) px t0 t2 t1
  = vadd (vadd (veval (dv_lin a b d e) t2) (dv_t4 b e t2))
         (vscale (uneq_factor t1 t2) (vadd (cross a e) (cross d b))).
Proof. rewrite incr_dv1_char. apply incr_dv_spec_uneq. Qed.

(** * Both rows of both sensor types on linear signals: exact through t^3 up to the stated terms *)

Lemma theta_rate_cubic a b d e px t0 tx t :
  rate_th2 px (smp_rate a b d e 0) (smp_rate a b d e t) t0 tx t = veval (theta_lin a b) t /\
  rate_th1 (smp_rate a b d e 0) (smp_rate a b d e t) px t0 t tx = veval (theta_lin a b) t /\
  exp_rv3 (theta_lin a b) = C_PB a b.
Proof.
  autorewrite with row_spec.
  split; [|split]; [apply rate_th_spec_lin | apply rate_th_spec_lin | apply exp_theta_lin_is_PB].
Qed.

Lemma dv_rate_cubic a b d e px t0 tx t :
  rate_dv2 px (smp_rate a b d e 0) (smp_rate a b d e t) t0 tx t
    = vadd (veval (dv_lin a b d e) t) (dv_t4 b e t) /\
  rate_dv1 (smp_rate a b d e 0) (smp_rate a b d e t) px t0 t tx
    = vadd (veval (dv_lin a b d e) t) (dv_t4 b e t) /\
  ssubV (dv_lin a b d e) (u_PB a b d e) = dv_gap a d.
Proof.
  autorewrite with row_spec.
  split; [|split]; [apply rate_dv_spec_lin | apply rate_dv_spec_lin | apply dv_lin_minus_PB].
Qed.

(* equal adjacent intervals: the cubic discrepancy vanishes *)
Lemma theta_incr_cubic a b d e px t0 tx t :
  incr_th2 px (smp_int a b d e (- t) 0) (smp_int a b d e 0 t) t0 t t = veval (theta_lin a b) t /\
  incr_th1 (smp_int a b d e (- t) 0) (smp_int a b d e 0 t) px t0 t tx = veval (theta_lin a b) t /\
  exp_rv3 (theta_lin a b) = C_PB a b.
Proof.
  autorewrite with row_spec.
  rewrite incr_th_spec_uneq, vadd_zero_r by apply uneq_factor_eq.
  split; [|split]; [reflexivity | reflexivity | apply exp_theta_lin_is_PB].
Qed.

Lemma dv_incr_cubic a b d e px t0 tx t :
  incr_dv2 px (smp_int a b d e (- t) 0) (smp_int a b d e 0 t) t0 t t
    = vadd (veval (dv_lin a b d e) t) (dv_t4 b e t) /\
  incr_dv1 (smp_int a b d e (- t) 0) (smp_int a b d e 0 t) px t0 t tx
    = vadd (veval (dv_lin a b d e) t) (dv_t4 b e t) /\
  ssubV (dv_lin a b d e) (u_PB a b d e) = dv_gap a d.
Proof.
  autorewrite with row_spec.
  rewrite incr_dv_spec_uneq, vadd_zero_r by apply uneq_factor_eq.
  split; [|split]; [reflexivity | reflexivity | apply dv_lin_minus_PB].
Qed.

Lemma incr_unequal_discrepancy a b d e px t0 t1 t2 :
  (* the generated coning term is (a x b) t1 t2 (t1 + t2) / 24 ... *)
  incr_th2 px (smp_int a b d e (- t1) 0) (smp_int a b d e 0 t2) t0 t1 t2
    = vadd (vadd (vscale t2 a) (vscale (t2 * t2 / 2) b))
           (vscale (t1 * t2 * (t1 + t2) / 24) (cross a b)) /\
  (* ... i.e. it differs from the series that is exact through t^3 by a cubic term ... *)
  incr_th2 px (smp_int a b d e (- t1) 0) (smp_int a b d e 0 t2) t0 t1 t2
    = vadd (veval (theta_lin a b) t2) (vscale (uneq_factor t1 t2) (cross a b)) /\
  (* ... and so does the sculling term of dv ... *)
  incr_dv2 px (smp_int a b d e (- t1) 0) (smp_int a b d e 0 t2) t0 t1 t2
    = vadd (vadd (veval (dv_lin a b d e) t2) (dv_t4 b e t2))
           (vscale (uneq_factor t1 t2) (vadd (cross a e) (cross d b))) /\
  (* ... which vanishes exactly when the two intervals are equal *)
  (0 < t1 -> 0 < t2 -> (uneq_factor t1 t2 = 0 <-> t1 = t2)).
Proof.
  autorewrite with row_spec.
  split; [apply incr_th_spec_gen|]. split; [apply incr_th_spec_uneq|].
  split; [apply incr_dv_spec_uneq | apply uneq_factor_zero_iff].
Qed.

(** * Rows and stamps of the list model *)

(** the per-row formulas as functions of two consecutive samples and the interval *)
Definition rate_row (sp s : Smp) (dt : R) : V3 * V3 :=
  (rate_th1 sp s s 0 dt 0, rate_dv1 sp s s 0 dt 0).
Definition incr_row (sp s : Smp) (dt : R) : V3 * V3 :=
  (incr_th1 sp s s 0 dt 0, incr_dv1 sp s s 0 dt 0).

Section RowsFacts.
  Variables (T S O : Type) (sub : T -> T -> T) (f : S -> S -> T -> O).

  Lemma rows_from_length tp sp rest : length (rows_from sub f tp sp rest) = length rest.
  Proof.
    revert tp sp. induction rest as [|[t s] r IH]; intros tp sp; cbn; [reflexivity|].
    rewrite IH. reflexivity.
  Qed.

  Lemma rows_length imu : length (rows sub f imu) = (length imu - 1)%nat.
  Proof.
    destruct imu as [|[t0 s0] r]; cbn; [reflexivity|]. rewrite rows_from_length. lia.
  Qed.

  Lemma rows_from_nth tp sp rest i :
    nth_error (rows_from sub f tp sp rest) i =
    match nth_error ((tp, sp) :: rest) i, nth_error rest i with
    | Some (t, s), Some (t', s') => Some (t', sub t' t, f s s' (sub t' t))
    | _, _ => None
    end.
  Proof.
    revert tp sp i. induction rest as [|[t s] r IH]; intros tp sp i.
    - destruct i; cbn; [reflexivity|]. destruct i; reflexivity.
    - destruct i; cbn [rows_from nth_error]; [reflexivity|]. rewrite IH. reflexivity.
  Qed.

  Lemma rows_nth imu i t s t' s' :
    nth_error imu i = Some (t, s) -> nth_error imu (Datatypes.S i) = Some (t', s') ->
    nth_error (rows sub f imu) i = Some (t', sub t' t, f s s' (sub t' t)).
  Proof.
    destruct imu as [|[t0 s0] r]; [destruct i; discriminate|].
    intros H1 H2. cbn [rows]. rewrite rows_from_nth. rewrite H1.
    cbn [nth_error] in H2. rewrite H2. reflexivity.
  Qed.
End RowsFacts.

Lemma rows_and_stamps (T S O : Type) (sub : T -> T -> T) (f : S -> S -> T -> O) (imu : list (T * S)) :
  length (rows sub f imu) = (length imu - 1)%nat /\
  (forall i t s t' s', nth_error imu i = Some (t, s) -> nth_error imu (Datatypes.S i) = Some (t', s') ->
     nth_error (rows sub f imu) i = Some (t', sub t' t, f s s' (sub t' t))).
Proof. split; [apply rows_length|]. intros. apply rows_nth; assumption. Qed.

(** * Non-vacuity: concrete instances *)
Example coning_term_nonzero : s3 (theta_lin (mkV 1 0 0) (mkV 0 1 0)) = mkV 0 0 (/ 12).
Proof. apply V3_eq; unf_spec; field. Qed.

Example dv_gap_nonzero : s3 (dv_gap (mkV 1 0 0) (mkV 0 1 0)) = mkV 0 (/ 6) 0.
Proof. apply V3_eq; unf_spec; field. Qed.

(** w = (1, s, 0): previous interval of length 1/2, current of length 1: the generated z
    component is 1/32, the exact cubic truncation is 1/12 *)
Example unequal_instance :
  let a := mkV 1 0 0 in let b := mkV 0 1 0 in
  vz (incr_th2 (mkSmp vzero vzero) (smp_int a b vzero vzero (- (1 / 2)) 0)
               (smp_int a b vzero vzero 0 1) 0 (1 / 2) 1) = 1 / 32 /\
  vz (veval (theta_lin a b) 1) = 1 / 12 /\ uneq_factor (1 / 2) 1 = - (5 / 96).
Proof.
  cbv zeta. unfold smp_int, uneq_factor. repeat split; [unf_cii; unf_spec; field|unf_spec; field|field].
Qed.

Example rows_instance :
  rows Nat.sub (fun p c dt => (p, c, dt)) [(10, 0); (12, 1); (17, 2); (18, 3)]%nat
  = [(12, 2, (0, 1, 2)); (17, 5, (1, 2, 5)); (18, 1, (2, 3, 1))]%nat.
Proof. reflexivity. Qed.
