(** * C19 — soundness of the purity checker of [Model/Alias.v]

    [checker_sound]: if [check_fun] accepts a function (given ANY points-to solution [h] —
    the solution is validated, not trusted) then in every flow-insensitive execution of its
    statement set from an entry state in which the caller's memory, the receiver's private
    state and numpy's global generator are separate regions,
      - no cell of the caller's region is ever written,
      - no draw from numpy's module-level generator happens, and (unless the function is a
        documented user) no draw from the global generator object,
      - state slots of caller objects are rebound/updated only if white-listed (the
        estimate state of sensor models handed to a filter) and read only if declared
        readable.
    The proof is an invariant over executions: a labelling of every allocated cell by an
    allocation site such that [env x c -> label c ∈ pt x] and
    [edge a b -> label b ∈ cont (label a)].

    Second part (from the second [Require] on): the policy of C19, the checker run by evaluation on
    the generated IR of the whole API ([Gen/AliasIR.v]), the schema constants, and the small
    programs on which Props/C19.v tries the checker. *)
From Coq Require Import List Arith Bool PArith.
From PV Require Import Model.Alias.
Import ListNotations.

Lemma memp_In : forall x l, memp x l = true <-> In x l.
Proof.
  intros x l. unfold memp. rewrite existsb_exists. split.
  - intros [y [Hy He]]. apply Pos.eqb_eq in He. subst. exact Hy.
  - intros H. exists x. split; [exact H | apply Pos.eqb_refl].
Qed.

Lemma memp_false : forall x l, memp x l = false -> ~ In x l.
Proof.
  intros x l H Hin. apply memp_In in Hin. rewrite Hin in H. discriminate.
Qed.

Lemma memn_In : forall x l, memn x l = true <-> In x l.
Proof.
  intros x l. unfold memn. rewrite existsb_exists. split.
  - intros [y [Hy He]]. apply Nat.eqb_eq in He. subst. exact Hy.
  - intros H. exists x. split; [exact H | apply Nat.eqb_refl].
Qed.

Lemma inclb_incl : forall a b, inclb a b = true -> forall x, In x a -> In x b.
Proof.
  intros a b H x Hx. unfold inclb in H. rewrite forallb_forall in H.
  apply memp_In. apply H. exact Hx.
Qed.

Lemma reach_closed_step : forall h l o o',
  reach_closed h l = true -> In o l -> In o' (cont h o) -> In o' l.
Proof.
  intros h l o o' H Ho Ho'. unfold reach_closed in H. rewrite forallb_forall in H.
  eapply inclb_incl; [apply H; exact Ho | exact Ho'].
Qed.

Lemma closed_under_reach (P : cell -> Prop) s d c :
  (forall a b, edges s a b -> P a -> P b) -> reach s d c -> P d -> P c.
Proof. intros H Hr. induction Hr; eauto. Qed.

Section Soundness.
  Variables (h : hints) (s0 : state) (lab0 : cell -> site).

  (** the last two fields tie the labelling to the entry state: cells allocated at entry stay
      allocated and keep their entry label [lab0], whatever is allocated and labelled later.
      That is what lets [inv_site_excl] speak of the regions of the ENTRY state. *)
  Record inv (lab : cell -> site) (s : state) : Prop := mkInv {
    i_env : forall x c, env s x c -> In (lab c) (pt h x);
    i_edge : forall a b, edges s a b -> In (lab b) (cont h (lab a));
    i_envalloc : forall x c, env s x c -> alloc s c;
    i_edgealloc : forall a b, edges s a b -> alloc s a /\ alloc s b;
    i_mono : forall c, alloc s0 c -> alloc s c;
    i_entry : forall c, alloc s0 c -> lab c = lab0 c }.
  Arguments i_env {lab s}.
  Arguments i_edge {lab s}.
  Arguments i_envalloc {lab s}.
  Arguments i_edgealloc {lab s}.
  Arguments i_mono {lab s}.
  Arguments i_entry {lab s}.

  Lemma inv_reach : forall lab s l d c,
    inv lab s -> reach_closed h l = true -> reach s d c -> In (lab d) l -> In (lab c) l.
  Proof.
    intros lab s l d c Hi Hc. apply (closed_under_reach (fun c => In (lab c) l)).
    intros a b Hab Ha. eapply reach_closed_step; [exact Hc | exact Ha | apply (i_edge Hi), Hab].
  Qed.

  (** [x] may in addition be bound to cells of [New], all labelled within [pt h x];
      nothing else changes *)
  Lemma inv_weak_update lab s s' x (New : cell -> Prop) :
    inv lab s ->
    (forall c, env s' x c -> env s x c \/ New c) ->
    (forall z, z <> x -> forall d, env s' z d <-> env s z d) ->
    (forall a b, edges s' a b <-> edges s a b) ->
    (forall d, alloc s' d <-> alloc s d) ->
    (forall c, New c -> In (lab c) (pt h x) /\ alloc s c) ->
    inv lab s'.
  Proof.
    intros Hi Hx Hz He Ha Hnew.
    assert (Henv : forall z d, env s' z d -> In (lab d) (pt h z) /\ alloc s d).
    { intros z d Hd. destruct (Pos.eq_dec z x) as [-> | Hne].
      - destruct (Hx d Hd) as [Ho | Hn]; [ | exact (Hnew d Hn)].
        split; [apply (i_env Hi) | apply (i_envalloc Hi x)]; exact Ho.
      - apply (Hz z Hne) in Hd. split; [apply (i_env Hi) | apply (i_envalloc Hi z)]; exact Hd. }
    constructor.
    - intros z d Hd. apply (Henv z d Hd).
    - intros a b Hab. apply (i_edge Hi), He, Hab.
    - intros z d Hd. apply Ha, (Henv z d Hd).
    - intros a b Hab. apply He in Hab. destruct (i_edgealloc Hi _ _ Hab). split; apply Ha; assumption.
    - intros d Hd. apply Ha, (i_mono Hi), Hd.
    - apply (i_entry Hi).
  Qed.

  (** one step preserves the invariant, for a possibly extended labelling; how the new
      labelling relates to the old one is not recorded, [i_entry] pins all that is needed *)
  Lemma step_inv : forall lab s st oe s',
    inv lab s -> valid_stmt h st = true -> step s st oe s' ->
    exists lab', inv lab' s'.
  Proof.
    intros lab s st oe s' Hi Hv Hs.
    destruct Hs as [x c s' Hna Hx Hy He Ha
                   | x y s' Hx Hz He Ha
                   | x y s' Hx Hz He Ha
                   | x y s' Hx Hz He Ha
                   | x y s' Hz He1 He2 Ha
                   | x c Hc | | r c Hc | g r c Hc | g r c Hc];
      try (exists lab; exact Hi).
    - (* Fresh: the new cell is labelled by its allocation site *)
      exists (fun d => if Nat.eqb d c then x else lab d).
      assert (Hold : forall d, alloc s d -> Nat.eqb d c = false).
      { intros d Hd. apply Nat.eqb_neq. intros ->. exact (Hna Hd). }
      constructor.
      + intros z d Hd. destruct (Pos.eq_dec z x) as [-> | Hne].
        * apply Hx in Hd. subst d. rewrite Nat.eqb_refl. apply memp_In. exact Hv.
        * apply (Hy z Hne) in Hd. rewrite (Hold d (i_envalloc Hi _ _ Hd)). apply (i_env Hi), Hd.
      + intros a b Hab. apply He in Hab. destruct (i_edgealloc Hi _ _ Hab) as [Haa Hab'].
        rewrite (Hold a Haa), (Hold b Hab'). apply (i_edge Hi), Hab.
      + intros z d Hd. apply Ha. destruct (Pos.eq_dec z x) as [-> | Hne].
        * right. apply Hx, Hd.
        * left. apply (i_envalloc Hi z), (Hy z Hne), Hd.
      + intros a b Hab. apply He in Hab. destruct (i_edgealloc Hi _ _ Hab).
        split; apply Ha; left; assumption.
      + intros d Hd. apply Ha. left. apply (i_mono Hi), Hd.
      + intros d Hd. rewrite (Hold d (i_mono Hi _ Hd)). apply (i_entry Hi), Hd.
    - (* Assign *)
      exists lab. apply (inv_weak_update lab s s' x (env s y) Hi Hx Hz He Ha).
      intros c Hc. split; [ | apply (i_envalloc Hi y), Hc].
      eapply inclb_incl; [exact Hv | apply (i_env Hi), Hc].
    - (* Load *)
      exists lab. apply (inv_weak_update lab s s' x _ Hi Hx Hz He Ha).
      intros c (d & Hyd & Hdc). split; [ | apply (i_edgealloc Hi _ _ Hdc)].
      cbn in Hv. rewrite forallb_forall in Hv.
      eapply inclb_incl; [apply Hv, (i_env Hi), Hyd | apply (i_edge Hi), Hdc].
    - (* Reach *)
      cbn in Hv. apply andb_true_iff in Hv. destruct Hv as [Hv1 Hv2].
      exists lab. apply (inv_weak_update lab s s' x _ Hi Hx Hz He Ha).
      intros c (d & Hyd & Hr). split.
      + eapply inv_reach; [exact Hi | exact Hv2 | exact Hr | ].
        eapply inclb_incl; [exact Hv1 | apply (i_env Hi), Hyd].
      + apply (closed_under_reach (alloc s) s d c); [ | exact Hr | apply (i_envalloc Hi y), Hyd].
        intros a b Hab _. apply (i_edgealloc Hi _ _ Hab).
    - (* Store: the only new edges go from cells of [x] to cells of [y] *)
      exists lab. constructor.
      + intros z d Hd. apply (i_env Hi), Hz, Hd.
      + intros a b Hab. destruct (He2 a b Hab) as [Ho | [Hxa Hyb]]; [apply (i_edge Hi), Ho | ].
        cbn in Hv. rewrite forallb_forall in Hv.
        eapply inclb_incl; [apply Hv, (i_env Hi), Hxa | apply (i_env Hi), Hyb].
      + intros z d Hd. apply Ha, (i_envalloc Hi z), Hz, Hd.
      + intros a b Hab. destruct (He2 a b Hab) as [Ho | [Hxa Hyb]].
        * destruct (i_edgealloc Hi _ _ Ho). split; apply Ha; assumption.
        * split; apply Ha; eapply (i_envalloc Hi); eassumption.
      + intros d Hd. apply Ha, (i_mono Hi), Hd.
      + apply (i_entry Hi).
  Qed.

  (** a variable that cannot point to site [st] is not bound to a cell that had label [st] at entry *)
  Lemma inv_site_excl lab s x c st (Q : cell -> Prop) :
    inv lab s -> env s x c -> negb (memp st (pt h x)) = true ->
    (forall c, Q c -> alloc s0 c /\ lab0 c = st) -> ~ Q c.
  Proof.
    intros Hi Hx Hok HQ Hp. destruct (HQ _ Hp) as [Hal Hl].
    apply negb_true_iff, memp_false in Hok. apply Hok.
    rewrite <- Hl, <- (i_entry Hi _ Hal). apply (i_env Hi), Hx.
  Qed.

  (** the policy, and the two protected regions: each lies inside one entry site *)
  Variables (wl rd : list sname) (allow_g : bool) (ps gs : site).
  Variables (Prot GProt : cell -> Prop).
  Hypothesis Prot_lab : forall c, Prot c -> alloc s0 c /\ lab0 c = ps.
  Hypothesis GProt_lab : forall c, GProt c -> alloc s0 c /\ lab0 c = gs.

  Lemma step_safe : forall lab s st e s',
    inv lab s -> stmt_ok wl rd allow_g h ps gs st = true -> step s st (Some e) s' ->
    safe_event wl rd allow_g Prot GProt e.
  Proof.
    intros lab s st e s' Hi Hok Hs. inversion Hs; subst; cbn in Hok |- *;
      try discriminate; try (apply orb_true_iff in Hok; destruct Hok as [Hg | Hok]).
    - (* Mutate *) eapply inv_site_excl; [exact Hi | eassumption | exact Hok | exact Prot_lab].
    - (* Draw *) left. exact Hg.
    - right. eapply inv_site_excl; [exact Hi | eassumption | exact Hok | exact GProt_lab].
    - (* StateRead *) left. apply memn_In, Hg.
    - right. eapply inv_site_excl; [exact Hi | eassumption | exact Hok | exact Prot_lab].
    - (* StateWrite *) left. apply memn_In, Hg.
    - right. eapply inv_site_excl; [exact Hi | eassumption | exact Hok | exact Prot_lab].
  Qed.

  Lemma run_safe : forall P s tr s',
    forallb (valid_stmt h) P = true ->
    forallb (stmt_ok wl rd allow_g h ps gs) P = true ->
    run P s tr s' ->
    forall lab, inv lab s -> Forall (safe_event wl rd allow_g Prot GProt) tr.
  Proof.
    intros P s tr s' Hv Hok Hr. rewrite forallb_forall in Hv, Hok.
    induction Hr as [s | s st oe s1 tr s2 Hin Hst Hr IH]; intros lab Hi.
    - constructor.
    - destruct (step_inv lab s st oe s1 Hi (Hv _ Hin) Hst) as [lab' Hi'].
      destruct oe as [e | ]; cbn; [constructor | ]; try (eapply IH; exact Hi').
      eapply step_safe; [exact Hi | apply Hok; exact Hin | exact Hst].
  Qed.
End Soundness.

(** the caller's region / the global generator at entry *)
Definition region (kind : cell -> nat) (s0 : state) (k : nat) (c : cell) : Prop :=
  alloc s0 c /\ kind c = k.

Definition label_of (f : func) (kind : cell -> nat) (c : cell) : site :=
  match kind c with
  | 0 => f_psite f
  | 1 => f_osite f
  | 2 => f_grng f
  | _ => f_rsite f
  end.

(** what [check_fun] establishes about the four region sites: every root points to the site of
    its region, each site may reference itself, and [f_rsite] may reference [f_psite] *)
Definition sites_ok (h : hints) (f : func) : Prop :=
  (forall p, In p (f_params f) -> In (f_psite f) (pt h p)) /\
  (forall o, In o (f_owned f) -> In (f_osite f) (pt h o)) /\
  (forall o, In o (f_ownref f) -> In (f_rsite f) (pt h o)) /\
  In (f_grng f) (pt h (f_grng f)) /\
  In (f_psite f) (cont h (f_psite f)) /\ In (f_osite f) (cont h (f_osite f)) /\
  In (f_grng f) (cont h (f_grng f)) /\ In (f_rsite f) (cont h (f_rsite f)) /\
  In (f_psite f) (cont h (f_rsite f)).

(** the four conjuncts of [check_fun] on the receiver's private state (the class invariant) are not
    needed for the safety of the events *)
Lemma check_fun_safety_conjuncts wl rd allow_g S h f P :
  check_fun wl rd allow_g S h f = true -> prims S (f_body f) = Some P ->
  forallb (valid_stmt h) P = true /\
  forallb (stmt_ok wl rd allow_g h (f_psite f) (f_grng f)) P = true /\ sites_ok h f.
Proof.
  unfold check_fun. intros Hc HP. rewrite HP in Hc.
  apply andb_prop in Hc as
    [[[[[[[[[[[[[[Hv Hpar]%andb_prop Hown]%andb_prop Href]%andb_prop Hg]%andb_prop Hpp]%andb_prop
      Hoo]%andb_prop Hgg]%andb_prop Hrr]%andb_prop Hpr]%andb_prop _]%andb_prop _]%andb_prop
      _]%andb_prop _]%andb_prop Hok].
  rewrite forallb_forall in Hpar, Hown, Href.
  split; [exact Hv | split; [exact Hok | ]].
  repeat split; try (intros x Hx); apply memp_In; auto.
Qed.

Lemma inv_entry h f kind s0 :
  entry_ok (f_params f) (f_owned f) (f_ownref f) (f_grng f) kind s0 -> sites_ok h f ->
  inv h s0 (label_of f kind) (label_of f kind) s0.
Proof.
  intros (Ea & Ee & Er & Ep & Eo & Eg & Erf) (Hpar & Hown & Href & Hg & Hpp & Hoo & Hgg & Hrr & Hpr).
  constructor; auto.
  - intros x c Hx. unfold label_of.
    destruct (Er x c Hx) as [Hin | [Hin | [Hin | Hin]]].
    + rewrite (Ep x c Hx Hin). auto.
    + rewrite (Eo x c Hx Hin). auto.
    + subst x. rewrite (Eg c Hx). exact Hg.
    + rewrite (Erf x c Hx Hin). auto.
  - intros a b Hab. destruct (Ee a b Hab) as [_ [_ Hk]]. unfold label_of.
    destruct Hk as [Hk | [Hk3 Hk0]].
    + rewrite Hk. destruct (kind b) as [ | [ | [ | k]]]; assumption.
    + rewrite Hk3, Hk0. exact Hpr.
  - intros a b Hab. destruct (Ee a b Hab) as [H1 [H2 _]]. split; assumption.
Qed.

Theorem checker_sound : forall wl rd allow_g S h f P kind s0 tr s,
  check_fun wl rd allow_g S h f = true ->
  prims S (f_body f) = Some P ->
  entry_ok (f_params f) (f_owned f) (f_ownref f) (f_grng f) kind s0 ->
  run P s0 tr s ->
  Forall (safe_event wl rd allow_g (region kind s0 0) (region kind s0 2)) tr.
Proof.
  intros wl rd allow_g S h f P kind s0 tr s Hc HP He Hr.
  destruct (check_fun_safety_conjuncts _ _ _ _ _ _ _ Hc HP) as (Hv & Hok & Hs).
  refine (run_safe h s0 (label_of f kind) wl rd allow_g (f_psite f) (f_grng f) _ _ _ _
                   P s0 tr s Hv Hok Hr _ (inv_entry h f kind s0 He Hs));
    intros c [Hal Hk]; (split; [exact Hal | ]); unfold label_of; rewrite Hk; reflexivity.
Qed.

(** region 3 (what the receiver references) may point into region 0 (the caller's); no other
    region has outgoing edges *)
Lemma region_closed params owned ownref g kind s0 k :
  entry_ok params owned ownref g kind s0 -> k <> 3 ->
  forall a b, edges s0 a b -> region kind s0 k a -> region kind s0 k b.
Proof.
  intros (_ & Ee & _) Hk a b Hab [_ Hka]. destruct (Ee a b Hab) as (_ & Hb & [Hkk | [H3 _]]).
  - split; [exact Hb | congruence].
  - congruence.
Qed.

Lemma protected_region : forall f kind s0 c,
  entry_ok (f_params f) (f_owned f) (f_ownref f) (f_grng f) kind s0 ->
  protected (f_params f) s0 c -> region kind s0 0 c.
Proof.
  intros f kind s0 c He (p & Hp & d & Hd & Hr).
  apply (closed_under_reach _ s0 d c (region_closed _ _ _ _ _ _ 0 He ltac:(discriminate)) Hr).
  destruct He as (Ea & _ & _ & Ep & _). split; [exact (Ea _ _ Hd) | exact (Ep _ _ Hd Hp)].
Qed.

Lemma safe_event_weaken : forall wl rd ag (P P' G G' : cell -> Prop) e,
  (forall c, P' c -> P c) -> (forall c, G' c -> G c) ->
  safe_event wl rd ag P G e -> safe_event wl rd ag P' G' e.
Proof.
  intros wl rd ag P P' G G' e HP HG. destruct e; cbn; intuition.
Qed.

(** * The generated program: policy and whole-API statements *)
From Coq Require Import String.
From PV Require Import Gen.AliasIR.

(** the documented exception: the estimate state of sensor models handed to a filter *)
Definition estimate_slots : list sname :=
  [sl_inertial_sensor_EstimationModel_transform; sl_inertial_sensor_EstimationModel_bias].

Definition filter_fnames : list fname :=
  [fn_filters_run_feedback_filter; fn_filters_run_feedforward_filter].

(** [apply_imu_parameters] with default [Parameters()] uses numpy's global generator
    (documented: "None corresponds to nondeterministic seeding") and, like [Parameters.apply],
    stores the documented attribute [data_frame] on the [Parameters] objects it is given *)
Definition global_rng_users : list fname := [fn_inertial_sensor_apply_imu_parameters].

Definition C19_policy : policy := fun n =>
  if memn n filter_fnames then (estimate_slots, readonly_slots ++ estimate_slots, false)
  else if memn n global_rng_users
       then ([sl_inertial_sensor_Parameters_data_frame],
             readonly_slots ++ [sl_inertial_sensor_Parameters_data_frame], true)
  else ([], readonly_slots, false).

Definition gen_summaries : summaries := summaries_of generated_progs.

Definition is_public (e : entry) : bool := memn (e_name e) public_fnames.

Lemma all_public_pure :
  forallb (fun e => negb (is_public e) || check_entry C19_policy gen_summaries e) generated_progs = true.
Proof. vm_compute. reflexivity. Qed.

Lemma all_summaries_ok :
  forallb (fun e => summary_ok gen_summaries (e_hints_sum e) (e_reach e) (e_fun e) (e_sum e))
          generated_progs = true.
Proof. vm_compute. reflexivity. Qed.

(** [forallb (fun g => negb (memn g w)) l] under a name of its own: with [w] a large closed
    term standing under the binder [g], evaluation as it stands would recompute it for every
    [g]; as an argument of [disjointb] it is computed once *)
Definition disjointb (l w : list nat) : bool := forallb (fun g => negb (memn g w)) l.

Lemma disjointb_forallb l w : disjointb l w = true -> forallb (fun g => negb (memn g w)) l = true.
Proof. exact (fun H => H). Qed.

Fixpoint nodupb (l : list string) : bool :=
  match l with
  | [] => true
  | x :: t => negb (existsb (String.eqb x) t) && nodupb t
  end.

Lemma nodupb_NoDup : forall l, nodupb l = true -> NoDup l.
Proof.
  induction l as [ | x t IH]; intros H; [constructor | ].
  cbn in H. apply andb_true_iff in H. destruct H as [Hx Ht]. constructor; [ | apply IH; exact Ht].
  intros Hin. apply negb_true_iff in Hx.
  assert (existsb (String.eqb x) t = true) as Hc.
  { apply existsb_exists. exists x. split; [exact Hin | apply String.eqb_refl]. }
  rewrite Hc in Hx. discriminate.
Qed.

Lemma schema_constants :
  TRAJECTORY_COLS = LLA_COLS ++ VEL_COLS ++ RPH_COLS /\
  TRAJECTORY_ERROR_COLS = NED_COLS ++ VEL_COLS ++ RPH_COLS /\
  TRAJECTORY_COLS = DOC_Trajectory /\
  GYRO_COLS ++ ACCEL_COLS = DOC_Imu /\
  LIT_Increments = DOC_Increments /\
  ("dt"%string :: THETA_COLS ++ DV_COLS) = DOC_Increments /\
  TRAJECTORY_ERROR_COLS = DOC_TrajectoryError /\
  LIT_BodyVelocity = ["VX"; "VY"; "VZ"]%string /\
  NoDup DOC_Trajectory /\ NoDup DOC_Imu /\ NoDup DOC_Increments /\ NoDup DOC_TrajectoryError /\
  NoDup (LLA_COLS ++ VEL_COLS ++ RPH_COLS ++ RATE_COLS ++ GYRO_COLS ++ ACCEL_COLS
         ++ THETA_COLS ++ DV_COLS ++ NED_COLS).
Proof.
  repeat split; try reflexivity; apply nodupb_NoDup; vm_compute; reflexivity.
Qed.

(** ** small programs for the checker *)
Local Open Scope positive_scope.

(** [def f(a): a += 1]   (1 = module root, 2 = a, 3 = global generator, 4, 5 = reserved sites) *)
Definition bad_f : func :=
  mkFunc [1; 2] [] [] 3 1 4 5 [[2]; [6]; [1]; [7]; [3]; [8]] [0%nat; 2%nat; 4%nat] []
         [Mutate 2; Fresh 9; Assign 9 2; Assign 10 9] 10 11.

(** [def g(a): b = a.copy(); b += 1; return b]  is accepted (with the obvious solution) *)
Definition good_f : func :=
  mkFunc [1; 2] [] [] 3 1 4 5 [[2]; [6]; [1]; [7]; [3]; [8]] [0%nat; 2%nat; 4%nat] []
         [Fresh 9; Mutate 9; Fresh 10; Assign 10 9; Assign 11 10] 11 12.

Definition good_h : hints :=
  mkHints (of_list [(1, [1]); (2, [1]); (3, [3]); (9, [9]); (10, [10; 9]); (11, [10; 9])])
          (of_list [(1, [1]); (3, [3]); (4, [4]); (5, [5; 1])]).

(** a draw from the global generator object / a call of numpy's module-level generator *)
Definition bad_rng : func :=
  mkFunc [1] [] [] 3 1 4 5 [[1]; [7]; [3]; [8]] [0%nat; 2%nat] [] [Assign 9 3; Draw 9] 10 11.

Definition bad_global : func :=
  mkFunc [1] [] [] 3 1 4 5 [[1]; [7]; [3]; [8]] [0%nat; 2%nat] [] [GlobalRng] 10 11.
