(** C16, Tier B: accuracy of Olson's series guess on the ellipsoid surface, by interval arithmetic.
    Built and checked in the thorough tier only.

    [ecef_to_lla__10] and [ecef_to_lla__24] are the nodes of the generated text of transform.ecef_to_lla
    (Gen/Transform.v) that hold the series guesses `s` (sine of |lat|, arcsin branch) and `c` (cosine of lat,
    arccos branch) of the source; the statement of Props/C16B.v names them, and the numbers move when the
    translator numbers its nodes differently. *)
From Coq Require Import Reals Lra.
From Interval Require Import Tactic.
From PV Require Import Base.RealTac Spec.Ellipsoid Gen.Transform.
Open Scope R_scope.

(* Olson's two series guesses depend on the point only through its inverse geocentric radius q and the
   sine s, resp. the cosine g, of its geocentric latitude.  The five constants are a1 = A e2, a2 = a1^2,
   a3 = a1 e2 / 2, a4 = 5/2 a2 and a5 = a1 + a3 of Olson's series, as ecef_to_lla (pyins/transform.py)
   computes them from earth.A and earth.E2, in the decimal form in which the generated text carries them
   (in [olson_sin]: a1, a2, a3, a4 in this order; [olson_cos] begins with a5). *)
Definition olson_sin (q s : R) : R :=
  s * (1 + (1 - s * s) * (2134883635358993 / 50000000000 + 9115456273047259 / 5000000 * q
                          + s * s * (89323264311421 / 625000000000 - 4557728136523629 / 1000000 * q)) * q).
Definition olson_cos (q g : R) : R :=
  g * (1 - (1 - g * g) * (4284058993007813 / 100000000000 - 9115456273047259 / 5000000 * q
                          - g * g * (89323264311421 / 625000000000 - 4557728136523629 / 1000000 * q)) * q).

Lemma olson_guess_polar q g s : 0 < q -> 0 <= g -> 0 <= s -> g * g + s * s = 1 ->
  ecef_to_lla__10 (g / q) 0 (s / q) = olson_sin q s /\ ecef_to_lla__24 (g / q) 0 (s / q) = olson_cos q g.
Proof.
  intros Hq Hg Hs H.
  assert (Hi : 0 < / q) by (apply Rinv_0_lt_compat, Hq).
  assert (Hw : sqrt (g / q * (g / q) + 0 * 0) = g / q).
  { rewrite Rmult_0_l, Rplus_0_r. apply sqrt_square, Rmult_le_pos; lra. }
  assert (Hz : Rabs (s / q) = s / q) by (apply Rabs_pos_eq, Rmult_le_pos; lra).
  assert (Hr : s / q * (s / q) + g / q * (g / q) = / q * / q)
    by (rewrite <- (Rmult_1_l (/ q * / q)), <- H; unfold Rdiv; ring).
  assert (Hrr : sqrt (/ q * / q) = / q) by (apply sqrt_square; lra).
  assert (Hgg : g * g = 1 - s * s) by lra.
  unfold olson_sin, olson_cos, ecef_to_lla__10, ecef_to_lla__24. repeat autounfold with ecef_to_lla_db.
  rewrite !Hw, !Hr, !Hrr, !Hz.
  (* the coefficients play no part in the identity: as variables they keep [field]'s polynomials small *)
  generalize (2134883635358993 / 50000000000) (9115456273047259 / 5000000) (89323264311421 / 625000000000)
    (4557728136523629 / 1000000) (4284058993007813 / 100000000000). intros a1 a2 a3 a4 a5.
  split; (field_simplify_eq; [ring [Hgg]|lra]).
Qed.

(* The surface point whose geodetic latitude has sine s and cosine c: inverse geocentric radius, and sine and
   cosine of the geocentric latitude. *)
Lemma surface_polar s c : s * s + c * c = 1 -> 0 <= s -> 0 <= c ->
  let u := sqrt (1 - E2_ * (2 - E2_) * (s * s)) in
  let q := sqrt (1 - E2_ * (s * s)) / (A_ * u) in
  A_ / sqrt (1 - E2_ * (s * s)) * c = c / u / q /\
  (1 - E2_) * (A_ / sqrt (1 - E2_ * (s * s))) * s = (1 - E2_) * s / u / q /\
  0 < q /\ 0 <= c / u /\ 0 <= (1 - E2_) * s / u /\
  c / u * (c / u) + (1 - E2_) * s / u * ((1 - E2_) * s / u) = 1.
Proof.
  intros H Hs Hc u q.
  assert (Hcc : c * c = 1 - s * s) by lra.
  assert (0 <= s * s <= 1) by nra.
  assert (Hv : 0 < sqrt (1 - E2_ * (s * s))) by (apply sqrt_lt_R0; unfold E2_; nra).
  assert (Huu : u * u = 1 - E2_ * (2 - E2_) * (s * s)) by (apply sqrt_sqrt; unfold E2_; nra).
  assert (Hu : 0 < u) by (apply sqrt_lt_R0; unfold E2_; nra).
  unfold q, A_. clearbody u. clear q.
  repeat split.
  - field. lra.
  - field. lra.
  - apply Rdiv_lt_0_compat; [exact Hv|nra].
  - apply Rmult_le_pos; [exact Hc|left; apply Rinv_0_lt_compat, Hu].
  - apply Rmult_le_pos; [unfold E2_; nra|left; apply Rinv_0_lt_compat, Hu].
  - field_simplify_eq; [|lra]. ring [Hcc Huu].
Qed.

(* The ranges of the two bounds are those of the statement in Props/C16B.v, in terms of s = sin phi and
   c = cos phi and rounded outward: sin 1 <= 0.8415, cos 1.55 >= 0.0207, cos 0.99 <= 0.5488. *)
Lemma sin_guess_bound s : 0 <= s <= 8415 / 10000 ->
  let u := sqrt (1 - E2_ * (2 - E2_) * (s * s)) in
  Rabs (olson_sin (sqrt (1 - E2_ * (s * s)) / (A_ * u)) ((1 - E2_) * s / u) - s) <= 1 / 10000000.
Proof.
  intros H u. subst u. unfold olson_sin, A_, E2_.
  interval with (i_bisect s, i_depth 3, i_taylor s, i_degree 5, i_prec 30).
Qed.

Lemma cos_guess_bound s c : s * s = 1 - c * c -> 207 / 10000 <= c <= 5488 / 10000 ->
  let u := sqrt (1 - E2_ * (2 - E2_) * (s * s)) in
  Rabs (olson_cos (sqrt (1 - E2_ * (s * s)) / (A_ * u)) (c / u) - c) <= 1 / 10000000.
Proof.
  intros -> H u. subst u. unfold olson_cos, A_, E2_.
  interval with (i_taylor c, i_degree 5, i_prec 30).
Qed.

Lemma olson_guess_surface_bound_partial phi :
  let x := R_transverse A_ E2_ phi * cos phi in
  let z := (1 - E2_) * R_transverse A_ E2_ phi * sin phi in
  (0 <= phi <= 1 -> Rabs (ecef_to_lla__10 x 0 z - sin phi) <= 1 / 10000000) /\
  (99 / 100 <= phi <= 155 / 100 -> Rabs (ecef_to_lla__24 x 0 z - cos phi) <= 1 / 10000000).
Proof.
  cbv zeta. unfold R_transverse, W2.
  split; intro H.
  - assert (Hs : 0 <= sin phi <= 8415 / 10000) by interval with (i_prec 30).
    assert (Hc : 0 <= cos phi) by interval with (i_prec 30).
    destruct (surface_polar _ _ (sc1 phi) (proj1 Hs) Hc) as (-> & -> & Hq & Hg & Hk & H1).
    rewrite (proj1 (olson_guess_polar _ _ _ Hq Hg Hk H1)).
    exact (sin_guess_bound _ Hs).
  - assert (Hs : 0 <= sin phi) by interval with (i_prec 30).
    assert (Hc : 207 / 10000 <= cos phi <= 5488 / 10000) by interval with (i_prec 30).
    destruct (surface_polar (sin phi) (cos phi) (sc1 phi) Hs ltac:(lra)) as (-> & -> & Hq & Hg & Hk & H1).
    rewrite (proj2 (olson_guess_polar _ _ _ Hq Hg Hk H1)).
    apply (cos_guess_bound (sin phi)); [pose proof (sc1 phi); lra|exact Hc].
Qed.
