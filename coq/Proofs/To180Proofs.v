(** C18 (T part): [util.to_180_range] reduces every real angle to the congruent
    value in (-180, 180].  Proved against the GENERATED rendering in Gen/Util.v
    ([to_180_range_r]: scalar code path, [to_180_range_arr_r]: ndarray / pandas
    code path) where Python's float [%] is [pymod x m = x - m * IZR (Int_part (x/m))]. *)
From Coq Require Import Reals ZArith Lra Lia.
From PV Require Import Spec.LibSpecs Gen.Util.
Open Scope R_scope.

(** ** Python's [x % 360] over the reals *)

Lemma pymod360_range : forall x, 0 <= pymod x 360 < 360.
Proof.
  intro x.
  replace (pymod x 360) with (360 * frac_part (x / 360))
    by (unfold pymod, Rfloor, frac_part; field).
  destruct (base_fp (x / 360)) as [H0 H1]. lra.
Qed.

Lemma pymod360_congruent : forall x, x = pymod x 360 + 360 * IZR (Int_part (x / 360)).
Proof.
  intro x. unfold pymod, Rfloor. lra.
Qed.

(** ** Uniqueness of the representative in (-180, 180] *)

Lemma repr180_unique : forall r r' (k : Z),
  -180 < r <= 180 -> -180 < r' <= 180 -> r = r' + 360 * IZR k -> r = r'.
Proof.
  intros r r' k Hr Hr' E.
  assert (Hk : (k = 0)%Z).
  { assert (H1 : IZR k < 1) by lra.
    assert (H2 : -1 < IZR k) by lra.
    apply lt_IZR in H1. change (-1) with (IZR (-1)) in H2. apply lt_IZR in H2. lia. }
  subst k. simpl in E. lra.
Qed.

(** ** The scalar and the array code path *)

(** [x % 360] is never below -180, so the first test of either path is dead *)
Lemma to180_scalar_cases : forall x,
  (pymod x 360 <= 180 /\ to_180_range_r x = pymod x 360) \/
  (180 < pymod x 360 /\ to_180_range_r x = pymod x 360 - 360).
Proof.
  intro x. pose proof (pymod360_range x) as Hm.
  unfold to_180_range_r. autounfold with to_180_range_db.
  destruct (Rlt_dec (pymod x 360) (-180)) as [Hlt | _]; [lra |].
  destruct (Rgt_dec (pymod x 360) 180) as [Hgt | Hgt].
  - right. split; [lra | reflexivity].
  - left. split; [lra | reflexivity].
Qed.

Theorem to180_scalar_eq_array : forall x, to_180_range_r x = to_180_range_arr_r x.
Proof.
  intro x. pose proof (pymod360_range x) as Hm.
  unfold to_180_range_r, to_180_range_arr_r.
  autounfold with to_180_range_db to_180_range_arr_db.
  destruct (Rlt_dec (pymod x 360) (-180)) as [Hlt | _]; [lra |].
  destruct (Rgt_dec (pymod x 360) 180); reflexivity.
Qed.

Theorem to180_range_congruent : forall x : R,
  -180 < to_180_range_r x <= 180 /\ exists k : Z, x = to_180_range_r x + 360 * IZR k.
Proof.
  intro x. pose proof (pymod360_range x) as Hm.
  pose proof (pymod360_congruent x) as Hc.
  destruct (to180_scalar_cases x) as [[H1 E1] | [H1 E1]]; rewrite E1.
  - split; [lra |]. exists (Int_part (x / 360)). exact Hc.
  - split; [lra |]. exists (Int_part (x / 360) + 1)%Z. rewrite plus_IZR. lra.
Qed.

Lemma to180_unique : forall x r (k : Z),
  -180 < r <= 180 -> x = r + 360 * IZR k -> to_180_range_r x = r.
Proof.
  intros x r k Hr E.
  destruct (to180_range_congruent x) as [Hrange [k' E']].
  apply (repr180_unique _ _ (k - k')%Z); try assumption.
  rewrite minus_IZR. lra.
Qed.

Theorem to180_of_in_range : forall x, -180 < x <= 180 -> to_180_range_r x = x.
Proof.
  intros x Hx. apply (to180_unique x x 0%Z); [assumption | simpl; lra].
Qed.

Theorem to180_congruent_eq : forall x y (k : Z),
  x = y + 360 * IZR k -> to_180_range_r x = to_180_range_r y.
Proof.
  intros x y k E.
  destruct (to180_range_congruent y) as [Hr [k' E']].
  apply (to180_unique x _ (k + k')%Z); [assumption |].
  rewrite plus_IZR. lra.
Qed.

(** Same statements for the array / pandas code path (the one
    [compute_state_difference] uses: it passes a DataFrame / Series). *)
Theorem to180_arr_range_congruent : forall x : R,
  -180 < to_180_range_arr_r x <= 180 /\ exists k : Z, x = to_180_range_arr_r x + 360 * IZR k.
Proof.
  intro x. rewrite <- to180_scalar_eq_array. apply to180_range_congruent.
Qed.

Lemma to180_arr_unique : forall x r (k : Z),
  -180 < r <= 180 -> x = r + 360 * IZR k -> to_180_range_arr_r x = r.
Proof. intro x. rewrite <- to180_scalar_eq_array. apply to180_unique. Qed.

Theorem to180_arr_of_in_range : forall x, -180 < x <= 180 -> to_180_range_arr_r x = x.
Proof. intro x. rewrite <- to180_scalar_eq_array. apply to180_of_in_range. Qed.

Theorem to180_arr_idempotent :
  forall x, to_180_range_arr_r (to_180_range_arr_r x) = to_180_range_arr_r x.
Proof. intro x. apply to180_arr_of_in_range, to180_arr_range_congruent. Qed.

Theorem to180_arr_neg : forall x,
  (to_180_range_arr_r x <> 180 -> to_180_range_arr_r (- x) = - to_180_range_arr_r x) /\
  (to_180_range_arr_r x = 180 -> to_180_range_arr_r (- x) = 180).
Proof.
  intro x. destruct (to180_arr_range_congruent x) as [Hr [k E]]. split.
  - intro Hne. apply (to180_arr_unique (- x) _ (- k)%Z); [lra |].
    rewrite opp_IZR. lra.
  - intro H180. apply (to180_arr_unique (- x) _ (- k - 1)%Z); [lra |].
    rewrite minus_IZR, opp_IZR. lra.
Qed.

(** Non-vacuity / sanity: concrete values, including both endpoints. *)
Example to180_at_180 : to_180_range_r 180 = 180.
Proof. apply to180_of_in_range. lra. Qed.

Example to180_at_m180 : to_180_range_r (-180) = 180.
Proof. apply (to180_unique _ _ (-1)%Z); simpl; lra. Qed.

Example to180_at_540 : to_180_range_r 540 = 180.
Proof. apply (to180_unique _ _ 1%Z); simpl; lra. Qed.

Example to180_at_190 : to_180_range_arr_r 190 = -170.
Proof. apply (to180_arr_unique _ _ 1%Z); simpl; lra. Qed.

Example to180_neg_endpoint :
  to_180_range_r 180 = 180 /\ to_180_range_r (- 180) = 180.
Proof. split; [exact to180_at_180 | exact to180_at_m180]. Qed.

(** the endpoint: a difference of exactly 180 degrees is +180 in both orders
    (heading 100 against -80; the swapped branch of [compute_state_difference]
    wraps AFTER the sign) *)
Lemma angle_180_both_orders :
  to_180_range_arr_r (1 * (100 - -80)) = 180 /\ to_180_range_arr_r (-1 * (100 - -80)) = 180.
Proof.
  split; [apply (to180_arr_unique _ _ 0%Z) | apply (to180_arr_unique _ _ (-1)%Z)]; simpl; lra.
Qed.
