(** C07: kalman.correct (generated: Gen/Kalman.v) is the conditional-Gaussian
    update of Spec/Gaussian.v.  The Cholesky routine is a parameter.  The lemmas assume
    [cholesky_spec] of it (lower factor, invertible); the theorems of sections
    [CorrectPD] and [SequentialPD] assume only [cholesky_factor] and positive definite R, from which
    [cholesky_spec] follows. *)
From mathcomp Require Import all_ssreflect all_algebra.
From PV Require Import Spec.LibSpecsMx Spec.Gaussian Gen.Kalman.
Set Implicit Arguments.
Unset Strict Implicit.
Import Order.Theory GRing.Theory Num.Theory.
Local Open Scope ring_scope.

(** * Inverses, symmetric matrices, block-diagonal quadratic forms *)
Section MxFacts.
Variable F : fieldType.

Lemma invmx_uniq (n : nat) (A B : 'M[F]_n) : A *m B = 1%:M -> invmx A = B.
Proof.
move=> AB; have [uA _] := mulmx1_unit AB.
by rewrite -[B]mul1mx -(mulVmx uA) -mulmxA AB mulmx1.
Qed.

Lemma invmx_mul (n : nat) (A B : 'M[F]_n) :
  A \in unitmx -> B \in unitmx -> invmx (A *m B) = invmx B *m invmx A.
Proof. by move=> uA uB; apply: invmx_uniq; rewrite mulmxA mulmxK // mulmxV. Qed.

Lemma invmx_sym (n : nat) (A : 'M[F]_n) : A^T = A -> (invmx A)^T = invmx A.
Proof. by move=> sA; rewrite trmx_inv sA. Qed.

Lemma sym_conj (n p : nat) (A : 'M[F]_n) (B : 'M[F]_(p, n)) :
  A^T = A -> (B *m A *m B^T)^T = B *m A *m B^T.
Proof. by move=> sA; rewrite !trmx_mul trmxK sA mulmxA. Qed.

(** the shape of a covariance after one linear step: [innov_cov], [propagate], the Joseph form *)
Lemma sym_step (n p : nat) (A : 'M[F]_n) (B : 'M[F]_(p, n)) (C : 'M[F]_p) :
  A^T = A -> C^T = C -> (B *m A *m B^T + C)^T = B *m A *m B^T + C.
Proof. by move=> sA sC; rewrite linearD /= sym_conj // sC. Qed.

Lemma sym_block_diag (m1 m2 : nat) (A : 'M[F]_m1) (B : 'M[F]_m2) :
  A^T = A -> B^T = B -> (block_mx A 0 0 B)^T = block_mx A 0 0 B.
Proof. by move=> sA sB; rewrite tr_block_mx !trmx0 sA sB. Qed.

Lemma quad_block_diag (m1 m2 p q : nat) (A : 'M[F]_m1) (B : 'M[F]_m2)
    (u1 : 'M[F]_(m1, p)) (u2 : 'M[F]_(m2, p)) (v1 : 'M[F]_(m1, q)) (v2 : 'M[F]_(m2, q)) :
  (col_mx u1 u2)^T *m block_mx A 0 0 B *m col_mx v1 v2 = u1^T *m A *m v1 + u2^T *m B *m v2.
Proof. by rewrite tr_col_mx mul_row_block !mulmx0 addr0 add0r mul_row_col. Qed.

End MxFacts.

(** * Positive semidefinite and positive definite matrices (ordered field) *)
Section PsdFacts.
Variable F : realFieldType.

Lemma psd_add (n : nat) (A B : 'M[F]_n) : psd A -> psd B -> psd (A + B).
Proof.
by move=> pA pB x; rewrite mulmxDr mulmxDl mxE; apply: addr_ge0 (pA x) (pB x).
Qed.

Lemma psd_conj (n p : nat) (A : 'M[F]_n) (B : 'M[F]_(p, n)) :
  psd A -> psd (B *m A *m B^T).
Proof.
move=> pA x; have := pA (B^T *m x).
by rewrite trmx_mul trmxK !mulmxA.
Qed.

Lemma psd_step (n p : nat) (A : 'M[F]_n) (B : 'M[F]_(p, n)) (C : 'M[F]_p) :
  psd A -> psd C -> psd (B *m A *m B^T + C).
Proof. by move=> pA pC; apply: psd_add pC; apply: psd_conj. Qed.

Lemma psd0 (n : nat) : psd (0 : 'M[F]_n).
Proof. by move=> x; rewrite mulmx0 mul0mx mxE. Qed.

Lemma psd_scale (n : nat) (Q : 'M[F]_n) (t : F) : 0 <= t -> psd Q -> psd (t *: Q).
Proof.
move=> t0 pQ x; rewrite -scalemxAr -scalemxAl mxE.
by rewrite mulr_ge0.
Qed.

Lemma psd_block_diag (m1 m2 : nat) (A : 'M[F]_m1) (B : 'M[F]_m2) :
  psd A -> psd B -> psd (block_mx A 0 0 B).
Proof. by move=> pA pB x; rewrite -[x]vsubmxK quad_block_diag mxE; apply: addr_ge0 (pA _) (pB _). Qed.

Lemma pd_psd (n : nat) (A : 'M[F]_n) : pd A -> psd A.
Proof.
move=> pA x; have [->|nz] := eqVneq x 0; last exact/ltW/pA.
by rewrite mulmx0 mxE.
Qed.

Lemma pd_add_psd (n : nat) (A B : 'M[F]_n) : psd A -> pd B -> pd (A + B).
Proof.
by move=> pA pB x nz; rewrite mulmxDr mulmxDl mxE; apply: ltr_paddl (pA x) (pB x nz).
Qed.

(** S = H P H^T + R is positive definite for PSD P and positive definite R *)
Lemma pd_step (n p : nat) (A : 'M[F]_n) (B : 'M[F]_(p, n)) (C : 'M[F]_p) :
  psd A -> pd C -> pd (B *m A *m B^T + C).
Proof. by move=> pA pC; apply: pd_add_psd pC; apply: psd_conj. Qed.

Lemma pd_unitmx (n : nat) (A : 'M[F]_n) : pd A -> A \in unitmx.
Proof.
move=> pA; rewrite -row_free_unit -kermx_eq0; apply/rowV0P => v /sub_kermxP vA.
apply/eqP; apply: contraT => nz.
have nzT : v^T != 0 by rewrite -trmx0 (inj_eq trmx_inj).
by have := pA _ nzT; rewrite trmxK vA mul0mx mxE ltxx.
Qed.

Lemma pd_block_diag (m1 m2 : nat) (R1 : 'M[F]_m1) (R2 : 'M[F]_m2) :
  pd R1 -> pd R2 -> pd (block_mx R1 0 0 R2).
Proof.
move=> p1 p2 x; rewrite -[x]vsubmxK; set x1 := usubmx x; set x2 := dsubmx x => nz.
rewrite quad_block_diag mxE.
have /orP[h|h] : (x1 != 0) || (x2 != 0).
- by rewrite -negb_and; apply: contra nz => /andP[/eqP-> /eqP->]; rewrite col_mx0.
- exact: ltr_paddr (pd_psd p2 _) (p1 _ h).
- exact: ltr_paddl (pd_psd p1 _) (p2 _ h).
Qed.

Lemma pd_conj_unit (n : nat) (Phi P : 'M[F]_n) : Phi \in unitmx -> pd P -> pd (Phi *m P *m Phi^T).
Proof.
move=> uPhi pP x nz; have := pP (Phi^T *m x); rewrite trmx_mul trmxK !mulmxA; apply.
have uT : Phi^T \in unitmx by rewrite unitmx_tr.
by apply: contra nz => /eqP e; rewrite -(mulKmx uT x) e mulmx0.
Qed.

Lemma pd_inv (n : nat) (A : 'M[F]_n) : A^T = A -> pd A -> pd (invmx A).
Proof.
move=> sA pA; have uA := pd_unitmx pA.
have := pd_conj_unit (Phi := invmx A) _ pA; rewrite unitmx_inv => /(_ uA).
by rewrite (invmx_sym sA) (mulVmx uA) mul1mx.
Qed.

Lemma quad_scalar (n : nat) (a : F) (x : 'cV[F]_n) :
  (x^T *m a%:M *m x) 0 0 = a * \sum_k x k 0 ^+ 2.
Proof.
rewrite mul_mx_scalar -scalemxAl mxE mxE; congr (_ * _).
by apply: eq_bigr => k _; rewrite mxE expr2.
Qed.

Lemma psd_scalar (n : nat) (a : F) : 0 <= a -> psd (a%:M : 'M[F]_n).
Proof.
move=> a0 x; rewrite quad_scalar mulr_ge0 // sumr_ge0 // => k _.
exact: sqr_ge0.
Qed.

Lemma pd_scalar (n : nat) (a : F) : 0 < a -> pd (a%:M : 'M[F]_n).
Proof.
move=> a0 x nz; rewrite quad_scalar mulr_gt0 // lt_def sumr_ge0 ?andbT; last first.
  by move=> k _; exact: sqr_ge0.
apply: contra nz => /eqP/psumr_eq0P s0; apply/eqP/matrixP => i j.
have /eqP := s0 (fun k _ => sqr_ge0 (x k 0)) i isT.
by rewrite sqrf_eq0 ord1 mxE => /eqP.
Qed.

Lemma pd1 (n : nat) : pd (1%:M : 'M[F]_n).
Proof. exact/pd_scalar/ltr01. Qed.

Lemma psd_gram (n p : nat) (G : 'M[F]_(n, p)) : psd (G *m G^T).
Proof. by have := psd_conj G (pd_psd (@pd1 p)); rewrite mulmx1. Qed.

End PsdFacts.

(** * The shape of the code, written by hand.
      Gen/Kalman.v contains ONLY the three returned values of `correct`, as fully inlined
      terms (their text does not depend on the names of the local variables, on helper
      functions or on equivalent numpy spellings).  The intermediates of the algorithm are
      named HERE, in terms of the specification; the characterising lemmas below prove the
      generated outputs equal to these shapes, and nothing else refers to the generated text. *)
Section CodeShape.
Variable F : fieldType.
Variables n m : nat.
Variable cholesky : 'M[F]_m -> 'M[F]_m.
Variables (x : 'cV[F]_n) (P : 'M[F]_n) (z : 'cV[F]_m) (H : 'M[F]_(m, n)) (R : 'M[F]_m).
Definition correct_HP : 'M[F]_(m, n) := H *m P.
Definition correct_S : 'M[F]_m := innov_cov P H R.
Definition correct_e : 'cV[F]_m := z - H *m x.
Definition correct_L : 'M[F]_m := cholesky correct_S.
Definition correct_K : 'M[F]_(n, m) := (cho_solve correct_L correct_HP)^T.
(** the Joseph form of the covariance update, for an arbitrary gain K *)
Definition joseph (K : 'M[F]_(n, m)) : 'M[F]_n :=
  (1%:M - K *m H) *m P *m (1%:M - K *m H)^T + K *m R *m K^T.
End CodeShape.

(** * Characterising lemmas.  [correct_ret0_eq], [correct_ret1_eq], [correct_ret2_eq] are
      the only place where the generated definitions are unfolded. *)
Section Characterise.
Variable F : fieldType.
Variables n m : nat.
Variable cholesky : 'M[F]_m -> 'M[F]_m.
Variables (x : 'cV[F]_n) (P : 'M[F]_n) (z : 'cV[F]_m) (H : 'M[F]_(m, n)) (R : 'M[F]_m).

Local Notation S := (correct_S P H R).
Local Notation L := (correct_L cholesky P H R).
Local Notation K := (correct_K cholesky P H R).

(** generated text = hand-written shape: by conversion when Gen/Kalman.v is syntactically the
    shape above, otherwise after unfolding both sides and normalising the association of products *)
Ltac code_shape :=
  first [ by []
        | by rewrite /correct_ret0 /correct_ret1 /correct_ret2 /joseph /correct_K /correct_L /correct_e
                     /correct_S /correct_HP /innov_cov /solve_triangular /cho_solve ?mulmxA ?trmxK ].

Lemma correct_S_eq : S = innov_cov P H R.
Proof. by []. Qed.

Lemma correct_L_eq : L = cholesky S.
Proof. by []. Qed.

Lemma correct_ret0_eq : correct_ret0 cholesky x P z H R = x + K *m (z - H *m x).
Proof. code_shape. Qed.

Lemma correct_ret1_eq : correct_ret1 cholesky P H R = joseph P H R K.
Proof. code_shape. Qed.

Lemma correct_ret2_eq : correct_ret2 cholesky x P z H R = invmx L *m (z - H *m x).
Proof. code_shape. Qed.

End Characterise.

(** * Algebra of the Joseph form, for an arbitrary gain *)
Section Joseph.
Variable F : fieldType.
Variables n m : nat.
Variables (P : 'M[F]_n) (H : 'M[F]_(m, n)) (R : 'M[F]_m).

Local Notation S := (innov_cov P H R).
Local Notation joseph := (joseph P H R).

Lemma joseph_expand (K : 'M[F]_(n, m)) :
  joseph K = P - K *m H *m P - P *m H^T *m K^T + K *m S *m K^T.
Proof.
rewrite /joseph /innov_cov linearB /= trmx1 trmx_mul.
rewrite mulmxBl mul1mx mulmxBr mulmx1 mulmxBl.
rewrite (mulmxDr K) (mulmxDl _ _ K^T) !mulmxA opprB !addrA.
by congr (_ + _); rewrite addrAC.
Qed.

(** Any K solving the normal equation K S = P H^T collapses the Joseph form. *)
Lemma joseph_normal_eq (K : 'M[F]_(n, m)) :
  K *m S = P *m H^T -> joseph K = P - K *m H *m P.
Proof. by move=> KS; rewrite joseph_expand KS subrK. Qed.

Lemma joseph_sym (K : 'M[F]_(n, m)) : P^T = P -> R^T = R -> (joseph K)^T = joseph K.
Proof. by move=> sP sR; apply: sym_step sP _; apply: sym_conj. Qed.

Lemma innov_cov_sym : P^T = P -> R^T = R -> S^T = S.
Proof. exact: sym_step. Qed.

Hypothesis uS : S \in unitmx.

Lemma gain_normal_eq : gain P H R *m S = P *m H^T.
Proof. by rewrite /gain mulmxKV. Qed.

Lemma normal_eq_gain (K : 'M[F]_(n, m)) : K *m S = P *m H^T -> K = gain P H R.
Proof. by move=> KS; rewrite /gain -KS mulmxK. Qed.

Lemma joseph_gain : joseph (gain P H R) = cond_cov P H R.
Proof. by rewrite (joseph_normal_eq gain_normal_eq). Qed.

Lemma prior_minus_post :
  P^T = P -> R^T = R ->
  P - cond_cov P H R = gain P H R *m S *m (gain P H R)^T.
Proof.
move=> sP sR; rewrite /cond_cov opprB addrC subrK.
rewrite gain_normal_eq /gain !trmx_mul trmxK sP (invmx_sym (innov_cov_sym sP sR)).
by rewrite !mulmxA.
Qed.

(** cond_cov is the Schur complement of S in the joint covariance of (x, z) *)
Lemma cond_cov_schur :
  cond_cov P H R = schur_compl P (P *m H^T) (H *m P) S.
Proof. by rewrite /cond_cov /schur_compl /gain !mulmxA. Qed.

(** information form *)
Lemma gain_HPHt :
  gain P H R *m H *m P *m H^T = P *m H^T - gain P H R *m R.
Proof. by rewrite -gain_normal_eq /innov_cov mulmxDr !mulmxA addrK. Qed.

Lemma gain_info : R \in unitmx ->
  gain P H R = cond_cov P H R *m H^T *m invmx R.
Proof.
move=> uR; rewrite /cond_cov mulmxBl gain_HPHt opprB addrC subrK.
by rewrite (mulmxK uR).
Qed.

Hypothesis uP : P \in unitmx.
Hypothesis uR : R \in unitmx.

Lemma cond_cov_info : cond_cov P H R *m info_mx P H R = 1%:M.
Proof.
rewrite /cond_cov /info_mx.
rewrite mulmxDr mulmxBl mulmxV // mulmxBl (mulmxK uP).
rewrite !mulmxA gain_HPHt mulmxBl (mulmxK uR) mulmxBl opprB.
by rewrite [_ + (_ - _)]addrC subrK subrK.
Qed.

Lemma info_cond_cov : info_mx P H R *m cond_cov P H R = 1%:M.
Proof. exact/mulmx1C/cond_cov_info. Qed.

Lemma info_mx_unit : info_mx P H R \in unitmx.
Proof. by have [] := mulmx1_unit info_cond_cov. Qed.

Lemma cond_cov_info_cov : cond_cov P H R = info_cov P H R.
Proof. by rewrite /info_cov (invmx_uniq info_cond_cov). Qed.

(** the conditional mean solves the normal equations of the information form *)
Lemma info_mean (x : 'cV[F]_n) (z : 'cV[F]_m) :
  info_mx P H R *m cond_mean x P z H R = info_vec x P z H R.
Proof.
rewrite /cond_mean (gain_info uR) mulmxDr !mulmxA info_cond_cov mul1mx.
rewrite /info_vec /info_mx mulmxDl -addrA; congr (_ + _).
by rewrite -(mulmxA _ H x) -mulmxDr addrCA subrr addr0.
Qed.

End Joseph.

(** * The Joseph form over an ordered field *)
Section JosephOrdered.
Variable F : realFieldType.
Variables n m : nat.
Variables (P : 'M[F]_n) (H : 'M[F]_(m, n)) (R : 'M[F]_m).

Lemma joseph_psd (K : 'M[F]_(n, m)) : psd P -> psd R -> psd (joseph P H R K).
Proof. by move=> pP pR; apply: psd_step pP _; apply: psd_conj. Qed.

Lemma innov_cov_psd : psd P -> psd R -> psd (innov_cov P H R).
Proof. exact: psd_step. Qed.

Lemma innov_cov_pd : psd P -> pd R -> pd (innov_cov P H R).
Proof. exact: pd_step. Qed.

Lemma cond_cov_le_prior :
  innov_cov P H R \in unitmx -> P^T = P -> R^T = R -> psd P -> psd R ->
  loewner_le (cond_cov P H R) P.
Proof.
move=> uS sP sR pP pR; rewrite /loewner_le (prior_minus_post uS sP sR).
exact/psd_conj/innov_cov_psd.
Qed.

End JosephOrdered.

(** * The generated [correct] (field-level statements) *)
Section Correct.
Variable F : fieldType.
Variables n m : nat.
Variable cholesky : 'M[F]_m -> 'M[F]_m.
Variables (x : 'cV[F]_n) (P : 'M[F]_n) (z : 'cV[F]_m) (H : 'M[F]_(m, n)) (R : 'M[F]_m).

Hypothesis sP : P^T = P.
Hypothesis sR : R^T = R.
Hypothesis cS : cholesky_spec cholesky (correct_S P H R).

Local Notation S := (correct_S P H R).
Local Notation L := (correct_L cholesky P H R).

Lemma chol_LLt : L *m L^T = S.
Proof. by case: cS => _ []. Qed.

Lemma chol_unitL : L \in unitmx.
Proof. by case: cS => _ []. Qed.

Lemma chol_lower : is_lower L.
Proof. by case: cS. Qed.

Lemma innov_unit : innov_cov P H R \in unitmx.
Proof. by rewrite -[innov_cov P H R]chol_LLt unitmx_mul unitmx_tr chol_unitL. Qed.

Lemma correct_K_gain : correct_K cholesky P H R = gain P H R.
Proof.
rewrite /correct_K /cho_solve chol_LLt /correct_HP /gain !trmx_mul sP.
by rewrite (invmx_sym (innov_cov_sym H sP sR)).
Qed.

Lemma correct_mean :
  correct_ret0 cholesky x P z H R = cond_mean x P z H R.
Proof. by rewrite correct_ret0_eq correct_K_gain. Qed.

Lemma correct_cov :
  correct_ret1 cholesky P H R = cond_cov P H R.
Proof. by rewrite correct_ret1_eq correct_K_gain (joseph_gain innov_unit). Qed.

Theorem correct_mean_cov :
  correct_ret0 cholesky x P z H R
    = x + (P *m H^T *m invmx (H *m P *m H^T + R)) *m (z - H *m x)
  /\ correct_ret1 cholesky P H R
    = P - (P *m H^T *m invmx (H *m P *m H^T + R)) *m H *m P.
Proof. by rewrite correct_mean correct_cov. Qed.

Theorem post_symmetric : (correct_ret1 cholesky P H R)^T = correct_ret1 cholesky P H R.
Proof. by rewrite correct_ret1_eq; apply: joseph_sym. Qed.

Theorem information_form : P \in unitmx -> R \in unitmx ->
  correct_ret1 cholesky P H R *m (invmx P + H^T *m invmx R *m H) = 1%:M.
Proof. by move=> uP uR; rewrite correct_cov; apply: cond_cov_info innov_unit uP uR. Qed.

Theorem innovation_whitened :
  [/\ correct_ret2 cholesky x P z H R = invmx L *m correct_e x z H,
      (correct_ret2 cholesky x P z H R)^T *m correct_ret2 cholesky x P z H R
        = (correct_e x z H)^T *m invmx S *m correct_e x z H,
      invmx L *m S *m (invmx L)^T = 1%:M
    & is_lower L /\ L *m L^T = S].
Proof.
have uL := chol_unitL; rewrite correct_ret2_eq -/(correct_e x z H); split=> //.
- by rewrite trmx_mul !mulmxA -chol_LLt invmx_mul ?unitmx_tr // trmx_inv !mulmxA.
- by rewrite -chol_LLt mulmxA (mulVmx uL) mul1mx trmx_inv mulmxV ?unitmx_tr.
- by split; [apply: chol_lower | apply: chol_LLt].
Qed.

End Correct.

(** * The generated [correct] (order-level statements) *)
Section CorrectOrdered.
Variable F : realFieldType.
Variables n m : nat.
Variable cholesky : 'M[F]_m -> 'M[F]_m.
Variables (P : 'M[F]_n) (H : 'M[F]_(m, n)) (R : 'M[F]_m).

(** The returned covariance is PSD for PSD P, R -- whatever the
    Cholesky oracle returns (Joseph form, any gain). *)
Theorem post_psd : psd P -> psd R -> psd (correct_ret1 cholesky P H R).
Proof. by move=> pP pR; rewrite correct_ret1_eq; apply: joseph_psd. Qed.

(** S itself is PSD, so the Cholesky factorisation is asked of a PSD matrix. *)
Lemma correct_S_psd : psd P -> psd R -> psd (correct_S P H R).
Proof. exact: innov_cov_psd. Qed.

Theorem post_le_prior :
  P^T = P -> R^T = R -> cholesky_spec cholesky (correct_S P H R) ->
  psd P -> psd R ->
  P - correct_ret1 cholesky P H R
     = gain P H R *m correct_S P H R *m (gain P H R)^T
  /\ psd (P - correct_ret1 cholesky P H R).
Proof.
move=> sP sR cS pP pR; have uS := innov_unit cS; rewrite (correct_cov sP sR cS).
by split; [exact: prior_minus_post | exact: cond_cov_le_prior].
Qed.

End CorrectOrdered.

(** * Sequential processing of two measurement blocks = joint processing.
      General case: P may be singular; only the innovation covariances that
      the code factorises are required to be invertible.  The argument is the
      uniqueness of the solution K of the normal equation K S = P H^T. *)
Section SeqAbstract.
Variable F : fieldType.
Variables n m1 m2 : nat.
Variables (x : 'cV[F]_n) (P : 'M[F]_n).
Variables (z1 : 'cV[F]_m1) (H1 : 'M[F]_(m1, n)) (R1 : 'M[F]_m1).
Variables (z2 : 'cV[F]_m2) (H2 : 'M[F]_(m2, n)) (R2 : 'M[F]_m2).

Definition joint_z : 'cV[F]_(m1 + m2) := col_mx z1 z2.
Definition joint_H : 'M[F]_(m1 + m2, n) := col_mx H1 H2.
Definition joint_R : 'M[F]_(m1 + m2) := block_mx R1 0 0 R2.

Local Notation z := joint_z.
Local Notation H := joint_H.
Local Notation R := joint_R.

Lemma joint_innov_cov :
  innov_cov P H R =
  block_mx (innov_cov P H1 R1) (H1 *m P *m H2^T)
           (H2 *m P *m H1^T)   (innov_cov P H2 R2).
Proof.
rewrite /innov_cov /joint_H /joint_R mul_col_mx tr_col_mx mul_col_row add_block_mx.
by rewrite !addr0.
Qed.

(** Any pair of block gains solving the two block normal equations is the
    joint gain. *)
Section FromGains.
Variables (Ka : 'M[F]_(n, m1)) (Kb : 'M[F]_(n, m2)).
Hypothesis eq1 : Ka *m innov_cov P H1 R1 + Kb *m (H2 *m P *m H1^T) = P *m H1^T.
Hypothesis eq2 : Ka *m (H1 *m P *m H2^T) + Kb *m innov_cov P H2 R2 = P *m H2^T.

Lemma joint_normal_eq : row_mx Ka Kb *m innov_cov P H R = P *m H^T.
Proof.
by rewrite joint_innov_cov mul_row_block eq1 eq2 /joint_H tr_col_mx mul_mx_row.
Qed.

Hypothesis uS : innov_cov P H R \in unitmx.

Lemma joint_gain : gain P H R = row_mx Ka Kb.
Proof. by rewrite -(normal_eq_gain uS joint_normal_eq). Qed.

Lemma joint_cond_mean :
  cond_mean x P z H R = x + Ka *m (z1 - H1 *m x) + Kb *m (z2 - H2 *m x).
Proof.
rewrite /cond_mean joint_gain /joint_z /joint_H mul_col_mx.
by rewrite -[col_mx z1 z2 - _]/(col_mx z1 z2 + - col_mx _ _) opp_col_mx add_col_mx
           mul_row_col addrA.
Qed.

Lemma joint_cond_cov :
  cond_cov P H R = P - Ka *m H1 *m P - Kb *m H2 *m P.
Proof.
by rewrite /cond_cov joint_gain /joint_H mul_row_col mulmxDl opprD addrA.
Qed.

End FromGains.

(** Algebra of the two-stage update with abstract gains:
     K1 solves the normal equation of block 1 for P,
     P1 = P - K1 H1 P,
     K2 solves the normal equation of block 2 for P1. *)
Section TwoStage.
Variables (K1 : 'M[F]_(n, m1)) (K2 : 'M[F]_(n, m2)) (P1 : 'M[F]_n).
Hypothesis hK1 : K1 *m innov_cov P H1 R1 = P *m H1^T.
Hypothesis hP1 : P1 = P - K1 *m H1 *m P.
Hypothesis hK2 : K2 *m innov_cov P1 H2 R2 = P1 *m H2^T.

Lemma two_stage_eq1 :
  (K1 - K2 *m H2 *m K1) *m innov_cov P H1 R1 + K2 *m (H2 *m P *m H1^T) = P *m H1^T.
Proof. by rewrite mulmxBl -(mulmxA _ K1) hK1 !mulmxA subrK. Qed.

Lemma two_stage_eq2 :
  (K1 - K2 *m H2 *m K1) *m (H1 *m P *m H2^T) + K2 *m innov_cov P H2 R2 = P *m H2^T.
Proof.
(* K2 S2(P) is expressed through the normal equation of K2 for P1 = P - K1 H1 P *)
have -> : K2 *m innov_cov P H2 R2 =
          P1 *m H2^T + K2 *m (H2 *m K1 *m H1 *m P *m H2^T).
  rewrite -hK2 /innov_cov -mulmxDr hP1; congr (_ *m _).
  by rewrite mulmxBr mulmxBl !mulmxA addrAC subrK.
rewrite mulmxBl !mulmxA addrA [X in X + _]addrAC subrK.
by rewrite hP1 mulmxBl addrC subrK.
Qed.

Lemma two_stage_mean :
  (x + K1 *m (z1 - H1 *m x)) + K2 *m (z2 - H2 *m (x + K1 *m (z1 - H1 *m x)))
  = x + (K1 - K2 *m H2 *m K1) *m (z1 - H1 *m x) + K2 *m (z2 - H2 *m x).
Proof.
rewrite [H2 *m (_ + _)]mulmxDr opprD [z2 + _]addrA.
move: (z1 - H1 *m x) (z2 - H2 *m x) => e1 e2.
by rewrite mulmxBr mulmxBl !mulmxA !addrA addrAC.
Qed.

Lemma two_stage_cov :
  P1 - K2 *m H2 *m P1 = P - (K1 - K2 *m H2 *m K1) *m H1 *m P - K2 *m H2 *m P.
Proof.
rewrite hP1 mulmxBr !mulmxBl !mulmxA !opprB !addrA.
by congr (_ + _); rewrite addrAC.
Qed.

End TwoStage.

(** The two-stage update, first block 1 then block 2. *)
Definition seq_P1 : 'M[F]_n := cond_cov P H1 R1.
Definition seq_x1 : 'cV[F]_n := cond_mean x P z1 H1 R1.
Definition seq_P2 : 'M[F]_n := cond_cov seq_P1 H2 R2.
Definition seq_x2 : 'cV[F]_n := cond_mean seq_x1 seq_P1 z2 H2 R2.

Hypothesis uS1 : innov_cov P H1 R1 \in unitmx.
Hypothesis uS2 : innov_cov seq_P1 H2 R2 \in unitmx.
Hypothesis uS : innov_cov P H R \in unitmx.

Let hK1 := gain_normal_eq uS1.
Let hK2 := gain_normal_eq uS2.
Let hP1 : seq_P1 = P - gain P H1 R1 *m H1 *m P := erefl.
Let eq1 := two_stage_eq1 (gain seq_P1 H2 R2) hK1.
Let eq2 := two_stage_eq2 hP1 hK2.

Lemma seq_joint_mean : seq_x2 = cond_mean x P z H R.
Proof.
rewrite (joint_cond_mean eq1 eq2 uS).
by rewrite -(two_stage_mean (gain P H1 R1) (gain seq_P1 H2 R2)).
Qed.

Lemma seq_joint_cov : seq_P2 = cond_cov P H R.
Proof.
rewrite (joint_cond_cov eq1 eq2 uS).
by rewrite -(two_stage_cov (gain seq_P1 H2 R2) hP1).
Qed.

End SeqAbstract.

(** The other order: block 2 first, then block 1 -- same joint result. *)
Section SeqSwap.
Variable F : fieldType.
Variables n m1 m2 : nat.
Variables (x : 'cV[F]_n) (P : 'M[F]_n).
Variables (z1 : 'cV[F]_m1) (H1 : 'M[F]_(m1, n)) (R1 : 'M[F]_m1).
Variables (z2 : 'cV[F]_m2) (H2 : 'M[F]_(m2, n)) (R2 : 'M[F]_m2).

Local Notation z := (joint_z z1 z2).
Local Notation H := (joint_H H1 H2).
Local Notation R := (joint_R R1 R2).
Local Notation P1' := (seq_P1 P H2 R2).

Hypothesis uS2 : innov_cov P H2 R2 \in unitmx.
Hypothesis uS1 : innov_cov P1' H1 R1 \in unitmx.
Hypothesis uS : innov_cov P H R \in unitmx.

Let hK2 := gain_normal_eq uS2.
Let hK1 := gain_normal_eq uS1.
Let hP1 : P1' = P - gain P H2 R2 *m H2 *m P := erefl.

Lemma swap_eq1 :
  gain P1' H1 R1 *m innov_cov P H1 R1
  + (gain P H2 R2 - gain P1' H1 R1 *m H1 *m gain P H2 R2) *m (H2 *m P *m H1^T)
  = P *m H1^T.
Proof. by rewrite addrC (two_stage_eq2 hP1 hK1). Qed.

Lemma swap_eq2 :
  gain P1' H1 R1 *m (H1 *m P *m H2^T)
  + (gain P H2 R2 - gain P1' H1 R1 *m H1 *m gain P H2 R2) *m innov_cov P H2 R2
  = P *m H2^T.
Proof. by rewrite addrC (two_stage_eq1 H1 (gain P1' H1 R1) hK2). Qed.

Lemma seq_swap_joint_mean :
  seq_x2 x P z2 H2 R2 z1 H1 R1 = cond_mean x P z H R.
Proof.
rewrite (joint_cond_mean x z1 z2 swap_eq1 swap_eq2 uS) addrAC.
by rewrite -(two_stage_mean x z2 H2 z1 H1 (gain P H2 R2) (gain P1' H1 R1)).
Qed.

Lemma seq_swap_joint_cov :
  seq_P2 P H2 R2 H1 R1 = cond_cov P H R.
Proof.
rewrite (joint_cond_cov swap_eq1 swap_eq2 uS) addrAC.
by rewrite -(two_stage_cov H1 (gain P1' H1 R1) hP1).
Qed.

End SeqSwap.

(** * Sequential processing, for the generated code *)
Section CorrectTwice.
Variable F : fieldType.
Variables n mA mB : nat.
Variable cholA : 'M[F]_mA -> 'M[F]_mA.
Variable cholB : 'M[F]_mB -> 'M[F]_mB.
Variables (x : 'cV[F]_n) (P : 'M[F]_n).
Variables (zA : 'cV[F]_mA) (HA : 'M[F]_(mA, n)) (RA : 'M[F]_mA).
Variables (zB : 'cV[F]_mB) (HB : 'M[F]_(mB, n)) (RB : 'M[F]_mB).

Hypothesis sP : P^T = P.
Hypothesis sRA : RA^T = RA.
Hypothesis sRB : RB^T = RB.
Hypothesis cA : cholesky_spec cholA (correct_S P HA RA).
Hypothesis cB : cholesky_spec cholB (correct_S (correct_ret1 cholA P HA RA) HB RB).

(** two calls, block A then block B, are the two-stage update of the specification *)
Lemma correct_twice :
  [/\ correct_ret0 cholB (correct_ret0 cholA x P zA HA RA) (correct_ret1 cholA P HA RA) zB HB RB
        = seq_x2 x P zA HA RA zB HB RB,
      correct_ret1 cholB (correct_ret1 cholA P HA RA) HB RB = seq_P2 P HA RA HB RB,
      innov_cov P HA RA \in unitmx
    & innov_cov (seq_P1 P HA RA) HB RB \in unitmx].
Proof.
have sP1 := post_symmetric cholA HA sP sRA; have uB := innov_unit cB.
rewrite (correct_mean _ _ sP1 sRB cB) (correct_cov sP1 sRB cB).
rewrite (correct_mean _ _ sP sRA cA) (correct_cov sP sRA cA) in uB *.
by split=> //; exact: innov_unit cA.
Qed.

End CorrectTwice.

Section SequentialGen.
Variable F : fieldType.
Variables n m1 m2 : nat.
Variable chol1 : 'M[F]_m1 -> 'M[F]_m1.
Variable chol2 : 'M[F]_m2 -> 'M[F]_m2.
Variable chol12 : 'M[F]_(m1 + m2) -> 'M[F]_(m1 + m2).
Variables (x : 'cV[F]_n) (P : 'M[F]_n).
Variables (z1 : 'cV[F]_m1) (H1 : 'M[F]_(m1, n)) (R1 : 'M[F]_m1).
Variables (z2 : 'cV[F]_m2) (H2 : 'M[F]_(m2, n)) (R2 : 'M[F]_m2).

Hypothesis sP : P^T = P.
Hypothesis sR1 : R1^T = R1.
Hypothesis sR2 : R2^T = R2.

Local Notation z := (col_mx z1 z2).
Local Notation H := (col_mx H1 H2).
Local Notation R := (block_mx R1 0 0 R2).

(** the joint update factorises the joint innovation covariance *)
Hypothesis c12 : cholesky_spec chol12 (correct_S P H R).

Let sR : R^T = R := sym_block_diag sR1 sR2.
Let uS : innov_cov P (joint_H H1 H2) (joint_R R1 R2) \in unitmx := innov_unit c12.

Section Order12.
Let x1 := correct_ret0 chol1 x P z1 H1 R1.
Let P1 := correct_ret1 chol1 P H1 R1.
Hypothesis c1 : cholesky_spec chol1 (correct_S P H1 R1).
Hypothesis c2 : cholesky_spec chol2 (correct_S P1 H2 R2).

Lemma sequential12 :
  correct_ret0 chol2 x1 P1 z2 H2 R2 = correct_ret0 chol12 x P z H R /\
  correct_ret1 chol2 P1 H2 R2 = correct_ret1 chol12 P H R.
Proof.
have [-> -> uS1 uS2] := correct_twice x z1 z2 sP sR1 sR2 c1 c2.
rewrite (correct_mean _ _ sP sR c12) (correct_cov sP sR c12).
by rewrite (seq_joint_mean x z1 z2 uS1 uS2 uS) (seq_joint_cov uS1 uS2 uS).
Qed.
End Order12.

Section Order21.
Let x1 := correct_ret0 chol2 x P z2 H2 R2.
Let P1 := correct_ret1 chol2 P H2 R2.
Hypothesis c2 : cholesky_spec chol2 (correct_S P H2 R2).
Hypothesis c1 : cholesky_spec chol1 (correct_S P1 H1 R1).

Lemma sequential21 :
  correct_ret0 chol1 x1 P1 z1 H1 R1 = correct_ret0 chol12 x P z H R /\
  correct_ret1 chol1 P1 H1 R1 = correct_ret1 chol12 P H R.
Proof.
have [-> -> uS2 uS1] := correct_twice x z2 z1 sP sR2 sR1 c2 c1.
rewrite (correct_mean _ _ sP sR c12) (correct_cov sP sR c12).
by rewrite (seq_swap_joint_mean x z1 z2 uS2 uS1 uS) (seq_swap_joint_cov uS2 uS1 uS).
Qed.
End Order21.

End SequentialGen.

(** * The property as stated: P symmetric PSD, R symmetric positive definite,
      the Cholesky oracle returns a lower factor of S.  Invertibility of S and
      of the factor follow, so the oracle only has to factorise. *)
Lemma cholesky_spec_pd (F : realFieldType) (m : nat) (chol : 'M[F]_m -> 'M[F]_m) (S : 'M[F]_m) :
  pd S -> cholesky_factor chol S -> cholesky_spec chol S.
Proof.
move=> /pd_unitmx uS [lo LLt]; split=> //; split=> //.
by move: uS; rewrite -{1}LLt unitmx_mul => /andP[].
Qed.

Section CorrectPD.
Variable F : realFieldType.
Variables n m : nat.
Variable cholesky : 'M[F]_m -> 'M[F]_m.
Variables (x : 'cV[F]_n) (P : 'M[F]_n) (z : 'cV[F]_m) (H : 'M[F]_(m, n)) (R : 'M[F]_m).

Hypothesis sP : P^T = P.
Hypothesis pP : psd P.
Hypothesis sR : R^T = R.
Hypothesis pR : pd R.
Hypothesis cF : cholesky_factor cholesky (correct_S P H R).

Lemma correct_chol_spec : cholesky_spec cholesky (correct_S P H R).
Proof. exact: cholesky_spec_pd (innov_cov_pd H pP pR) cF. Qed.

Let cS := correct_chol_spec.

(** conditional mean and covariance of the linear-Gaussian model *)
Theorem correct_is_conditional :
  [/\ correct_ret0 cholesky x P z H R = cond_mean x P z H R,
      correct_ret1 cholesky P H R = cond_cov P H R,
      cond_cov P H R = schur_compl P (P *m H^T) (H *m P) (innov_cov P H R)
    & innov_cov P H R \in unitmx].
Proof.
split; [exact: correct_mean | exact: correct_cov | exact: cond_cov_schur | exact: innov_unit cS].
Qed.

Theorem correct_cov_properties :
  [/\ (correct_ret1 cholesky P H R)^T = correct_ret1 cholesky P H R,
      psd (correct_ret1 cholesky P H R)
    & loewner_le (correct_ret1 cholesky P H R) P].
Proof.
split; first exact: post_symmetric.
- exact/post_psd/pd_psd.
- by have [] := post_le_prior sP sR cS pP (pd_psd pR).
Qed.

End CorrectPD.

(** two measurement blocks, in either order, against the joint update;
    P may be singular *)
Section SequentialPD.
Variable F : realFieldType.
Variables n m1 m2 : nat.
Variable chol1 : 'M[F]_m1 -> 'M[F]_m1.
Variable chol2 : 'M[F]_m2 -> 'M[F]_m2.
Variable chol12 : 'M[F]_(m1 + m2) -> 'M[F]_(m1 + m2).
Variables (x : 'cV[F]_n) (P : 'M[F]_n).
Variables (z1 : 'cV[F]_m1) (H1 : 'M[F]_(m1, n)) (R1 : 'M[F]_m1).
Variables (z2 : 'cV[F]_m2) (H2 : 'M[F]_(m2, n)) (R2 : 'M[F]_m2).

Hypothesis sP : P^T = P.
Hypothesis pP : psd P.
Hypothesis sR1 : R1^T = R1.
Hypothesis pR1 : pd R1.
Hypothesis sR2 : R2^T = R2.
Hypothesis pR2 : pd R2.

Local Notation z := (col_mx z1 z2).
Local Notation H := (col_mx H1 H2).
Local Notation R := (block_mx R1 0 0 R2).

Hypothesis c12 : cholesky_factor chol12 (correct_S P H R).

Theorem sequential_eq_joint :
  (let x1 := correct_ret0 chol1 x P z1 H1 R1 in
   let P1 := correct_ret1 chol1 P H1 R1 in
   cholesky_factor chol1 (correct_S P H1 R1) ->
   cholesky_factor chol2 (correct_S P1 H2 R2) ->
   correct_ret0 chol2 x1 P1 z2 H2 R2 = correct_ret0 chol12 x P z H R /\
   correct_ret1 chol2 P1 H2 R2 = correct_ret1 chol12 P H R)
  /\
  (let x1 := correct_ret0 chol2 x P z2 H2 R2 in
   let P1 := correct_ret1 chol2 P H2 R2 in
   cholesky_factor chol2 (correct_S P H2 R2) ->
   cholesky_factor chol1 (correct_S P1 H1 R1) ->
   correct_ret0 chol1 x1 P1 z1 H1 R1 = correct_ret0 chol12 x P z H R /\
   correct_ret1 chol1 P1 H1 R1 = correct_ret1 chol12 P H R).
Proof.
have s12 : cholesky_spec chol12 (correct_S P H R).
  by apply: correct_chol_spec => //; apply: pd_block_diag.
split=> /= cA cB.
- have sA := correct_chol_spec pP pR1 cA.
  apply: sequential12 => //.
  apply: correct_chol_spec => //; exact/post_psd/pd_psd.
- have sA := correct_chol_spec pP pR2 cA.
  apply: sequential21 => //.
  apply: correct_chol_spec => //; exact/post_psd/pd_psd.
Qed.

End SequentialPD.

(** * Non-vacuity: the hypotheses of the theorems above are satisfiable *)
Section Examples.
Variable F : realFieldType.

Lemma is_lower_scalar (n : nat) (a : F) : is_lower (a%:M : 'M[F]_n).
Proof. by move=> i j ltij; rewrite mxE -val_eqE (ltn_eqF ltij) mulr0n. Qed.

(** one update, 1 x 1:  P = 3, H = 1, R = 1, S = 4, L = 2 *)
Lemma example_correct :
  let P : 'M[F]_1 := 3%:R%:M in let H : 'M[F]_1 := 1%:M in let R : 'M[F]_1 := 1%:M in
  let chol : 'M[F]_1 -> 'M[F]_1 := fun=> 2%:R%:M in
  [/\ P^T = P /\ psd P, R^T = R /\ pd R, cholesky_factor chol (correct_S P H R)
    & P \in unitmx].
Proof.
split; rewrite ?tr_scalar_mx //.
- by split=> //; apply: psd_scalar; rewrite ler0n.
- by split=> //; exact: pd1.
- split; first exact: is_lower_scalar.
  rewrite /correct_S /innov_cov tr_scalar_mx !mul1mx trmx1 mulmx1.
  by rewrite -scalar_mxM -raddfD /= -natrM -(natrD _ 3 1).
- by rewrite unitmxE det_scalar1 unitfE pnatr_eq0.
Qed.

(** two blocks with a SINGULAR prior covariance: P = 0, R1 = R2 = 1, any H1 H2 *)
Lemma correct_ret1_P0 (n m : nat) (chol : 'M[F]_m -> 'M[F]_m) (H : 'M[F]_(m, n)) (R : 'M[F]_m) :
  correct_ret1 chol 0 H R = 0.
Proof. by rewrite correct_ret1_eq /joseph /correct_K /correct_HP /cho_solve !mulmx0 trmx0 !mul0mx addr0. Qed.

Lemma correct_S_P0 (n m : nat) (H : 'M[F]_(m, n)) (R : 'M[F]_m) : correct_S 0 H R = R.
Proof. by rewrite /correct_S /innov_cov mulmx0 mul0mx add0r. Qed.

Lemma example_sequential (n m1 m2 : nat) (H1 : 'M[F]_(m1, n)) (H2 : 'M[F]_(m2, n)) :
  let P : 'M[F]_n := 0 in
  let R1 : 'M[F]_m1 := 1%:M in let R2 : 'M[F]_m2 := 1%:M in
  let chol1 : 'M[F]_m1 -> 'M[F]_m1 := fun=> 1%:M in
  let chol2 : 'M[F]_m2 -> 'M[F]_m2 := fun=> 1%:M in
  let chol12 : 'M[F]_(m1 + m2) -> 'M[F]_(m1 + m2) := fun=> 1%:M in
  [/\ (P^T = P /\ psd P) /\ (R1^T = R1 /\ pd R1) /\ (R2^T = R2 /\ pd R2),
      cholesky_factor chol12 (correct_S P (col_mx H1 H2) (block_mx R1 0 0 R2)),
      cholesky_factor chol1 (correct_S P H1 R1) /\
      cholesky_factor chol2 (correct_S (correct_ret1 chol1 P H1 R1) H2 R2)
    & cholesky_factor chol2 (correct_S P H2 R2) /\
      cholesky_factor chol1 (correct_S (correct_ret1 chol2 P H2 R2) H1 R1)].
Proof.
have fac k : cholesky_factor (fun=> 1%:M) (1%:M : 'M[F]_k).
  by split; [exact: is_lower_scalar | rewrite trmx1 mulmx1].
split; rewrite /= ?correct_ret1_P0 ?correct_S_P0 -?scalar_mx_block //.
by rewrite trmx0 !trmx1; do !split=> //; by [exact: psd0 | exact: pd1].
Qed.

End Examples.
