(** C16: Earth model and geodetic transforms are one coherent ellipsoidal geometry.
    Theorems about the GENERATED definitions (Gen/Earth.v, Gen/Transform.v,
    Gen/NumbaIntegrate.v) against the hand-written Spec/Ellipsoid.v. *)
From Coq Require Import Reals Lra Lia.
From Coquelicot Require Import Coquelicot.
From PV Require Import Base.RealTac Spec.LibSpecs Spec.Ellipsoid.
From PV Require Export Spec.EllipsoidFacts.
From PV Require Import Gen.Earth Gen.Transform Gen.NumbaIntegrate.
Open Scope R_scope.

(* [a + - b] (left behind by auto_derive and by unfolding Rminus) back to [a - b] *)
Ltac fold_minus :=
  repeat match goal with |- context [?a + - ?b] => change (a + - b) with (a - b) end.

(* [ring] for a goal  a = b  whose equality is typed in a structure over R (as is_derive_ext leaves it) *)
Ltac ring_R := match goal with |- @eq _ ?a ?b => change (@eq R a b) end; ring.

(* Bring every spelling of  W = 1 - e2 sin^2 x  and of  1 - sin^2 x  (commuted products, squares written
   either way, inside or outside a square root) to ONE canonical spelling, so that the proofs below do not
   depend on the order in which the traced code multiplies its factors. *)
Ltac canon_W :=
  repeat match goal with
  | |- context [1 - ?t] =>
      lazymatch t with
      | 66943799901413 / 10000000000000000 * (sin ?x * sin ?x) => fail
      | sin ?x * sin ?x => fail
      | context [sin ?x] =>
          first [ replace (1 - t) with (1 - 66943799901413 / 10000000000000000 * (sin x * sin x)) by ring
                | replace (1 - t) with (1 - sin x * sin x) by ring ]
      end
  | |- context [sqrt ?a] =>
      lazymatch a with
      | 1 - 66943799901413 / 10000000000000000 * (sin ?x * sin ?x) => fail
      | 1 - sin ?x * sin ?x => fail
      | context [sin ?x] =>
          first [ replace a with (1 - 66943799901413 / 10000000000000000 * (sin x * sin x)) by ring
                | replace a with (1 - sin x * sin x) by ring ]
      end
  end.

(* subtractions and W canonical: the first step on any goal that contains unfolded generated code *)
Ltac canon := fold_minus; canon_W.

(* bring every spelling of the angle [x] (e.g. (a+b)/2*k for 1/2*(a+b)*k) under sin / cos to [x] itself *)
Ltac canon_angle x :=
  repeat match goal with
  | |- context [sin ?a] =>
      lazymatch a with x => fail | _ => replace a with x by (first [ring | field | lra]) end
  | |- context [cos ?a] =>
      lazymatch a with x => fail | _ => replace a with x by (first [ring | field | lra]) end
  end.

(* unfold one generated function down to its inputs (W left in its canonical spelling) *)
Ltac unf_ecef := unfold lla_to_ecef_r0, lla_to_ecef_r1, lla_to_ecef_r2;
                 repeat autounfold with lla_to_ecef_db; canon_W.
Ltac unf_radii := unfold principal_radii_rn, principal_radii_re, principal_radii_rp;
                  repeat autounfold with principal_radii_db; canon_W.
Ltac unf_en := unfold mat_en_from_ll_m00, mat_en_from_ll_m01, mat_en_from_ll_m02,
                 mat_en_from_ll_m10, mat_en_from_ll_m11, mat_en_from_ll_m12,
                 mat_en_from_ll_m20, mat_en_from_ll_m21, mat_en_from_ll_m22;
               repeat autounfold with mat_en_from_ll_db.

(* name q the square root of W at [phi] and put  q * q = W,  0 < q,  q <> 0,  0 < W  in the context *)
Ltac with_q phi :=
  let q := fresh "q" in
  set (q := sqrt (1 - 66943799901413 / 10000000000000000 * (sin phi * sin phi))) in *;
  assert (q * q = 1 - 66943799901413 / 10000000000000000 * (sin phi * sin phi))
    by (apply sqrtW_sq);
  assert (0 < q) by (apply sqrtW_pos);
  assert (q <> 0) by lra;
  assert (0 < 1 - 66943799901413 / 10000000000000000 * (sin phi * sin phi)) by (apply W_pos').

(* make the numeric constants abstract so that [ring [H..]] can use q*q = 1 - e2*s*s *)
Ltac abs_consts :=
  replace (9933056200098587 / 10000000000000000)
    with (1 - 66943799901413 / 10000000000000000) in * by lra;
  set (e2c := 66943799901413 / 10000000000000000) in *;
  set (ac := 6378137) in *.

(** ** 0. The generated functions, each in one fixed spelling over Spec/Ellipsoid.v; the theorems below are
    proved from these equations and do not unfold generated code again. *)

Lemma ecef_char lat lon alt :
  let phi := lat * (PI / 180) in let lam := lon * (PI / 180) in
  let N := R_transverse A_ E2_ phi in
  lla_to_ecef_r0 lat lon alt = (N + alt) * cos phi * cos lam /\
  lla_to_ecef_r1 lat lon alt = (N + alt) * cos phi * sin lam /\
  lla_to_ecef_r2 lat lon alt = ((1 - E2_) * N + alt) * sin phi.
Proof.
  cbv zeta. unfold R_transverse, W2, A_, E2_. unf_ecef. canon.
  set (phi := lat * (PI / 180)). with_q phi. repeat split; field; lra.
Qed.

(* no restriction on the latitude: the parallel radius keeps the root the code takes for |cos| *)
Lemma radii_char lat alt :
  let phi := lat * (PI / 180) in
  principal_radii_rn lat alt = R_meridian A_ E2_ phi + alt /\
  principal_radii_re lat alt = R_transverse A_ E2_ phi + alt /\
  principal_radii_rp lat alt = (R_transverse A_ E2_ phi + alt) * sqrt (1 - sin phi * sin phi).
Proof.
  cbv zeta. unfold R_meridian, R_transverse, W2, A_, E2_. unf_radii. canon.
  set (phi := lat * (PI / 180)). with_q phi. repeat split; field; lra.
Qed.

Lemma perturb_dir lat lon alt d0 d1 d2 :
  perturb_lla_lat lat lon alt d0 d1 d2 = lat + d0 * (/ principal_radii_rn lat alt * (180 / PI)) /\
  perturb_lla_lon lat lon alt d0 d1 d2 = lon + d1 * (/ principal_radii_rp lat alt * (180 / PI)) /\
  perturb_lla_alt lat lon alt d0 d1 d2 = alt - d2.
Proof.
  unfold perturb_lla_lat, perturb_lla_lon, perturb_lla_alt. unf_radii.
  repeat autounfold with perturb_lla_db. canon_W. unfold Rdiv. repeat split; ring.
Qed.

Lemma lla_difference_char lat1 lon1 alt1 lat2 lon2 alt2 :
  let phim := 1 / 2 * (lat1 + lat2) * (PI / 180) in let altm := 1 / 2 * (alt1 + alt2) in
  compute_lla_difference_d0 lat1 lon1 alt1 lat2 lon2 alt2 =
    (lat1 - lat2) * (PI / 180) * (R_meridian A_ E2_ phim + altm) /\
  compute_lla_difference_d1 lat1 lon1 alt1 lat2 lon2 alt2 =
    (lon1 - lon2) * (PI / 180) * ((R_transverse A_ E2_ phim + altm) * sqrt (1 - sin phim * sin phim)) /\
  compute_lla_difference_d2 lat1 lon1 alt1 lat2 lon2 alt2 = - (alt1 - alt2).
Proof.
  cbv zeta. unfold compute_lla_difference_d0, compute_lla_difference_d1, compute_lla_difference_d2.
  repeat autounfold with compute_lla_difference_db.
  unfold R_meridian, R_transverse, W2, A_, E2_.
  canon_angle (1 / 2 * (lat1 + lat2) * (PI / 180)). canon.
  set (phim := 1 / 2 * (lat1 + lat2) * (PI / 180)). with_q phim.
  split; [|split]; [field; lra | field; lra | ring].
Qed.

Lemma neg_d2r lat : - lat * (PI / 180) = - (lat * (PI / 180)).
Proof. ring. Qed.

Lemma cos_m90 x : cos ((-90 - x) * (PI / 180)) = - sin (x * (PI / 180)).
Proof.
  replace ((-90 - x) * (PI / 180)) with (- (PI / 2 + x * (PI / 180))) by (field; apply PI_neq0).
  rewrite cos_neg. rewrite cos_plus. rewrite cos_PI2, sin_PI2. ring.
Qed.

Lemma sin_m90 x : sin ((-90 - x) * (PI / 180)) = - cos (x * (PI / 180)).
Proof.
  replace ((-90 - x) * (PI / 180)) with (- (PI / 2 + x * (PI / 180))) by (field; apply PI_neq0).
  rewrite sin_neg. rewrite sin_plus. rewrite cos_PI2, sin_PI2. ring.
Qed.

Lemma mat_en_columns lat lon :
  let phi := lat * d2r in let lam := lon * d2r in
  (mat_en_from_ll_m00 lat lon = north_x phi lam /\ mat_en_from_ll_m10 lat lon = north_y phi lam /\
   mat_en_from_ll_m20 lat lon = north_z phi lam) /\
  (mat_en_from_ll_m01 lat lon = east_x phi lam /\ mat_en_from_ll_m11 lat lon = east_y phi lam /\
   mat_en_from_ll_m21 lat lon = east_z phi lam) /\
  (mat_en_from_ll_m02 lat lon = - up_x phi lam /\ mat_en_from_ll_m12 lat lon = - up_y phi lam /\
   mat_en_from_ll_m22 lat lon = - up_z phi lam).
Proof.
  cbv zeta. unfold north_x, north_y, north_z, east_x, east_y, east_z, up_x, up_y, up_z, d2r.
  unf_en. rewrite !cos_m90, !sin_m90. repeat split; ring.
Qed.

(* the three generated copies of the gravity magnitude, unfolded *)
Ltac unf_grav := unfold gravity_g, nb_gravity_g, gravity_n_g0, gravity_n_g1, gravity_n_g2;
                 repeat autounfold with gravity_db nb_gravity_db gravity_n_db; canon_W.

(* the formula all three copies compute (Somigliana, free-air) *)
Definition gravity_spec (lat alt : R) : R :=
  GE_ * (1 + FG_ * (sin (lat * (PI / 180)) * sin (lat * (PI / 180)))) /
  sqrt (1 - 66943799901413 / 10000000000000000 * (sin (lat * (PI / 180)) * sin (lat * (PI / 180)))) *
  (1 - 2 * alt / A_).

Lemma gravity_char lat alt :
  gravity_g lat alt = gravity_spec lat alt /\ nb_gravity_g lat alt = gravity_spec lat alt /\
  gravity_n_g2 lat alt = gravity_spec lat alt.
Proof.
  unfold gravity_spec, GE_, FG_, A_. unf_grav. canon.
  set (phi := lat * (PI/180)). with_q phi. repeat split; field; lra.
Qed.

(* rate_n and gravitation_ecef, unfolded *)
Ltac unf_rate := unfold rate_n_w0, rate_n_w1, rate_n_w2; repeat autounfold with rate_n_db.
Ltac unf_gravitation := unfold gravitation_ecef_g0, gravitation_ecef_g1, gravitation_ecef_g2;
                        repeat autounfold with gravitation_ecef_db; canon_W.

(* gravitation_ecef rotates (centrifugal north component, gravity + centrifugal down component) from NED into
   ECEF; the centrifugal part is RATE^2 times the generated parallel radius *)
Lemma gravitation_char lat lon alt :
  let c := RATE_ * RATE_ * principal_radii_rp lat alt in
  let n := c * sin (lat * (PI / 180)) in let d := gravity_g lat alt + c * cos (lat * (PI / 180)) in
  gravitation_ecef_g0 lat lon alt = mat_en_from_ll_m00 lat lon * n + mat_en_from_ll_m02 lat lon * d /\
  gravitation_ecef_g1 lat lon alt = mat_en_from_ll_m10 lat lon * n + mat_en_from_ll_m12 lat lon * d /\
  gravitation_ecef_g2 lat lon alt = mat_en_from_ll_m20 lat lon * n + mat_en_from_ll_m22 lat lon * d.
Proof.
  cbv zeta. unfold RATE_. unf_gravitation. unf_grav. unf_en. unf_radii.
  pose proof (sqrtW_pos (lat * (PI / 180))). repeat split; field; lra.
Qed.

(* facts that close the side conditions [field] leaves when a generated radius (+ altitude) is a denominator *)
Ltac radii_facts q :=
  match goal with Hq : q * q = 1 - _ * (sin ?x * sin ?x) |- _ =>
    let s := constr:(sin x) in
    assert (q * q <= 1) by (pose proof (sin2_le1 x); nra);
    assert (q <= 1) by nra;
    assert (0 < q * q * q) by (apply Rmult_lt_0_compat; nra);
    assert (q * q * q <= 1) by nra;
    assert (10000000000000000 - 66943799901413 * (s * s) = 10000000000000000 * (q * q)) by lra
  end.

(* close the conjunction of side conditions left by [field] in characterising lemmas over the radii *)
Ltac radii_side q :=
  repeat split; try apply PI_neq0; try lra;
  try match goal with E : _ = 10000000000000000 * (q * q) |- _ => rewrite ?E end;
  apply Rgt_not_eq; nra.

Lemma rn_neq0 lat alt : -6000000 < alt -> principal_radii_rn lat alt <> 0.
Proof.
  intro H. rewrite (proj1 (radii_char lat alt)).
  pose proof (R_meridian_ge (lat * (PI / 180))). lra.
Qed.

Lemma rp_neq0 lat alt : -90 < lat < 90 -> -6000000 < alt -> principal_radii_rp lat alt <> 0.
Proof.
  intros Hl H. rewrite (proj2 (proj2 (radii_char lat alt))).
  rewrite (sqrt_1msin2 (lat * (PI/180))) by (apply cos_d2r_nonneg; lra).
  pose proof (R_transverse_ge (lat * (PI / 180))). pose proof (cos_d2r_pos lat Hl).
  apply Rgt_not_eq. apply Rmult_lt_0_compat; lra.
Qed.

(** ** 1. lla_to_ecef is the geodetic parametrisation of the ellipsoid *)

Lemma ecef_on_ellipsoid lat lon :
  on_ellipsoid A_ E2_ (lla_to_ecef_r0 lat lon 0) (lla_to_ecef_r1 lat lon 0)
               (lla_to_ecef_r2 lat lon 0).
Proof.
  destruct (ecef_char lat lon 0) as (-> & -> & ->).
  unfold on_ellipsoid, b2, R_transverse, W2, A_, E2_.
  set (phi := lat * (PI / 180)). set (lam := lon * (PI / 180)). with_q phi.
  pose proof (sc1 phi) as Hp. pose proof (sc1 lam) as Hl.
  field_simplify_eq; [|lra]. nra.
Qed.

Lemma ecef_altitude lat lon alt :
  lla_to_ecef_r0 lat lon alt = lla_to_ecef_r0 lat lon 0 + alt * up_x (lat * d2r) (lon * d2r) /\
  lla_to_ecef_r1 lat lon alt = lla_to_ecef_r1 lat lon 0 + alt * up_y (lat * d2r) (lon * d2r) /\
  lla_to_ecef_r2 lat lon alt = lla_to_ecef_r2 lat lon 0 + alt * up_z (lat * d2r) (lon * d2r).
Proof.
  destruct (ecef_char lat lon alt) as (-> & -> & ->). destruct (ecef_char lat lon 0) as (-> & -> & ->).
  unfold up_x, up_y, up_z, d2r. repeat split; ring.
Qed.

Lemma ecef_normal lat lon :
  let phi := lat * d2r in let lam := lon * d2r in
  let x := lla_to_ecef_r0 lat lon 0 in let y := lla_to_ecef_r1 lat lon 0 in
  let z := lla_to_ecef_r2 lat lon 0 in
  let k := R_transverse A_ E2_ phi / (A_ * A_) in
  grad_x A_ x y z = k * up_x phi lam /\
  grad_y A_ x y z = k * up_y phi lam /\
  grad_z A_ E2_ x y z = k * up_z phi lam.
Proof.
  cbv zeta. destruct (ecef_char lat lon 0) as (-> & -> & ->).
  unfold grad_x, grad_y, grad_z, b2, up_x, up_y, up_z, d2r, A_, E2_. repeat split; field; lra.
Qed.

Lemma radii_are_principal lat alt :
  -90 <= lat <= 90 ->
  let phi := lat * d2r in
  principal_radii_rn lat alt = R_meridian A_ E2_ phi + alt /\
  principal_radii_re lat alt = R_transverse A_ E2_ phi + alt /\
  principal_radii_rp lat alt = (R_transverse A_ E2_ phi + alt) * cos phi.
Proof.
  intros Hlat. cbv zeta. unfold d2r.
  rewrite <- (sqrt_1msin2 (lat * (PI / 180))) by (apply cos_d2r_nonneg, Hlat). apply radii_char.
Qed.

(** ** 2. The NED frame matrix: columns are north, east, down in ECEF *)

Lemma frame_orthonormal phi lam :
  north_x phi lam * north_x phi lam + north_y phi lam * north_y phi lam + north_z phi lam * north_z phi lam = 1 /\
  east_x phi lam * east_x phi lam + east_y phi lam * east_y phi lam + east_z phi lam * east_z phi lam = 1 /\
  up_x phi lam * up_x phi lam + up_y phi lam * up_y phi lam + up_z phi lam * up_z phi lam = 1 /\
  north_x phi lam * east_x phi lam + north_y phi lam * east_y phi lam + north_z phi lam * east_z phi lam = 0 /\
  north_x phi lam * up_x phi lam + north_y phi lam * up_y phi lam + north_z phi lam * up_z phi lam = 0 /\
  east_x phi lam * up_x phi lam + east_y phi lam * up_y phi lam + east_z phi lam * up_z phi lam = 0.
Proof.
  unfold north_x, north_y, north_z, east_x, east_y, east_z, up_x, up_y, up_z.
  repeat split; ring [(s2c phi) (s2c lam)].
Qed.

Lemma mat_en_orthonormal lat lon :
  let m := fun i j => match i, j with
    | 0%nat, 0%nat => mat_en_from_ll_m00 lat lon | 0%nat, 1%nat => mat_en_from_ll_m01 lat lon
    | 0%nat, _ => mat_en_from_ll_m02 lat lon
    | 1%nat, 0%nat => mat_en_from_ll_m10 lat lon | 1%nat, 1%nat => mat_en_from_ll_m11 lat lon
    | 1%nat, _ => mat_en_from_ll_m12 lat lon
    | _, 0%nat => mat_en_from_ll_m20 lat lon | _, 1%nat => mat_en_from_ll_m21 lat lon
    | _, _ => mat_en_from_ll_m22 lat lon end in
  forall i j, (i < 3)%nat -> (j < 3)%nat ->
    m 0%nat i * m 0%nat j + m 1%nat i * m 1%nat j + m 2%nat i * m 2%nat j = if Nat.eqb i j then 1 else 0.
Proof.
  cbv zeta. intros i j Hi Hj.
  destruct (mat_en_columns lat lon) as [[N0 [N1 N2]] [[E0 [E1 E2]] [D0 [D1 D2]]]].
  destruct (frame_orthonormal (lat * d2r) (lon * d2r)) as [O1 [O2 [O3 [O4 [O5 O6]]]]].
  destruct i as [|[|[|i]]]; try lia; destruct j as [|[|[|j]]]; try lia; cbn [Nat.eqb];
    rewrite ?N0, ?N1, ?N2, ?E0, ?E1, ?E2, ?D0, ?D1, ?D2; nra.
Qed.

(** The frame matrix is a rotation:  M^T (M p + u x M q) = p + (M^T u) x q.  With u = 0 this is orthonormality of the
    columns; the cross-product part needs the determinant +1.  [y] names the inner vector, so that a user supplies it in
    whatever spelling he has and proves the three equations by [ring]. *)
Lemma mat_en_rotation lat lon (p0 p1 p2 u0 u1 u2 q0 q1 q2 y0 y1 y2 : R) :
  let m00 := mat_en_from_ll_m00 lat lon in let m01 := mat_en_from_ll_m01 lat lon in let m02 := mat_en_from_ll_m02 lat lon in
  let m10 := mat_en_from_ll_m10 lat lon in let m11 := mat_en_from_ll_m11 lat lon in let m12 := mat_en_from_ll_m12 lat lon in
  let m20 := mat_en_from_ll_m20 lat lon in let m21 := mat_en_from_ll_m21 lat lon in let m22 := mat_en_from_ll_m22 lat lon in
  y0 = m00 * p0 + m01 * p1 + m02 * p2 + (u1 * (m20 * q0 + m21 * q1 + m22 * q2) - u2 * (m10 * q0 + m11 * q1 + m12 * q2)) ->
  y1 = m10 * p0 + m11 * p1 + m12 * p2 + (u2 * (m00 * q0 + m01 * q1 + m02 * q2) - u0 * (m20 * q0 + m21 * q1 + m22 * q2)) ->
  y2 = m20 * p0 + m21 * p1 + m22 * p2 + (u0 * (m10 * q0 + m11 * q1 + m12 * q2) - u1 * (m00 * q0 + m01 * q1 + m02 * q2)) ->
  m00 * y0 + m10 * y1 + m20 * y2 = p0 + ((m01 * u0 + m11 * u1 + m21 * u2) * q2 - (m02 * u0 + m12 * u1 + m22 * u2) * q1) /\
  m01 * y0 + m11 * y1 + m21 * y2 = p1 + ((m02 * u0 + m12 * u1 + m22 * u2) * q0 - (m00 * u0 + m10 * u1 + m20 * u2) * q2) /\
  m02 * y0 + m12 * y1 + m22 * y2 = p2 + ((m00 * u0 + m10 * u1 + m20 * u2) * q1 - (m01 * u0 + m11 * u1 + m21 * u2) * q0).
Proof.
  cbv zeta. destruct (mat_en_columns lat lon) as ((-> & -> & ->) & (-> & -> & ->) & (-> & -> & ->)).
  unfold north_x, north_y, north_z, east_x, east_y, east_z, up_x, up_y, up_z.
  intros -> -> ->. repeat split; ring [(s2c (lat * d2r)) (s2c (lon * d2r))].
Qed.

(** frame kinematics along a curve:  M' = M [w x]  with w the rate of the frame resolved in the frame *)
Lemma mat_en_derive (la lo : R -> R) t dla dlo :
  is_derive la t dla -> is_derive lo t dlo ->
  let wN := dlo * d2r * cos (la t * d2r) in let wE := - (dla * d2r) in let wD := - (dlo * d2r * sin (la t * d2r)) in
  let M := fun (m : R -> R -> R) s => m (la s) (lo s) in
  is_derive (M mat_en_from_ll_m00) t (M mat_en_from_ll_m01 t * wD - M mat_en_from_ll_m02 t * wE) /\
  is_derive (M mat_en_from_ll_m01) t (M mat_en_from_ll_m02 t * wN - M mat_en_from_ll_m00 t * wD) /\
  is_derive (M mat_en_from_ll_m02) t (M mat_en_from_ll_m00 t * wE - M mat_en_from_ll_m01 t * wN) /\
  is_derive (M mat_en_from_ll_m10) t (M mat_en_from_ll_m11 t * wD - M mat_en_from_ll_m12 t * wE) /\
  is_derive (M mat_en_from_ll_m11) t (M mat_en_from_ll_m12 t * wN - M mat_en_from_ll_m10 t * wD) /\
  is_derive (M mat_en_from_ll_m12) t (M mat_en_from_ll_m10 t * wE - M mat_en_from_ll_m11 t * wN) /\
  is_derive (M mat_en_from_ll_m20) t (M mat_en_from_ll_m21 t * wD - M mat_en_from_ll_m22 t * wE) /\
  is_derive (M mat_en_from_ll_m21) t (M mat_en_from_ll_m22 t * wN - M mat_en_from_ll_m20 t * wD) /\
  is_derive (M mat_en_from_ll_m22) t (M mat_en_from_ll_m20 t * wE - M mat_en_from_ll_m21 t * wN).
Proof.
  intros Hla Hlo. cbv zeta beta.
  assert (Xla := ex_intro _ _ Hla : ex_derive la t). assert (Xlo := ex_intro _ _ Hlo : ex_derive lo t).
  assert (E := fun s => mat_en_columns (la s) (lo s)). cbv zeta in E.
  destruct (E t) as ((-> & -> & ->) & (-> & -> & ->) & (-> & -> & ->)).
  unfold north_x, north_y, north_z, east_x, east_y, east_z, up_x, up_y, up_z in *.
  split_conj;
    (eapply is_derive_ext; [intro s; symmetry; apply (E s)|]); (auto_derive; [repeat split; assumption|]);
    rewrite ?(is_derive_unique (fun x : R => la x) _ _ Hla), ?(is_derive_unique (fun x : R => lo x) _ _ Hlo);
    ring [(s2c (la t * d2r))].
Qed.

(** ** 3. Derivative of the ECEF position along a curve: radii times frame axes *)

(* the meridian section (N cos, (1-e2) N sin) of the ellipsoid moves along its tangent at the rate of the
   meridian radius of curvature *)
Lemma meridian_section_derive phi :
  is_derive (fun p : R => R_transverse A_ E2_ p * cos p) phi (- (R_meridian A_ E2_ phi * sin phi)) /\
  is_derive (fun p : R => (1 - E2_) * R_transverse A_ E2_ p * sin p) phi (R_meridian A_ E2_ phi * cos phi).
Proof.
  unfold R_transverse, R_meridian, W2, A_, E2_.
  pose proof (W_pos' phi) as HW. pose proof (sqrtW_pos phi) as HQ.
  split; (auto_derive; fold_minus; [repeat split; auto; lra|]); with_q phi;
    abs_consts;
    match goal with H : ?q * ?q = 1 - _ |- _ =>
      rewrite <- H; field_simplify_eq; [ring [H (s2c phi)] | lra] end.
Qed.

Lemma ecef_derive_along (la lo al : R -> R) t dla dlo dal :
  is_derive la t dla -> is_derive lo t dlo -> is_derive al t dal ->
  let phi := la t * (PI / 180) in let lam := lo t * (PI / 180) in
  let kn := dla * (PI / 180) * (R_meridian A_ E2_ phi + al t) in
  let ke := dlo * (PI / 180) * ((R_transverse A_ E2_ phi + al t) * cos phi) in
  is_derive (fun s => lla_to_ecef_r0 (la s) (lo s) (al s)) t
    (kn * north_x phi lam + ke * east_x phi lam + dal * up_x phi lam) /\
  is_derive (fun s => lla_to_ecef_r1 (la s) (lo s) (al s)) t
    (kn * north_y phi lam + ke * east_y phi lam + dal * up_y phi lam) /\
  is_derive (fun s => lla_to_ecef_r2 (la s) (lo s) (al s)) t
    (kn * north_z phi lam + ke * east_z phi lam + dal * up_z phi lam).
Proof.
  intros Hla Hlo Hal. cbv zeta.
  destruct (meridian_section_derive (la t * (PI / 180))) as [HP HQ].
  set (P := fun p => R_transverse A_ E2_ p * cos p) in *.
  set (Q := fun p => (1 - E2_) * R_transverse A_ E2_ p * sin p) in *.
  assert (E : forall s,
    lla_to_ecef_r0 (la s) (lo s) (al s) =
      (P (la s * (PI / 180)) + al s * cos (la s * (PI / 180))) * cos (lo s * (PI / 180)) /\
    lla_to_ecef_r1 (la s) (lo s) (al s) =
      (P (la s * (PI / 180)) + al s * cos (la s * (PI / 180))) * sin (lo s * (PI / 180)) /\
    lla_to_ecef_r2 (la s) (lo s) (al s) = Q (la s * (PI / 180)) + al s * sin (la s * (PI / 180))).
  { intro s. destruct (ecef_char (la s) (lo s) (al s)) as (-> & -> & ->). unfold P, Q. repeat split; ring. }
  assert (EP : forall p, P p = R_transverse A_ E2_ p * cos p) by reflexivity.
  assert (EQ : forall p, Q p = (1 - E2_) * R_transverse A_ E2_ p * sin p) by reflexivity.
  clearbody P Q.
  assert (Xla := ex_intro _ _ Hla : ex_derive la t). assert (Xlo := ex_intro _ _ Hlo : ex_derive lo t).
  assert (Xal := ex_intro _ _ Hal : ex_derive al t).
  assert (XP := ex_intro _ _ HP : ex_derive P _). assert (XQ := ex_intro _ _ HQ : ex_derive Q _).
  unfold north_x, north_y, north_z, east_x, east_y, east_z, up_x, up_y, up_z.
  split; [|split];
    (eapply is_derive_ext; [intro s; symmetry; apply (E s)|]);
    (auto_derive; [repeat split; assumption|]);
    rewrite ?(is_derive_unique (fun x : R => la x) _ _ Hla), ?(is_derive_unique (fun x : R => lo x) _ _ Hlo),
      ?(is_derive_unique (fun x : R => al x) _ _ Hal), ?(is_derive_unique (fun x : R => P x) _ _ HP),
      ?(is_derive_unique (fun x : R => Q x) _ _ HQ), ?EP, ?EQ; ring.
Qed.

(** ** 4. Metre perturbation and metre difference agree to first order *)

Lemma deriv_at0_of_factor (rho : R -> R) :
  ex_derive rho 0 -> rho 0 = 1 -> is_derive (fun d => d * rho d) 0 1.
Proof.
  intros Hex H0. auto_derive; [exact Hex|]. rewrite H0. ring.
Qed.

Lemma R_meridian_ex_derive (g : R -> R) d : ex_derive g d -> ex_derive (fun t => R_meridian A_ E2_ (g t)) d.
Proof.
  intro Hg. unfold R_meridian, W2, A_, E2_.
  pose proof (W_pos' (g d)) as HW. pose proof (sqrtW_pos (g d)) as HQ.
  auto_derive. fold_minus. repeat split; auto; try lra. apply Rgt_not_eq. nra.
Qed.

Lemma R_transverse_ex_derive (g : R -> R) d : ex_derive g d -> ex_derive (fun t => R_transverse A_ E2_ (g t)) d.
Proof.
  intro Hg. unfold R_transverse, W2, A_, E2_.
  pose proof (W_pos' (g d)) as HW. pose proof (sqrtW_pos (g d)) as HQ.
  auto_derive. fold_minus. repeat split; auto; lra.
Qed.

Lemma perturb_diff_first_order lat lon alt :
  -90 < lat < 90 -> -1000000 <= alt ->
  is_derive (fun d => compute_lla_difference_d0 (perturb_lla_lat lat lon alt d 0 0)
                        (perturb_lla_lon lat lon alt d 0 0) (perturb_lla_alt lat lon alt d 0 0)
                        lat lon alt) 0 1 /\
  is_derive (fun d => compute_lla_difference_d1 (perturb_lla_lat lat lon alt 0 d 0)
                        (perturb_lla_lon lat lon alt 0 d 0) (perturb_lla_alt lat lon alt 0 d 0)
                        lat lon alt) 0 1 /\
  is_derive (fun d => compute_lla_difference_d2 (perturb_lla_lat lat lon alt 0 0 d)
                        (perturb_lla_lon lat lon alt 0 0 d) (perturb_lla_alt lat lon alt 0 0 d)
                        lat lon alt) 0 1.
Proof.
  intros Hlat Halt.
  set (phi := lat * (PI / 180)).
  destruct (radii_char lat alt) as (Hrn & _ & Hrp). cbv zeta in Hrn, Hrp. fold phi in Hrn, Hrp.
  assert (Hs : sqrt (1 - sin phi * sin phi) = cos phi) by (apply sqrt_1msin2, cos_d2r_nonneg; lra).
  pose proof (R_meridian_ge phi) as HM. pose proof (R_transverse_ge phi) as HT.
  pose proof (cos_d2r_pos lat Hlat) as Hcos. fold phi in Hcos.
  pose proof PI_RGT_0 as Hpi.
  set (cn := / principal_radii_rn lat alt * (180 / PI)).
  set (ce := / principal_radii_rp lat alt * (180 / PI)).
  split; [|split].
  - (* north: d -> d * rho d with rho 0 = 1 *)
    apply (is_derive_ext (fun d => d * (cn * (PI / 180) *
             (R_meridian A_ E2_ (1 / 2 * (lat + d * cn + lat) * (PI / 180)) + 1 / 2 * (alt - 0 + alt))))).
    { intro d. destruct (perturb_dir lat lon alt d 0 0) as (-> & -> & ->).
      rewrite (proj1 (lla_difference_char _ _ _ _ _ _)). fold cn. ring_R. }
    apply deriv_at0_of_factor.
    + apply ex_derive_mult; [apply ex_derive_const|].
      apply @ex_derive_plus; [|apply ex_derive_const].
      apply (R_meridian_ex_derive (fun d => 1 / 2 * (lat + d * cn + lat) * (PI / 180))). auto_derive. exact I.
    + replace (1 / 2 * (lat + 0 * cn + lat) * (PI / 180)) with phi by (unfold phi; field).
      unfold cn. rewrite Hrn. field. split; lra.
  - apply (is_derive_ext (fun d => d * (ce * (PI / 180) *
             ((R_transverse A_ E2_ (1 / 2 * (lat + lat) * (PI / 180)) + 1 / 2 * (alt - 0 + alt)) *
              sqrt (1 - sin (1 / 2 * (lat + lat) * (PI / 180)) * sin (1 / 2 * (lat + lat) * (PI / 180))))))).
    { intro d. destruct (perturb_dir lat lon alt 0 d 0) as (-> & -> & ->).
      rewrite (proj1 (proj2 (lla_difference_char _ _ _ _ _ _))). fold ce.
      replace (lat + 0 * (/ principal_radii_rn lat alt * (180 / PI)) + lat) with (lat + lat) by ring. ring_R. }
    apply deriv_at0_of_factor.
    + apply ex_derive_const.
    + replace (1 / 2 * (lat + lat) * (PI / 180)) with phi by (unfold phi; field).
      unfold ce. rewrite Hrp, Hs. field. repeat split; lra.
  - apply (is_derive_ext (fun d => d)).
    { intro d. destruct (perturb_dir lat lon alt 0 0 d) as (-> & -> & ->).
      rewrite (proj2 (proj2 (lla_difference_char _ _ _ _ _ _))). lra. }
    auto_derive; [exact I|ring_R].
Qed.

(** ** 5. Gravity, gravitation, Earth rate: one field in all representations *)

Lemma gravity_copies_equal lat alt : nb_gravity_g lat alt = gravity_g lat alt.
Proof. destruct (gravity_char lat alt) as [E1 [E2 _]]. rewrite E1, E2. reflexivity. Qed.

Lemma gravitation_is_gravity_minus_centrifugal lat lon alt :
  -90 <= lat <= 90 ->
  let x := lla_to_ecef_r0 lat lon alt in let y := lla_to_ecef_r1 lat lon alt in
  let z := lla_to_ecef_r2 lat lon alt in
  gravitation_ecef_g0 lat lon alt =
    mat_en_from_ll_m02 lat lon * gravity_g lat alt - centrifugal_x RATE_ x y z /\
  gravitation_ecef_g1 lat lon alt =
    mat_en_from_ll_m12 lat lon * gravity_g lat alt - centrifugal_y RATE_ x y z /\
  gravitation_ecef_g2 lat lon alt =
    mat_en_from_ll_m22 lat lon * gravity_g lat alt - centrifugal_z RATE_ x y z.
Proof.
  intros Hlat. cbv zeta.
  destruct (gravitation_char lat lon alt) as (-> & -> & ->).
  destruct (radii_are_principal lat alt Hlat) as (_ & _ & ->).
  destruct (ecef_char lat lon alt) as (-> & -> & _).
  destruct (mat_en_columns lat lon) as ((-> & -> & ->) & _ & (-> & -> & ->)).
  unfold centrifugal_x, centrifugal_y, centrifugal_z, north_x, north_y, north_z, up_x, up_y, up_z, d2r.
  repeat split; ring [(s2c (lat * (PI / 180)))].
Qed.
